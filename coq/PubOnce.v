(* PubOnce.v — over a whole run every awaiter id appears in at most one wake-up list, and there at most once:
   no awaiter is ever resumed twice (C16 "each parked awaiter resumed exactly once", the at-most-once half for whole
   histories; the at-least-once half is the per-event exactness of the wake lists, Properties_C16.c16_wakes_exact). *)
From Cocls Require Import Base BaseProofs PublisherDefs PublisherProofs.
Local Open Scope Z_scope.

Lemma once_nil woken S b : once woken S b -> once (woken ++ []) S b.
Proof. rewrite app_nil_r. trivial. Qed.

Lemma kick_perm sub l :
  Permutation (flat_map awt_of l) (olist (snd (kick_regs sub l)) ++ flat_map awt_of (fst (kick_regs sub l))).
Proof.
  destruct (kick_regs_spec sub l) as [(-> & _)|(h & L & _ & _ & ->)]; cbn [fst snd olist app]; [reflexivity|].
  exact (Permutation_sym (flat_map_set_nth awt_of l h (mkReg (r_pos (rget l h)) (r_sub (rget l h)) None (r_used (rget l h)) true)
                                             reg0 L)).
Qed.

Definition stored (e : tst) : list Z := flat_map awt_of (regs (pq e)).

Lemma close_once woken q b : once woken (flat_map awt_of (regs q)) b ->
  once (woken ++ snd (close_q q)) (flat_map awt_of (regs (fst (close_q q)))) b.
Proof.
  intros H. unfold close_q. destruct (closed q); [cbn [fst snd]; apply once_nil; exact H|apply push_once; exact H].
Qed.

Theorem step_once e x woken : once woken (stored e) (nawt e) ->
  once (woken ++ o_wk (snd (step e x))) (stored (fst (step e x))) (nawt (fst (step e x))).
Proof.
  intros H. unfold stored in *. pose proof (once_nil _ _ _ H) as N.
  destruct (step_cases e x) as [x|v _|vs _|s t _|s t p _|s src o _ _|s o _|s o _|s o _|s|s o _|_|s o _|_];
    cbn zeta; cbn [fst snd o_wk okw ok3 rejected new_sub with_pq pq nawt].
  - exact N.
  - apply push_once. exact H.
  - unfold push_batch. destruct vs; [exact N|apply push_once; exact H].
  - apply once_nil, subscribe_once, H.
  - apply once_nil, subscribe_once, H.
  - apply once_nil, subscribe_once, H.
  - apply once_nil. apply (moved_once woken (pq e) (s_h o)); [apply advance_lk_moved|exact H].
  - apply once_nil. destruct (advance_suspend_writes (pq e) (s_h o) (nawt e)) as [E|(x & E & [X|X])]; rewrite E.
    + apply once_mono with (b := nawt e); [exact H|lia].
    + apply once_mono with (b := nawt e); [|lia]. apply once_set; [exact H|right; exact X].
    + unfold set_reg, with_regs. cbn [regs]. destruct (Nat.lt_ge_cases (s_h o) (length (regs (pq e)))) as [L|L].
      * apply once_set_fresh; [exact L|exact H|exact X].
      * rewrite set_nth_out by exact L. apply once_mono with (b := nawt e); [exact H|lia].
  - pose proof (moved_once woken (pq e) (s_h o) _ _ (get_value_lk_moved (pq e) (s_h o) (s_mode o)) H) as G.
    destruct (snd (get_value_lk (pq e) (s_h o) (s_mode o))); cbn [fst snd o_wk ok3 ub_obs with_pq pq nawt];
      apply once_nil; try exact G; exact H.
  - unfold kick_lk. pose proof (kick_perm (Z.of_nat s) (regs (pq e))) as P.
    destruct (kick_regs (Z.of_nat s) (regs (pq e))) as [r a]. cbn [fst snd with_regs regs] in *.
    eapply once_move; [exact H|exact P].
  - apply once_nil. unfold leave_lk. cbn [regs]. apply once_set; [exact H|right; reflexivity].
  - apply close_once. exact H.
  - exact N.
  - apply close_once. exact H.
Qed.

Definition wakes (l : list obs) : list Z := flat_map o_wk l.

Lemma once_bump e woken : once woken (stored e) (nawt e) -> once woken (stored (bump e)) (nawt (bump e)).
Proof. intros H. unfold bump, stored. cbn [pq nawt]. apply once_mono with (b := nawt e); [exact H|lia]. Qed.

Lemma once_set_blk e s o b woken : once woken (stored e) (nawt e) -> once woken (stored (set_blk e s o b)) (nawt (set_blk e s o b)).
Proof. trivial. Qed.

Theorem stepx_once e x woken : once woken (stored e) (nawt e) ->
  once (woken ++ wakes (snd (stepx e x))) (stored (fst (stepx e x))) (nawt (fst (stepx e x))).
Proof.
  intros H.
  assert (S1 : forall e woken x, once woken (stored e) (nawt e) ->
               once (woken ++ wakes [snd (step e x)]) (stored (fst (step e x))) (nawt (fst (step e x)))).
  { intros e0 W0 x0 H0. unfold wakes. cbn [flat_map]. rewrite app_nil_r. apply step_once. exact H0. }
  assert (WC : forall a b, wakes (a :: b) = o_wk a ++ wakes b) by reflexivity.
  unfold stepx, stepx_gen. change (step_gen advance_suspend_lk get_value_lk) with step.
  destruct x; try (apply S1; exact H).
  - (* OBlock *)
    destruct (free_obj e s) as [o|]; [|cbn [fst snd]; unfold wakes; cbn; apply once_nil; exact H].
    set (r1 := step e (OReady s)).
    pose proof (step_once e (OReady s) woken H) as H1. fold r1 in H1.
    destruct (o_a (snd r1) =? 1).
    { cbn [fst snd]. rewrite WC, app_assoc. apply once_bump. apply S1. exact H1. }
    set (r2 := step (fst r1) (OReady s)).
    pose proof (step_once (fst r1) (OReady s) _ H1) as H2. fold r2 in H2.
    destruct (o_a (snd r2) =? 1).
    { cbn [fst snd]. rewrite WC, app_assoc, WC, app_assoc. apply once_bump. apply S1. exact H2. }
    set (r3 := step (fst r2) (OSuspend s)).
    pose proof (step_once (fst r2) (OSuspend s) _ H2) as H3. fold r3 in H3.
    destruct (o_a (snd r3) =? 1).
    { cbn [fst snd]. rewrite WC, app_assoc, WC, app_assoc. unfold wakes. cbn [flat_map]. rewrite app_nil_r.
      apply once_set_blk. exact H3. }
    cbn [fst snd]. rewrite WC, app_assoc, WC, app_assoc, WC, app_assoc. apply S1. exact H3.
  - (* OBlockFin *)
    destruct (live_obj e s) as [o|]; [|cbn [fst snd]; unfold wakes; cbn; apply once_nil; exact H].
    destruct (s_blk o && match r_awt (rget (regs (pq e)) (s_h o)) with None => true | Some _ => false end);
      [|cbn [fst snd]; unfold wakes; cbn; apply once_nil; exact H].
    cbn [fst snd]. apply S1. apply once_set_blk. exact H.
  - (* OPoll *)
    destruct (free_obj e s) as [o|]; [|cbn [fst snd]; unfold wakes; cbn; apply once_nil; exact H].
    set (r1 := step e (OReady s)).
    pose proof (step_once e (OReady s) woken H) as H1. fold r1 in H1.
    destruct (o_a (snd r1) =? 1); cbn [fst snd].
    + rewrite WC, app_assoc. apply S1. exact H1.
    + unfold wakes. cbn [flat_map]. rewrite app_nil_r. exact H1.
Qed.

Theorem run_once l : forall e woken, once woken (stored e) (nawt e) ->
  once (woken ++ wakes (fst (run_from e l))) (stored (snd (run_from e l))) (nawt (snd (run_from e l))).
Proof.
  induction l as [|x l IH]; intros e woken H; [cbn; apply once_nil; exact H|].
  unfold run_from in *. cbn [run_gen fst snd]. fold (stepx e x).
  unfold wakes. rewrite flat_map_app. fold (wakes (snd (stepx e x))). rewrite app_assoc.
  apply IH. apply stepx_once. exact H.
Qed.

(* no awaiter is resumed twice in a whole run, whatever the history *)
Theorem woken_at_most_once mn mx ops : NoDup (wakes (fst (run_from (tst0 mn mx) ops))).
Proof.
  assert (H0 : once [] (stored (tst0 mn mx)) (nawt (tst0 mn mx))).
  { split; [constructor|]. intros a []. }
  destruct (run_once ops _ _ H0) as (N & _). cbn [app] in N.
  revert N. generalize (wakes (fst (run_from (tst0 mn mx) ops))) (stored (snd (run_from (tst0 mn mx) ops))).
  intros a b N. induction a as [|x a IH]; [constructor|]. cbn in N. inversion N as [|? ? NX NN]; subst.
  constructor; [|apply IH; exact NN]. intros I. apply NX. apply in_app_iff. left. exact I.
Qed.
