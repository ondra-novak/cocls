(* AdaptersLog.v — the event log has exactly the shape the counters dictate *)
From Cocls Require Import Base BaseProofs AdaptersDefs AdaptersInv.
Require Import ZifyBool.
Local Open Scope nat_scope.

(* the handler's second run (re-armed call_fn_future_awaiter; that adapter has no helper block) *)
Definition cb2_log (o : outcome) (t : nat) : list (nat * ev) := [(t, ECb o 0 0); (t, ECbRet 0 0)].

(* the log is the concatenation of at most four segments, each present exactly when its counter is 1 *)
Definition LogInv (c : cfg) (s : st) : Prop :=
  exists t1 t2 t3 t4,
      log s = (if Nat.eqb (nconv s) 1 then conv_log c (payload s) t1 else [])
              ++ (if Nat.eqb (ndeliv s) 1 then [(t2, EODeliv (expected c s))] else [])
              ++ (if atomic_cb c && Nat.eqb (nfire s) 1 then cb_log c (payload s) t3 else [])
              ++ (if Nat.eqb (nfire2 s) 1 then cb2_log (payload2 s) t4 else []).

Lemma loginv_init c : LogInv c (init c).
Proof. exists 0, 0, 0, 0. cbn. rewrite andb_false_r. reflexivity. Qed.

(* LogInv reads shared fields only *)
Lemma LogInv_shared c s s' : shared s = shared s' -> LogInv c s -> LogInv c s'.
Proof.
  intros E H. assert (K : LogInv c (shared s)) by exact H. rewrite E in K. exact K.
Qed.

(* Every segment of the log is written when its counter goes from 0 to 1, and then the segments behind it are still
   empty: their counters are 0.  A claim changes a payload when nothing of that operation has been logged yet. *)
Lemma loginv_exec c s i ins : i < 3 -> InvN c s (fun p => cnt p [ins] + N p s) -> LogInv c s ->
  LogInv c (fst (exec c s i ins)).
Proof.
  intros L [[_ Hres Hdtk _ Hfired Halloc Hfree] [_ Hpay0 _] _ [Hstage Hoprom Htok _ HphB _ _ _ _ _ Hnores Hotk Hcvw Hndeliv] [_ _ _ _ Hopay Hnconv] [_ Hres2 Hdtk2 _ Hfired2 _ _] [Hcfg _ Hpay02 _]]
         (t1 & t2 & t3 & t4 & E).
  assert (CV : cv c <= 1) by (unfold cv, b2n; destruct (is_conv c); lia).
  assert (RD : rdy (slot s) <= 1 /\ rdy (slot2 s) <= 1) by (destruct (slot s), (slot2 s); cbn [rdy]; lia).
  assert (MC : cv c * nfire s <= nfire s /\ cv c * nfire s <= cv c /\ cv c + nfire s <= cv c * nfire s + 1) by nia.
  assert (MR : re c * nfire s <= nfire s /\ re c * nfire s <= re c /\ re c <= 1) by (unfold re; destruct (c_re c); lia).
  unfold expected in *. symmetry in E.
  destruct ins; unfold exec, fire, fire2, deliver; cbn [fst]; dflags s; cbn [fst];
    try (eapply LogInv_shared; [symmetry; apply shared_push|]);
    try (exists t1, t2, t3, t4; symmetry; exact E); unfold LogInv, expected; red1; redch;
    repeat match goal with Q : ?f ?x = _ |- _ => is_var x; rewrite Q in * end; redch.
  (* a claim that succeeds: nothing of the operation is logged yet *)
  all: try (specialize (Hpay0 eq_refl); rewrite Hpay0 in *; cbn [isv] in *;
       assert (Z : nfire s = 0 /\ nconv s = 0 /\ ndeliv s = 0 /\ nfire2 s = 0) by lia; destruct Z as (Z1 & Z2 & Z3 & Z4);
       rewrite Z1, Z2, Z3, Z4 in *; cbn [Nat.eqb andb app] in *; rewrite andb_false_r in *; exists 0, 0, 0, 0; symmetry; exact E).
  (* the counter that moves was 0, and so are the counters of the segments behind it *)
  all: assert (Z : nfire2 s <= nfire s) by lia.
  all: try (assert (Z1 : nfire s = 0) by lia; rewrite Z1 in *; rewrite ?Nat.mul_0_r in *; assert (Z4 : nfire2 s = 0) by lia; rewrite Z4 in * ).
  all: try (assert (Z4 : nfire2 s = 0) by lia; rewrite Z4 in * ).
  all: cbn [Nat.eqb andb app] in *; rewrite ?andb_false_r, ?andb_true_r in *.
  all: try (exists t1, t2, t3, t4; symmetry; exact E).
  (* completions that log no callback *)
  all: try (unfold atomic_cb in *; rewrite AD in *; cbn [has_cb andb] in *; exists t1, t2, t3, t4; symmetry; exact E).
  (* completions with a user callback: the helper block is allocated and nothing has been released *)
  all: try (assert (FR : frees s = 0) by lia; exists t1, t2, (clk s), t4; rewrite <- E, !app_nil_r, <- ?app_assoc;
            unfold atomic_cb, cb_log, cb2_log, hb in *; rewrite ?AD, ?Halloc, ?FR in *; try rewrite (Hcfg ltac:(lia)) in *;
            cbn [has_cb has_functor has_helper b2n map app]; reflexivity).
  (* the second operation: claimed before its handler ran; the handler's run is the last segment *)
  all: try (specialize (Hpay02 eq_refl); assert (Z4 : nfire2 s = 0) by lia; rewrite Z4 in *; exists t1, t2, t3, 0; symmetry; exact E).
  all: try (assert (R1 : re c = 1) by lia; pose proof (Hcfg R1) as AD;
            unfold hb in *; rewrite AD in *; cbn [has_helper b2n Nat.mul Nat.eqb] in *; assert (FR : frees s = 0) by lia;
            exists t1, t2, t3, (clk s); rewrite <- E, !app_nil_r, <- ?app_assoc, FR; reflexivity).
  (* deliveries and conversions: only the converter adapter has them *)
  all: assert (CV1 : cv c = 1) by lia; assert (A : atomic_cb c = false) by (unfold cv, is_conv, atomic_cb in *; destruct (c_ad c); try discriminate; reflexivity).
  all: assert (RE0 : re c = 0) by (destruct (re c) as [|[|r]] eqn:Q; [reflexivity|specialize (Hcfg eq_refl); unfold cv, is_conv in CV1; rewrite Hcfg in CV1; discriminate|unfold re in Q; destruct (c_re c); discriminate]).
  all: rewrite A, RE0 in *; cbn [andb Nat.mul] in *; assert (Z4 : nfire2 s = 0) by lia; rewrite Z4 in *; cbn [Nat.eqb] in *.
  all: try (assert (Y : nconv s = 0 /\ ndeliv s = 0) by (cbn [isv] in Hnconv; lia); destruct Y as [Z2 Z3]; rewrite Z2, Z3 in *;
            cbn [Nat.eqb app] in *; exists (clk s), t2, t3, t4; rewrite <- E; reflexivity).
  all: assert (Z3 : ndeliv s = 0) by lia; assert (OP : opayload s = conv_result c (payload s)) by (apply Hopay; lia);
       rewrite Z3, OP in *; cbn [Nat.eqb] in *; exists t1, (clk s), t3, t4; rewrite <- E, !app_nil_r; reflexivity.
Qed.

Lemma loginv_step c s i : Inv c s -> LogInv c s -> enabled s i = true -> LogInv c (fst (tstep c s i)).
Proof.
  intros [I _] H E. unfold tstep. destruct (thr s i) as [|ins rest] eqn:T; [unfold enabled in E; rewrite T in E; discriminate|].
  assert (L : i < 3) by (destruct i as [|[|[|i]]]; [lia|lia|lia|discriminate T]).
  apply loginv_exec; [exact L|apply InvN_pop; assumption|].
  apply (LogInv_shared c s); [symmetry; apply shared_pop|exact H].
Qed.
