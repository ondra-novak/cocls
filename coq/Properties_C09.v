(* Properties_C09.v — C09: awaitable queue, each item delivered exactly once, in order.
   Statements only; each is proved in a line or two from the lemmas of QueueProofs / QueueConcProofs / QueueOrderProofs / QueueOracleProofs.
   Sequential part: histories are lists of qop of ANY length (push / pop / unblock_pop / size / destroy), the state is the
   transcription of queue<T> (QueueDefs.q_step) resp. queue<void> (vq_step).  `q_final ops` is the state after the history,
   `q_good pv q done` is the invariant every destruction-free history establishes (q_good_run); histories containing a
   destroy are covered by c09_destroy_cancels + c09_dead_rejects (after destruction every op is rejected). *)
From Cocls Require Import Base BaseProofs QueueDefs QueueProofs QueueConcProofs QueueOrderProofs QueueOracleProofs.
Local Open Scope Z_scope.

(* sequential refinement: every observation of the code-shaped model is the observation of the FIFO specification
   ("unbounded FIFO of items, or FIFO of pending pops") — for every history, including malformed ops and destruction *)
Theorem c09_refines_fifo : forall ops, q_run ops = qs_run ops.
Proof. intros ops. apply q_refines_run. exact qrel0. Qed.
Print Assumptions c09_refines_fifo.

(* the item queue and the waiting-consumer queue are never both non-empty *)
Theorem c09_not_both_nonempty : forall ops, items (q_final ops) = [] \/ waiters (q_final ops) = [].
Proof. exact q_not_both_nonempty. Qed.
Print Assumptions c09_not_both_nonempty.

(* conservation and single-consumer order in one list equality: pushed values in push order = values held by the pop
   futures read in pop-arrival order ++ items still queued.  Nothing lost, duplicated or reordered; waiting pops are
   served in arrival order. *)
Theorem c09_conservation_order : forall ops, no_destroy ops ->
  pushed_vals ops = delivered (futs (q_final ops)) ++ items (q_final ops).
Proof. exact q_conservation_order. Qed.
Print Assumptions c09_conservation_order.

(* the pending pop futures are exactly the parked promises *)
Theorem c09_pending_are_waiters : forall ops, no_destroy ops ->
  forall i, fget (futs (q_final ops)) i = FPending <-> In i (waiters (q_final ops)).
Proof.
  intros ops ND i. destruct (q_good_run ops ND) as [done G].
  exact (shape_pending _ _ _ i (q_good_shape _ _ _ G) (qg_nopend _ _ _ G)).
Qed.
Print Assumptions c09_pending_are_waiters.

(* every destruction-free history reaches a state satisfying the invariant the next theorems assume *)
Theorem c09_invariant_reachable : forall ops, no_destroy ops -> exists done, q_good (pushed_vals ops) (q_final ops) done.
Proof. exact q_good_run. Qed.
Print Assumptions c09_invariant_reachable.

(* a pending pop completes only by a push (it is then the OLDEST pending pop and gets the pushed value), by unblock_pop
   (the OLDEST pending pop, with the given exception) or by destruction (canceled) *)
Theorem c09_pop_completes_only_by : forall pv q done x i,
  q_good pv q done -> fget (futs q) i = FPending -> fget (futs (fst (q_step q x))) i <> FPending ->
  (exists v, x = QPush v /\ oldest_pending (futs q) i /\ fget (futs (fst (q_step q x))) i = FValue v) \/
  (exists e, x = QUnblockPop e /\ oldest_pending (futs q) i /\ fget (futs (fst (q_step q x))) i = FExc e) \/
  (x = QDestroy /\ fget (futs (fst (q_step q x))) i = FCanceled).
Proof. exact q_pop_completes_only_by. Qed.
Print Assumptions c09_pop_completes_only_by.

(* push with somebody waiting: exactly the oldest pending pop is served, with the pushed value; nothing is queued *)
Theorem c09_push_serves_oldest : forall pv q done v i,
  q_good pv q done -> oldest_pending (futs q) i ->
  futs (fst (q_step q (QPush v))) = set_nth (futs q) i (FValue v) /\
  waiters q = i :: waiters (fst (q_step q (QPush v))) /\ items (fst (q_step q (QPush v))) = [].
Proof.
  intros pv q done v i G O. destruct (q_good_oldest _ _ _ _ G O) as (w & W & I).
  unfold q_step, q_push, q_push_lock. rewrite (qg_alive _ _ _ G), W. cbn. repeat split. exact I.
Qed.
Print Assumptions c09_push_serves_oldest.

(* unblock_pop fails exactly the oldest pending pop with the given exception and leaves items and other pops alone *)
Theorem c09_unblock_pop_hits_oldest : forall pv q done e i,
  q_good pv q done -> oldest_pending (futs q) i ->
  futs (fst (q_step q (QUnblockPop e))) = set_nth (futs q) i (FExc e) /\
  waiters q = i :: waiters (fst (q_step q (QUnblockPop e))) /\ items (fst (q_step q (QUnblockPop e))) = items q.
Proof.
  intros pv q done e i G O. destruct (q_good_oldest _ _ _ _ G O) as (w & W & _).
  unfold q_step, q_unblock_pop. rewrite (qg_alive _ _ _ G), W. cbn. repeat split.
Qed.
Print Assumptions c09_unblock_pop_hits_oldest.

(* destruction: every pending pop is canceled, every completed pop keeps its result *)
Theorem c09_destroy_cancels : forall pv q done i, q_good pv q done ->
  fget (futs (q_destroy q)) i = (if fstate_eqb (fget (futs q) i) FPending then FCanceled else fget (futs q) i).
Proof. intros pv q done i G. exact (shape_cancel_get _ _ _ i (q_good_shape _ _ _ G) (qg_nopend _ _ _ G)). Qed.
Print Assumptions c09_destroy_cancels.

Theorem c09_dead_rejects : forall q x, alive q = false -> q_step q x = (q, rejected).
Proof. intros q x H. unfold q_step. rewrite H. reflexivity. Qed.
Print Assumptions c09_dead_rejects.

(* queue<void>: the counter model refines the same FIFO specification carrying unit items ... *)
Theorem c09_void_refines_fifo : forall ops, vq_run ops = fst (qs_run_from qs0 (map vq_decode ops)).
Proof.
  intros ops. apply vq_refines_run; [exact vrel0|]. apply Forall_forall. intros x H.
  apply in_map_iff in H as (l & <- & _). apply voidop_decode.
Qed.
Print Assumptions c09_void_refines_fifo.

(* ... and is a counting semaphore: counter = pushes - pops completed with a value, never negative, pops wait only at 0
   (this is where std_queue<void>::pop's max(1,n)-1 must coincide with n-1) *)
Theorem c09_void_semaphore : forall ops, no_destroy ops -> Forall voidop ops ->
  vcnt (vq_final ops) = pushes ops - completed (vfuts (vq_final ops)) /\ 0 <= vcnt (vq_final ops) /\
  (vwaiters (vq_final ops) <> [] -> vcnt (vq_final ops) = 0).
Proof. exact vq_semaphore. Qed.
Print Assumptions c09_void_semaphore.

(* the trace oracles accept the model's own traces *)
Theorem c09_oracle_accepts_model : forall ops, q_oracle ops (q_run ops) = true.
Proof. intros ops. unfold q_oracle. rewrite c09_refines_fifo. apply trace_eqb_refl. Qed.
Print Assumptions c09_oracle_accepts_model.

Theorem c09_void_oracle_accepts_model : forall ops, vq_oracle ops (vq_run ops) = true.
Proof. intros ops. unfold vq_oracle. rewrite c09_void_refines_fifo. apply trace_eqb_refl. Qed.
Print Assumptions c09_void_oracle_accepts_model.

(* callback consumers (call_fn_future_awaiter whose completion callback asks for the next item from inside the callback):
   because the promise is resolved after the critical section, the nested pop() is an ordinary pop; every such history
   reaches a state that a plain history with the same pushes reaches, so conservation and order carry over *)
Theorem c09_callback_reaches_plain_state : forall l, c_no_destroy l ->
  exists ops, cbase (cq_final l) = q_final ops /\ no_destroy ops /\ pushed_vals ops = c_pushed_vals l.
Proof. intros l ND. exact (cq_run_plain l cq0 eq_refl ND). Qed.
Print Assumptions c09_callback_reaches_plain_state.

Theorem c09_callback_conservation_order : forall l, c_no_destroy l ->
  c_pushed_vals l = delivered (futs (cbase (cq_final l))) ++ items (cbase (cq_final l)) /\
  (items (cbase (cq_final l)) = [] \/ waiters (cbase (cq_final l)) = []).
Proof.
  intros l ND. destruct (cq_run_plain l cq0 eq_refl ND) as (ops & E & N & P). unfold cq_final. rewrite E, <- P.
  split; [exact (q_conservation_order ops N)|exact (q_not_both_nonempty ops)].
Qed.
Print Assumptions c09_callback_conservation_order.

Example c09_callback_nonvacuous :
  let l := [COp (QPush 11); CPopCb 3; COp (QPush 12); COp (QPush 13); COp (QUnblockPop 7); COp (QPush 14)] in
  futs (cbase (cq_final l)) = [FValue 11; FValue 12; FValue 13; FExc 7] /\ items (cbase (cq_final l)) = [14].
Proof. vm_compute. split; reflexivity. Qed.

(* ---- interleaving model (queue<T>): ANY number of producer / consumer / unblock_pop / unblock_push / size threads and a destroyer thread, ANY schedule of ANY length.
   A push or pop is a critical section followed, after the unlock, by a separate step that resolves the promise taken
   inside (QueueDefs.tstep).  In every reachable state the items pushed so far (every producer's first k values, tagged
   with producer and index, hence pairwise distinct: NoDup) are exactly, as a multiset, the items received by pops + the
   items in flight between a critical section and its resolution + the queued items + the items held by blocked pushes +
   the items withdrawn by unblock_push + the items destroyed with the queue;
   and items / waiting consumers are never both non-empty. ---- *)
Theorem c09_conc_conservation : forall thrs s, Forall t_fresh thrs -> t_reachable None thrs s ->
  NoDup (t_plog s) /\
  Permutation (t_plog s)
    (map snd (ritems (t_rlog s)) ++ map snd (iitems (t_infl s)) ++ t_items s ++ map fst (t_blocked s) ++ t_wlog s ++ t_dlog s) /\
  (forall p, filter (of_p p) (t_plog s) = expected_plog p (nth_error (t_thr s) p)) /\
  (t_items s = [] \/ t_waiters s = []).
Proof. intros thrs s. exact (tq_conservation None thrs s I). Qed.
Print Assumptions c09_conc_conservation.

(* per-producer order at every consumer, for every schedule: among the items consumer c has received (got c s, in the
   order it received them), those pushed by producer p carry strictly increasing push indices *)
Theorem c09_conc_per_producer_order : forall thrs s c p, Forall t_fresh thrs -> t_reachable None thrs s ->
  Sorted.StronglySorted lt (map it_k (filter (of_p p) (got c s))).
Proof. intros thrs s c p. exact (tq_per_producer_order None thrs s c p I). Qed.
Print Assumptions c09_conc_per_producer_order.

(* items are matched to pops in critical-section order; matched ++ queued ++ held-by-blocked is, producer by producer, in
   push order (nothing overtakes, also not while producers are blocked); what a consumer has received plus what is in
   flight for it is exactly its share of the matching, in order (single consumer: FIFO) *)
Theorem c09_conc_assignment_in_push_order : forall thrs s, Forall t_fresh thrs -> t_reachable None thrs s ->
  (forall p, Sorted.StronglySorted lt (map it_k (filter (of_p p) (map snd (t_alog s) ++ t_items s ++ map fst (t_blocked s))))) /\
  forall c, map snd (filter (is_c c) (t_alog s)) = got c s ++ map snd (filter (is_c c) (iitems (t_infl s))).
Proof. intros thrs s. exact (tq_assignment_in_push_order None thrs s I). Qed.
Print Assumptions c09_conc_assignment_in_push_order.

(* the oracle that is run on the implementation's controlled-thread traces (replay of the critical sections on the atomic
   thread-level FIFO, QueueDefs.tq_oracle) accepts every trace the model itself produces: every case file, any threads
   (fewer than 777, the marker of the deadlock line), any schedule *)
Theorem c09_thread_oracle_accepts_model : forall ops,
  (length (flat_map (t_decode_thr false) ops) < 777)%nat -> tq_oracle false ops (tq_run false ops) = true.
Proof. exact (tq_oracle_accepts_model false). Qed.
Print Assumptions c09_thread_oracle_accepts_model.

Example c09_conc_nonvacuous :
  let thrs := flat_map (t_decode_thr false) [[1; 101; 102]; [1; 201]; [2; 2]; [2; 1]]%Z in
  let s := fst (t_run_sched 60 (t_init None thrs) [2; 2; 0; 1; 0; 0; 1; 1; 0; 0]%Z []) in
  Forall t_fresh thrs /\ t_reachable None thrs s /\
  map it_v (got 2 s) = [101; 201]%Z /\ map it_v (got 3 s) = [102]%Z /\ t_infl s = [] /\ t_items s = [].
Proof. split; [apply t_decode_fresh|]. split; [eexists; eexists; eexists; reflexivity|]. vm_compute. repeat split. Qed.

(* non-vacuity: three pops wait, unblock_pop fails the oldest, two pushes serve the next two in order, a third is queued *)
Example c09_nonvacuous :
  let ops := [QPop; QPop; QPop; QUnblockPop 7; QPush 11; QPush 12; QPush 13] in
  no_destroy ops /\ futs (q_final ops) = [FExc 7; FValue 11; FValue 12] /\ items (q_final ops) = [13] /\
  oldest_pending (futs (q_final [QPop; QPop])) 0.
Proof. split; [repeat constructor|]. vm_compute. repeat split; try discriminate. intros j H. inversion H. Qed.
