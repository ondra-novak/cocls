(* CellProofs.v — invariants of the future/promise cell model, for any number of resolver and
   waiter threads of any kinds and every schedule (induction over reachability). *)
From Cocls Require Import Base BaseProofs CellDefs.
Local Open Scope Z_scope.

Definition T (s : st) (i : nat) : option thr := nth_error (thrs s) i.

Inductive reachable (ops : list (list Z)) : st -> Prop :=
| r_init : reachable ops (init ops)
| r_step s i : reachable ops s -> enabled s i = true -> reachable ops (fst (tstep s i)).

Lemma T_set_thr s i t j : (i < length (thrs s))%nat ->
  T (set_thr s i t) j = if Nat.eqb i j then Some t else T s j.
Proof.
  intros L. unfold T, set_thr. cbn [thrs]. destruct (Nat.eqb_spec i j) as [E|E].
  - subst. apply nth_error_set_nth_same. exact L.
  - apply nth_error_set_nth_other. exact E.
Qed.

Lemma T_some_lt s i t : T s i = Some t -> (i < length (thrs s))%nat.
Proof. unfold T. intros H. apply nth_error_Some. congruence. Qed.

Definition chain (s : st) : list nat := match slot s with SChain l => l | SReady => [] end.

Definition winning (pc : rpc) : bool :=
  match pc with RResolve | RWalk | RDone true | RDtor (Some true) => true | _ => false end.
Definition past_exchange (pc : rpc) : bool := match pc with RWalk | RDone true => true | _ => false end.
(* pcs of a resolver that has already tried to claim and lost *)
Definition lost (pc : rpc) : bool := match pc with RDone false | RDtor (Some false) => true | _ => false end.

Record Inv1 (s : st) : Prop := {
  i_win_pc : forall i k pc, T s i = Some (TR k pc) -> winning pc = true -> winner s = Some i;
  i_lost : forall i k pc, T s i = Some (TR k pc) -> lost pc = true -> owner s = false;
  (* before the election nothing has happened; afterwards the winner's pc tells the rest *)
  i_none : winner s = None -> owner s = true /\ payload s = ONone /\ slot s <> SReady /\ walk s = [] /\ acc s = [];
  i_some : forall i, winner s = Some i ->
           owner s = false /\
           exists k pc, T s i = Some (TR k pc) /\ winning pc = true /\ payload s = payload_of k ONone /\
                        (slot s = SReady <-> past_exchange pc = true) /\ (pc <> RWalk -> walk s = [] /\ acc s = []);
  (* the destructor of the shared promise is one thread, and the only one that waits for the others *)
  i_xwait : forall i k, T s i = Some (TR k RXWait) -> k = KDtor;
  i_dtor : exists i pc, T s i = Some (TR KDtor pc);
  i_dtor1 : forall i j pc pc', T s i = Some (TR KDtor pc) -> T s j = Some (TR KDtor pc') -> i = j;
}.

Lemma owner_no_winner s : Inv1 s -> owner s = true -> winner s = None.
Proof. intros I O. destruct (winner s) as [i|] eqn:W; [|reflexivity]. destruct (i_some s I i W). congruence. Qed.

Lemma inv1_winner s i k pc : Inv1 s -> winner s = Some i -> T s i = Some (TR k pc) ->
  owner s = false /\ winning pc = true /\ payload s = payload_of k ONone /\
  (slot s = SReady <-> past_exchange pc = true) /\ (pc <> RWalk -> walk s = [] /\ acc s = []).
Proof. intros I W H. destruct (i_some s I i W) as (O & k0 & pc0 & A & Q). rewrite H in A. inversion A; subst. auto. Qed.

Lemma decode_thr_initial l t : In t (decode_thr l) ->
  (exists k, t = TR k RClaim /\ k <> KDtor) \/ (exists k pc, t = TW k pc false /\ (pc = WStart \/ pc = WReady \/ pc = WSub false None)).
Proof.
  unfold decode_thr. intros H.
  (* peel the nested matches of decode_thr off the encoded line *)
  repeat match type of H with
  | In _ (match ?x with _ => _ end) => destruct x; cbn [In] in H; try contradiction
  end;
  destruct H as [ <- | [] ]; try (left; eexists; split; [reflexivity|discriminate]);
    try (right; do 2 eexists; split; [reflexivity|tauto]).
Qed.

Definition initial_thr (t : thr) : Prop :=
  (exists k, t = TR k RClaim) \/ t = TR KDtor RXWait \/
  (exists k pc, t = TW k pc false /\ (pc = WStart \/ pc = WReady \/ pc = WSub false None)).

Lemma init_thrs ops i t : T (init ops) i = Some t -> initial_thr t.
Proof.
  unfold T, init. cbn [thrs]. intros H. apply nth_error_In in H. apply in_app_or in H.
  destruct H as [H|[ <- | [] ]].
  - apply in_flat_map in H. destruct H as (l & _ & H). apply decode_thr_initial in H.
    destruct H as [(k & -> & _)|(k & pc & -> & Q)]; unfold initial_thr; eauto 6.
  - unfold initial_thr; auto.
Qed.

Lemma init_dtor ops i pc : T (init ops) i = Some (TR KDtor pc) -> i = length (flat_map decode_thr ops).
Proof.
  unfold T, init. cbn [thrs]. intros H. destruct (Nat.lt_ge_cases i (length (flat_map decode_thr ops))) as [L|L].
  - rewrite nth_error_app1 in H by exact L. apply nth_error_In, in_flat_map in H. destruct H as (l & _ & H).
    apply decode_thr_initial in H. destruct H as [(k' & Q & NK)|(k' & pc' & Q & _)]; inversion Q; congruence.
  - assert (LT : (i < length (flat_map decode_thr ops ++ [TR KDtor RXWait]))%nat) by (apply nth_error_Some; congruence).
    rewrite app_length in LT. cbn [length] in LT. lia.
Qed.

Lemma inv1_init ops : Inv1 (init ops).
Proof.
  constructor; cbn [init owner winner payload slot walk acc chain].
  - intros i k pc H W. apply init_thrs in H.
    destruct H as [(k' & E)|[E|(k' & pc' & E & _)]]; inversion E; subst; discriminate.
  - intros i k pc H W. apply init_thrs in H.
    destruct H as [(k' & E)|[E|(k' & pc' & E & _)]]; inversion E; subst; discriminate.
  - intros _. repeat split. discriminate.
  - discriminate.
  - intros i k H. apply init_thrs in H.
    destruct H as [(k' & E)|[E|(k' & pc' & E & _)]]; inversion E; reflexivity.
  - exists (length (flat_map decode_thr ops)), RXWait. unfold T, init. cbn [thrs].
    rewrite nth_error_app2, Nat.sub_diag by lia. reflexivity.
  - intros i j pc pc' A B. apply init_dtor in A. apply init_dtor in B. congruence.
Qed.

Definition same_TR (s s' : st) : Prop :=
  forall j k pc, T s' j = Some (TR k pc) <-> T s j = Some (TR k pc).

Lemma inv1_frame s s' :
  Inv1 s -> owner s' = owner s -> winner s' = winner s -> payload s' = payload s ->
  (slot s' = SReady <-> slot s = SReady) -> same_TR s s' ->
  (walk s' = walk s /\ acc s' = acc s \/
   exists i k, winner s = Some i /\ T s i = Some (TR k RWalk)) ->
  Inv1 s'.
Proof.
  intros I EO EW EP ES ET EA. destruct I as [Hwin Hlost Hnone Hsome Hxwait Hdtor Hdtor1].
  constructor.
  - intros i k pc H W. rewrite EW. apply ET in H. eapply Hwin; eassumption.
  - intros i k pc H L. rewrite EO. apply ET in H. eapply Hlost; eassumption.
  - intros H. rewrite EW in H. destruct (Hnone H) as (A & B & C & D). rewrite EO, EP.
    refine (conj A (conj B (conj _ _))); [intro Q; apply C, ES, Q|].
    destruct EA as [[-> ->]|(i & k & Wn & _)]; [exact D|congruence].
  - intros i H. rewrite EW in H. destruct (Hsome i H) as (O & k & pc & A & B & C & D & E). rewrite EO, EP.
    split; [exact O|]. exists k, pc. refine (conj (proj2 (ET i k pc) A) (conj B (conj C (conj _ _)))).
    + split; intros Q; [apply D, ES, Q|apply ES, D, Q].
    + intros NW. destruct EA as [[-> ->]|(i' & k' & Wn' & H')]; [exact (E NW)|].
      assert (i' = i) by congruence. subst. rewrite A in H'. inversion H'. congruence.
  - intros i k H. apply ET in H. eapply Hxwait; exact H.
  - destruct Hdtor as (d & pc & H). exists d, pc. apply ET. exact H.
  - intros i j pc pc' A B. apply ET in A. apply ET in B. eapply Hdtor1; eassumption.
Qed.

Lemma same_TR_refl s : same_TR s s.
Proof. intros j k pc. tauto. Qed.

Lemma same_TR_trans a b c : same_TR a b -> same_TR b c -> same_TR a c.
Proof. intros H1 H2 j k pc. split; intros Q; [apply H1, H2, Q|apply H2, H1, Q]. Qed.

Lemma same_TR_fields s s' : thrs s' = thrs s -> same_TR s s'.
Proof. intros E j k pc. unfold T. rewrite E. tauto. Qed.

Lemma same_TR_set_nth s s' w k pc f k' pc' f' :
  nth_error (thrs s) w = Some (TW k pc f) -> thrs s' = set_nth (thrs s) w (TW k' pc' f') -> same_TR s s'.
Proof.
  intros E Q j kk p. unfold T. rewrite Q. destruct (Nat.eqb_spec w j) as [->|N].
  - rewrite nth_error_set_nth_same by (apply nth_error_Some; congruence). rewrite E. split; discriminate.
  - rewrite nth_error_set_nth_other by exact N. tauto.
Qed.

(* s' differs from s at most in waiter threads, the collected handles and the ghost logs *)
Definition wframe (s s' : st) : Prop :=
  owner s' = owner s /\ winner s' = winner s /\ payload s' = payload s /\ slot s' = slot s /\
  walk s' = walk s /\ sublog s' = sublog s /\ same_TR s s' /\ length (thrs s') = length (thrs s).

Lemma wframe_refl s : wframe s s.
Proof. repeat apply conj; try reflexivity. apply same_TR_refl. Qed.

Lemma wframe_trans a b c : wframe a b -> wframe b c -> wframe a c.
Proof.
  intros (F1 & F2 & F3 & F4 & F5 & F6 & F7 & F8) (G1 & G2 & G3 & G4 & G5 & G6 & G7 & G8).
  repeat apply conj; try congruence. eapply same_TR_trans; eassumption.
Qed.

Lemma release_node_frame s w : wframe s (release_node s w).
Proof.
  unfold release_node. destruct (nth_error (thrs s) w) as [[k pc|k pc f]|] eqn:E; try apply wframe_refl.
  destruct k; repeat apply conj; try reflexivity; try apply set_nth_length; try (apply same_TR_fields; reflexivity);
    (eapply same_TR_set_nth; [exact E|reflexivity]).
Qed.

Lemma resume_all_frame l : forall s, wframe s (resume_all s l) /\ acc (resume_all s l) = acc s.
Proof.
  induction l as [|c l IH]; intros s; cbn [resume_all]; [split; [apply wframe_refl|reflexivity]|].
  destruct (nth_error (thrs s) c) as [[k pc|k pc f]|] eqn:E; try apply IH.
  match goal with |- context[resume_all ?x l] => destruct (IH x) as (F & A); split; [|exact A] end.
  refine (wframe_trans _ _ _ _ F). repeat apply conj; try reflexivity; [|apply set_nth_length].
  eapply same_TR_set_nth; [exact E|reflexivity].
Qed.

(* finish only rewrites waiter threads and logs; the resolver's own pc becomes RDone true and acc is emptied *)
Lemma finish_frame s i k :
  exists s1, wframe s s1 /\
    finish s i k = set_thr (mkSt (owner s1) (slot s1) (payload s1) (walk s1) [] (thrs s1) (winner s1) (sublog s1) (wlog s1) (elog s1))
                           i (TR k (RDone true)).
Proof.
  unfold finish. eexists. split; [|reflexivity]. eapply wframe_trans; [|apply resume_all_frame].
  destruct (is_async k); [|apply wframe_refl]. repeat apply conj; try reflexivity. apply same_TR_fields. reflexivity.
Qed.

Lemma enabled_T s i : enabled s i = true -> exists t, T s i = Some t.
Proof. unfold enabled, T. destruct (nth_error (thrs s) i); [eauto|discriminate]. Qed.

(* s' is s with resolver i at pc', up to waiter threads *)
Definition moved (s s' : st) (i : nat) (k : rkind) (pc' : rpc) : Prop :=
  T s' i = Some (TR k pc') /\
  forall j, j <> i -> forall k0 pc0, T s' j = Some (TR k0 pc0) <-> T s j = Some (TR k0 pc0).

Lemma moved_set s X i k pc pc' :
  T s i = Some (TR k pc) -> same_TR s X -> length (thrs X) = length (thrs s) -> moved s (set_thr X i (TR k pc')) i k pc'.
Proof.
  intros H S L. pose proof (T_some_lt _ _ _ H) as Li. rewrite <- L in Li. split.
  - rewrite T_set_thr, Nat.eqb_refl by exact Li. reflexivity.
  - intros j N k0 pc0. rewrite T_set_thr by exact Li. destruct (Nat.eqb_spec i j); [congruence|apply S].
Qed.

(* the three ways the shared fields may change when resolver i goes from pc to pc' *)
Definition resolver_move (s s' : st) (i : nat) (k : rkind) (pc pc' : rpc) : Prop :=
  (* the claim succeeds *)
  (owner s = true /\ owner s' = false /\ winner s' = Some i /\ winning pc' = true /\ past_exchange pc' = false /\
   winning pc = false /\ payload s' = payload_of k (payload s) /\ slot s' = slot s /\ walk s' = walk s /\ acc s' = acc s) \/
  (* no shared field changes *)
  (owner s' = owner s /\ winner s' = winner s /\ payload s' = payload s /\ slot s' = slot s /\ walk s' = walk s /\
   acc s' = acc s /\ winning pc' = winning pc /\ past_exchange pc' = past_exchange pc /\ (pc' = RWalk <-> pc = RWalk) /\
   (lost pc' = true -> owner s = false)) \/
  (* the winner performs the exchange or walks *)
  (owner s' = owner s /\ winner s' = winner s /\ payload s' = payload s /\ winning pc = true /\ winning pc' = true /\
   lost pc' = false /\ slot s' = SReady /\ past_exchange pc' = true /\ (pc' <> RWalk -> walk s' = [] /\ acc s' = [])).

Lemma inv1_resolver_step s s' i k pc pc' :
  Inv1 s -> T s i = Some (TR k pc) -> moved s s' i k pc' -> pc' <> RXWait -> resolver_move s s' i k pc pc' -> Inv1 s'.
Proof.
  intros I H [TSi TSo] NX C.
  assert (TS : forall j k0 pc0, T s' j = Some (TR k0 pc0) ->
               (j = i /\ k0 = k /\ pc0 = pc') \/ (j <> i /\ T s j = Some (TR k0 pc0))).
  { intros j k0 pc0 Hj. destruct (Nat.eq_dec j i) as [->|N]; [left|right; split; [exact N|apply TSo; assumption]].
    rewrite TSi in Hj. inversion Hj. auto. }
  pose proof I as [Hwin Hlost Hnone Hsome Hxwait Hdtor Hdtor1].
  (* the destructor-thread fields do not depend on the shared fields *)
  assert (Xxwait : forall j k0, T s' j = Some (TR k0 RXWait) -> k0 = KDtor).
  { intros j k0 Hj. destruct (TS _ _ _ Hj) as [(_ & _ & E)|(_ & Hj')]; [congruence|eapply Hxwait; exact Hj']. }
  assert (Xdtor : exists d pcd, T s' d = Some (TR KDtor pcd)).
  { destruct Hdtor as (d & pcd & Hd). destruct (Nat.eq_dec d i) as [->|N]; [|exists d, pcd; apply TSo; assumption].
    rewrite H in Hd. inversion Hd; subst. exists i, pc'. exact TSi. }
  assert (Xdtor1 : forall a b pa pb, T s' a = Some (TR KDtor pa) -> T s' b = Some (TR KDtor pb) -> a = b).
  { assert (B : forall j p, T s' j = Some (TR KDtor p) -> exists p0, T s j = Some (TR KDtor p0)).
    { intros j p Hj. destruct (TS _ _ _ Hj) as [(-> & <- & _)|(_ & Hj')]; eauto. }
    intros a b pa pb Ha Hb. destruct (B _ _ Ha) as (pa0 & Ha0). destruct (B _ _ Hb) as (pb0 & Hb0). eapply Hdtor1; eassumption. }
  destruct C as [C|[C|C]].
  - destruct C as (CO & FO & FW & CW & CP & CN & FP & FS & FK & FA).
    pose proof (owner_no_winner s I CO) as WN. destruct (Hnone WN) as (_ & PN & SN & KN & AN).
    constructor; rewrite ?FO, ?FW, ?FP, ?FS, ?FK, ?FA; try assumption.
    + intros j k0 pc0 Hj Wj. destruct (TS _ _ _ Hj) as [(-> & _)|(N & Hj')]; [reflexivity|].
      pose proof (Hwin _ _ _ Hj' Wj). congruence.
    + reflexivity.
    + discriminate.
    + intros j Hj. inversion Hj; subst j. split; [reflexivity|]. exists k, pc'. rewrite PN, CP.
      refine (conj TSi (conj CW (conj eq_refl (conj _ (fun _ => conj KN AN))))). split; [contradiction|discriminate].
  - destruct C as (FO & FW & FP & FS & FK & FA & CW & CP & CK & CL).
    constructor; rewrite ?FO, ?FW, ?FP, ?FS, ?FK, ?FA; try assumption.
    + intros j k0 pc0 Hj Wj. destruct (TS _ _ _ Hj) as [(-> & -> & ->)|(N & Hj')].
      * eapply Hwin; [exact H|congruence].
      * eapply Hwin; eassumption.
    + intros j k0 pc0 Hj Lj. destruct (TS _ _ _ Hj) as [(-> & -> & ->)|(N & Hj')]; [auto|eapply Hlost; eassumption].
    + intros j Hj. destruct (Hsome j Hj) as (O & k0 & pc0 & A & B & D & E & F). split; [exact O|].
      destruct (Nat.eq_dec j i) as [->|N]; [|exists k0, pc0; split; [apply TSo; assumption|auto]].
      rewrite H in A. inversion A; subst. exists k0, pc'. rewrite CP, CW.
      refine (conj TSi (conj B (conj D (conj E _)))). intros NW. apply F. intro Q. apply NW, CK, Q.
  - destruct C as (FO & FW & FP & CW & CW' & CL & FS & CP & CK).
    pose proof (Hwin _ _ _ H CW) as WI.
    constructor; rewrite ?FO, ?FW, ?FP, ?FS; try assumption.
    + intros j k0 pc0 Hj Wj. destruct (TS _ _ _ Hj) as [(-> & _)|(N & Hj')]; [exact WI|].
      eapply Hwin; eassumption.
    + intros j k0 pc0 Hj Lj. destruct (TS _ _ _ Hj) as [(-> & -> & ->)|(N & Hj')]; [congruence|eapply Hlost; eassumption].
    + intros Q. congruence.
    + intros j Hj. assert (j = i) by congruence. subst j.
      destruct (inv1_winner s i k pc I WI H) as (O & _ & P & _). split; [exact O|]. exists k, pc'. rewrite CP.
      refine (conj TSi (conj CW' (conj P (conj _ CK)))). split; reflexivity.
Qed.

(* waiter threads only and, while the winner walks, its private lists *)
Definition waiter_move (s s' : st) : Prop :=
  owner s' = owner s /\ winner s' = winner s /\ payload s' = payload s /\ (slot s' = SReady <-> slot s = SReady) /\
  same_TR s s' /\ (walk s' = walk s /\ acc s' = acc s \/ exists i k, winner s = Some i /\ T s i = Some (TR k RWalk)).

Definition step_shape (s s' : st) (i : nat) : Prop :=
  (exists k pc pc', T s i = Some (TR k pc) /\ moved s s' i k pc' /\ pc' <> RXWait /\ resolver_move s s' i k pc pc') \/
  waiter_move s s'.

Lemma inv1_shape s s' i : Inv1 s -> step_shape s s' i -> Inv1 s'.
Proof.
  intros I [(k & pc & pc' & H & M & NX & C)|(EO & EW & EP & ES & ET & EA)].
  - exact (inv1_resolver_step s s' i k pc pc' I H M NX C).
  - exact (inv1_frame s s' I EO EW EP ES ET EA).
Qed.

Lemma shape_resolver_set s X i k pc pc' :
  T s i = Some (TR k pc) -> thrs X = thrs s -> pc' <> RXWait -> resolver_move s (set_thr X i (TR k pc')) i k pc pc' ->
  step_shape s (set_thr X i (TR k pc')) i.
Proof.
  intros H E NX C. left. exists k, pc, pc'. refine (conj H (conj _ (conj NX C))).
  apply (moved_set s X i k pc); [exact H|apply same_TR_fields, E|rewrite E; reflexivity].
Qed.

(* x: the state in which the winner's walk list is exhausted *)
Lemma shape_finish s x i k pc :
  T s i = Some (TR k pc) -> same_TR s x -> length (thrs x) = length (thrs s) ->
  owner x = owner s -> winner x = winner s -> payload x = payload s -> slot x = SReady -> walk x = [] ->
  winning pc = true -> step_shape s (finish x i k) i.
Proof.
  intros H S L EO EW EP ES EK WP. destruct (finish_frame x i k) as (s1 & (F1 & F2 & F3 & F4 & F5 & _ & F7 & F8) & FE). rewrite FE.
  left. exists k, pc, (RDone true). split; [exact H|]. split; [|split; [discriminate|]].
  - apply (moved_set s _ i k pc); [exact H| |cbn [thrs]; congruence].
    intros j k0 pc0. unfold T at 1. cbn [thrs]. rewrite <- (S j k0 pc0). apply F7.
  - right. right. cbn [set_thr owner winner payload slot walk acc]. repeat apply conj; auto; try congruence.
    intros _. split; congruence.
Qed.

Lemma shape_waiter s X i k pc f k' pc' f' :
  T s i = Some (TW k pc f) -> thrs X = thrs s -> owner X = owner s -> winner X = winner s ->
  payload X = payload s -> (slot X = SReady <-> slot s = SReady) -> walk X = walk s -> acc X = acc s ->
  step_shape s (set_thr X i (TW k' pc' f')) i.
Proof.
  intros H ET EO EW EP ES EK EA. right. refine (conj EO (conj EW (conj EP (conj ES (conj _ (or_introl (conj EK EA))))))).
  intros j kk p. rewrite T_set_thr by (rewrite ET; eapply T_some_lt; eassumption).
  destruct (Nat.eqb_spec i j) as [->|N]; [rewrite H; split; discriminate|]. unfold T. rewrite ET. tauto.
Qed.

Ltac fin k := try reflexivity; try discriminate; try (destruct k; reflexivity); try (destruct k; discriminate); auto.

Lemma tstep_shape s i : Inv1 s -> enabled s i = true -> step_shape s (fst (tstep s i)) i.
Proof.
  intros I E. destruct (enabled_T s i E) as (t & Ht). unfold tstep. fold (T s i). rewrite Ht.
  destruct t as [k pc|k pc f].
  - (* resolver *)
    destruct pc as [| |[b|]| | |r].
    + (* claim *)
      destruct (owner s) eqn:O; cbn [fst]; (apply (shape_resolver_set s _ i k RClaim _ Ht); [reflexivity|destruct k; discriminate|]); [left|right; left];
        repeat apply conj; fin k.
    + (* xwait *)
      cbn [fst]. apply (shape_resolver_set s _ i k RXWait _ Ht); [reflexivity|discriminate|]. right. left. repeat apply conj; fin k.
    + (* private dtor *)
      cbn [fst]. apply (shape_resolver_set s _ i k (RDtor (Some b)) _ Ht); [reflexivity|destruct b; discriminate|]. right. left.
      destruct b; repeat apply conj; fin k.
      intros _. eapply (i_lost s I); [exact Ht|reflexivity].
    + (* shared dtor *)
      destruct (owner s) eqn:O; cbn [fst]; (apply (shape_resolver_set s _ i k (RDtor None) _ Ht); [reflexivity|discriminate|]); [left|right; left];
        repeat apply conj; fin k.
    + (* resolve *)
      cbn [fst]. destruct (match slot s with SChain l => l | SReady => [] end) as [|w0 l0] eqn:EL.
      * apply (shape_finish s _ i k RResolve Ht); try reflexivity. apply same_TR_fields. reflexivity.
      * apply (shape_resolver_set s _ i k RResolve _ Ht); [reflexivity|discriminate|]. right. right.
        repeat apply conj; try reflexivity. intros Q. congruence.
    + (* walk *)
      pose proof (i_win_pc s I _ _ _ Ht eq_refl) as WI.
      destruct (inv1_winner s i k RWalk I WI Ht) as (_ & _ & _ & SP & _). pose proof (proj2 SP eq_refl) as SR.
      destruct (walk s) as [|w t] eqn:EW; cbn [fst].
      * apply (shape_finish s s i k RWalk Ht); try reflexivity; try assumption. apply same_TR_refl.
      * set (s0 := mkSt (owner s) (slot s) (payload s) t (acc s) (thrs s) (winner s) (sublog s) (wlog s) (elog s)).
        destruct (release_node_frame s0 w) as (R1 & R2 & R3 & R4 & R5 & R6 & R7 & R8).
        assert (S0 : same_TR s (release_node s0 w)) by (eapply same_TR_trans; [apply (same_TR_fields s s0); reflexivity|exact R7]).
        destruct t as [|w2 t2].
        -- apply (shape_finish s _ i k RWalk Ht); try assumption; try reflexivity. rewrite R4. exact SR.
        -- right. refine (conj R1 (conj R2 (conj R3 (conj _ (conj S0 _))))); [rewrite R4; reflexivity|].
           right. exists i, k. auto.
    + unfold enabled in E. fold (T s i) in E. rewrite Ht in E. discriminate.
  - (* waiter *)
    destruct pc as [| |r e| | |o|]; cbn [fst]; try (destruct (slot s) as [l|] eqn:SL); try (destruct (onat_eqb (head l) e));
      try (unfold enabled in E; fold (T s i) in E; rewrite Ht in E; discriminate);
      (eapply (shape_waiter s _ i _ _ _ _ _ _ Ht); try reflexivity; cbn [slot]; rewrite ?SL; split; auto; discriminate).
Qed.

Theorem inv1_reachable ops s : reachable ops s -> Inv1 s.
Proof. induction 1 as [|s i R I E]; [apply inv1_init|exact (inv1_shape _ _ i I (tstep_shape s i I E))]. Qed.

Theorem result_is_winners s :
  Inv1 s -> slot s = SReady ->
  exists i k pc, winner s = Some i /\ T s i = Some (TR k pc) /\ payload s = payload_of k ONone.
Proof.
  intros I S. destruct (winner s) as [i|] eqn:W.
  - destruct (i_some s I i W) as (_ & k & pc & A & _ & P & _). exists i, k, pc. auto.
  - destruct (i_none s I W) as (_ & _ & N & _). contradiction.
Qed.

(* once a winner exists, no step changes winner or payload; readiness is permanent *)
Theorem result_stable s i :
  Inv1 s -> winner s <> None -> enabled s i = true ->
  winner (fst (tstep s i)) = winner s /\ payload (fst (tstep s i)) = payload s /\
  (slot s = SReady -> slot (fst (tstep s i)) = SReady).
Proof.
  intros I W E.
  destruct (tstep_shape s i I E) as [(k & pc & pc' & _ & _ & _ & [C|[C|C]])|C].
  - destruct C as (O & _). apply (owner_no_winner s I) in O. contradiction.
  - destruct C as (_ & FW & FP & FS & _). rewrite FW, FP, FS. auto.
  - destruct C as (_ & FW & FP & _ & _ & _ & FS & _). rewrite FW, FP, FS. auto.
  - destruct C as (_ & FW & FP & FS & _). rewrite FW, FP. repeat split. apply FS.
Qed.

(* the executable scheduler (run_sched) only visits reachable states *)
Lemma in_enabled_list s n : forall from i, In i (enabled_list s n from) -> enabled s i = true.
Proof.
  induction n as [|n IH]; intros from i H; cbn [enabled_list] in H; [destruct H|].
  apply in_app_or in H. destruct H as [H|H]; [|eapply IH; exact H].
  destruct (enabled s from) eqn:E; [|destruct H]. destruct H as [<-|[]]. exact E.
Qed.

Lemma run_sched_reachable ops fuel : forall s sched tr,
  reachable ops s -> reachable ops (fst (run_sched fuel s sched tr)).
Proof.
  induction fuel as [|fuel IH]; intros s sched tr R; cbn [run_sched]; [exact R|].
  destruct (all_enabled s) as [|e en] eqn:EN; [exact R|].
  set (k := match sched with [] => 0 | x :: _ => Z.abs x end).
  set (i := nth (Z.to_nat (k mod zlen (e :: en))) (e :: en) 0%nat).
  assert (IN : In i (e :: en)) by (apply nth_mod_In; discriminate).
  rewrite <- EN in IN. apply in_enabled_list in IN.
  destruct (tstep s i) as [s1 p] eqn:TS. apply IH.
  replace s1 with (fst (tstep s i)) by (rewrite TS; reflexivity). apply r_step; assumption.
Qed.

