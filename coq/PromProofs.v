(* PromProofs.v — invariants of the promise-object model (PromDefs.v) for every op sequence:
   each future is owned by at most one promise / closure, it is pending exactly while it is owned, and
   future::resolve() runs on it at most once. *)
From Cocls Require Import Base BaseProofs CellDefs PromDefs.
Require Import ZifyBool.
Local Open Scope nat_scope.

Definition b2n (b : bool) : nat := if b then 1 else 0.
Definition cnt {A} (f : A -> bool) (l : list A) : nat := length (filter f l).
Arguments cnt : simpl never.

Lemma cnt_cons {A} (f : A -> bool) x l : cnt f (x :: l) = b2n (f x) + cnt f l.
Proof. unfold cnt. cbn [filter]. destruct (f x); reflexivity. Qed.

Lemma cnt_set_nth {A} (f : A -> bool) (l : list A) : forall i x y,
  nth_error l i = Some y -> cnt f (set_nth l i x) + b2n (f y) = cnt f l + b2n (f x).
Proof.
  induction l as [|h t IH]; intros [|i] x y H; cbn [nth_error] in H; try discriminate.
  - inversion H; subst. cbn [set_nth]. rewrite !cnt_cons. lia.
  - cbn [set_nth]. rewrite !cnt_cons. specialize (IH i x y H). lia.
Qed.

(* does this promise / closure content point at cell c *)
Definition po (c : nat) (o : option (option nat)) : bool :=
  match o with Some (Some c') => Nat.eqb c' c | _ => false end.
Definition pc (c : nat) (o : option (option nat * Z)) : bool :=
  match o with Some (Some c', _) => Nat.eqb c' c | _ => false end.
Definition refs (s : pst) (c : nat) : nat := cnt (po c) (proms s) + cnt (pc c) (clos s).

Definition slot_chain (x : cslot) : nat := match x with CChain _ => 1 | _ => 0 end.
Definition slot_ready (x : cslot) : nat := match x with CReady => 1 | _ => 0 end.

Definition PInv (s : pst) : Prop :=
  forall c, match nth_error (cells s) c with
            | Some cl => refs s c = slot_chain (c_slot cl) /\ c_nres cl = slot_ready (c_slot cl)
            | None => refs s c = 0
            end.

Lemma refs_set_prom s p x y c : nth_error (proms s) p = Some y ->
  refs (set_prom s p x) c + b2n (po c y) = refs s c + b2n (po c x).
Proof. intros H. unfold refs. cbn [set_prom proms clos]. pose proof (cnt_set_nth (po c) _ _ x _ H). lia. Qed.

Lemma refs_set_clo s q x y c : nth_error (clos s) q = Some y ->
  refs (set_clo s q x) c + b2n (pc c y) = refs s c + b2n (pc c x).
Proof. intros H. unfold refs. cbn [set_clo proms clos]. pose proof (cnt_set_nth (pc c) _ _ x _ H). lia. Qed.

Lemma refs_set_cell s c x c' : refs (set_cell s c x) c' = refs s c'.
Proof. reflexivity. Qed.

Lemma po_some c c' : b2n (po c (Some (Some c'))) = if Nat.eqb c' c then 1 else 0.
Proof. cbn [po]. destruct (Nat.eqb c' c); reflexivity. Qed.

Lemma pinv_init : PInv pinit.
Proof.
  intros c. unfold pinit, refs. cbn [cells proms clos NCELL NPROM NCLO repeat].
  do 3 (destruct c as [|c]; [cbn; auto|]). destruct c; cbn; reflexivity.
Qed.

Lemma fire_proms isvoid s op o : proms (fst (fst (fire isvoid s op o))) = proms s /\ clos (fst (fst (fire isvoid s op o))) = clos s.
Proof. destruct op as [cp|]; cbn [fire]; [|auto]. unfold resolve. destruct (nth_error (cells s) cp); auto. Qed.

Lemma pinv_same s s' c : PInv s -> nth_error (cells s') c = nth_error (cells s) c -> refs s' c = refs s c ->
  match nth_error (cells s') c with
  | Some cl => refs s' c = slot_chain (c_slot cl) /\ c_nres cl = slot_ready (c_slot cl)
  | None => refs s' c = 0
  end.
Proof. intros I -> ->. apply I. Qed.

(* a referred cell exists, is pending and has one referrer *)
Lemma referred_pending s c : PInv s -> refs s c <> 0 ->
  exists cl l, nth_error (cells s) c = Some cl /\ c_slot cl = CChain l /\ c_nres cl = 0 /\ refs s c = 1.
Proof.
  intros I R. specialize (I c). destruct (nth_error (cells s) c) as [cl|]; [|contradiction].
  destruct I as (I1 & I2). destruct (c_slot cl) eqn:E; cbn in *; try contradiction. exists cl, l. auto.
Qed.

Lemma owner_pending s p cp : PInv s -> nth_error (proms s) p = Some (Some (Some cp)) ->
  exists cl l, nth_error (cells s) cp = Some cl /\ c_slot cl = CChain l /\ c_nres cl = 0 /\ refs s cp = 1.
Proof.
  intros I H. apply referred_pending; [exact I|].
  pose proof (refs_set_prom s p (Some None) _ cp H) as R. rewrite po_some, Nat.eqb_refl in R. cbn in R. lia.
Qed.

Lemma clo_owner_pending s q cp v : PInv s -> nth_error (clos s) q = Some (Some (Some cp, v)) ->
  exists cl l, nth_error (cells s) cp = Some cl /\ c_slot cl = CChain l /\ c_nres cl = 0 /\ refs s cp = 1.
Proof.
  intros I H. apply referred_pending; [exact I|].
  pose proof (refs_set_clo s q None _ cp H) as R. cbn [pc] in R. rewrite Nat.eqb_refl in R. cbn in R. lia.
Qed.

(* s' is s after op fired, with op no longer referred to *)
Lemma pinv_fire isvoid s op o s1 d b s' :
  PInv s -> fire isvoid s op o = (s1, d, b) -> cells s' = cells s1 ->
  (forall c, refs s' c + b2n (po c (Some op)) = refs s c) -> PInv s'.
Proof.
  intros I F EC R c. pose proof (R c) as Rc. destruct op as [cp|]; cbn [fire] in F.
  - destruct (referred_pending s cp I) as (cl & l & HC & SL & NR & R1).
    { specialize (R cp). rewrite po_some, Nat.eqb_refl in R. lia. }
    unfold resolve in F. rewrite HC in F. inversion F; subst s1 d b. rewrite EC. cbn [set_cell cells].
    rewrite nth_error_set_nth, HC. rewrite po_some in Rc. specialize (I c).
    destruct (Nat.eqb_spec cp c) as [<-|N].
    + cbn [c_slot c_nres slot_chain slot_ready]. lia.
    + destruct (nth_error (cells s) c); [destruct I; split; [lia|assumption]|lia].
  - inversion F; subst s1 d b. cbn [po b2n] in Rc. apply (pinv_same s); [exact I|rewrite EC; reflexivity|lia].
Qed.

Lemma refs_same s s' c : proms s' = proms s -> clos s' = clos s -> refs s' c = refs s c.
Proof. unfold refs. intros -> ->. reflexivity. Qed.

Lemma fire_refs isvoid s op o s1 d b : fire isvoid s op o = (s1, d, b) -> proms s1 = proms s /\ clos s1 = clos s.
Proof. intros F. pose proof (fire_proms isvoid s op o) as Q. rewrite F in Q. exact Q. Qed.

(* the owner stored in promise slot p fires (or is empty) and the slot is overwritten by content y *)
Lemma pinv_fire_prom isvoid s p op o y s1 d b :
  PInv s -> nth_error (proms s) p = Some (Some op) -> (forall c, po c y = false) ->
  fire isvoid s op o = (s1, d, b) -> PInv (set_prom s1 p y).
Proof.
  intros I H Y F. apply (pinv_fire isvoid s op o s1 d b); [exact I|exact F|reflexivity|]. intros c.
  destruct (fire_refs _ _ _ _ _ _ _ F) as (EP & EQ). rewrite <- EP in H.
  pose proof (refs_set_prom s1 p y _ c H) as R. rewrite Y, (refs_same s s1 c EP EQ) in R. cbn [b2n] in R. lia.
Qed.

Lemma pinv_fire_clo isvoid s q op v o y s1 d b :
  PInv s -> nth_error (clos s) q = Some (Some (op, v)) -> (forall c, pc c y = false) ->
  fire isvoid s op o = (s1, d, b) -> PInv (set_clo s1 q y).
Proof.
  intros I H Y F. apply (pinv_fire isvoid s op o s1 d b); [exact I|exact F|reflexivity|]. intros c.
  destruct (fire_refs _ _ _ _ _ _ _ F) as (EP & EQ). rewrite <- EQ in H.
  pose proof (refs_set_clo s1 q y _ c H) as R. rewrite Y, (refs_same s s1 c EP EQ) in R.
  replace (po c (Some op)) with (pc c (Some (op, v))) by (destruct op; reflexivity). cbn [b2n] in R. lia.
Qed.

Lemma pinv_transfer s p q oq y :
  PInv s -> nth_error (proms s) q = Some (Some oq) -> nth_error (proms s) p = Some y -> (forall c, po c y = false) -> p <> q ->
  PInv (set_prom (set_prom s q (Some None)) p (Some oq)).
Proof.
  intros I HQ HP Y N c. apply (pinv_same s); [exact I|reflexivity|].
  pose proof (refs_set_prom s q (Some None) _ c HQ) as R1.
  assert (HP' : nth_error (proms (set_prom s q (Some None))) p = Some y).
  { cbn [set_prom proms]. rewrite nth_error_set_nth_other by congruence. exact HP. }
  pose proof (refs_set_prom _ p (Some oq) _ c HP') as R2. rewrite Y in R2. cbn [po b2n] in R1, R2. lia.
Qed.

Lemma pinv_bind s p q op v :
  PInv s -> nth_error (proms s) p = Some (Some op) -> nth_error (clos s) q = Some None ->
  PInv (set_clo (set_prom s p (Some None)) q (Some (op, v))).
Proof.
  intros I HP HQ c. apply (pinv_same s); [exact I|reflexivity|].
  pose proof (refs_set_prom s p (Some None) _ c HP) as R1.
  pose proof (refs_set_clo (set_prom s p (Some None)) q (Some (op, v)) _ c HQ) as R2.
  assert (E : pc c (Some (op, v)) = po c (Some op)) by (destruct op; reflexivity). rewrite E in R2.
  cbn [po pc b2n] in R1, R2. lia.
Qed.

Lemma cell_is_init_spec s c : cell_is_init s c = true -> exists cl, nth_error (cells s) c = Some cl /\ c_slot cl = CInit.
Proof.
  unfold cell_is_init. destruct (nth_error (cells s) c) as [cl|]; [|discriminate].
  destruct (c_slot cl) eqn:E; try discriminate. eauto.
Qed.

Lemma pinv_get s p c y :
  PInv s -> cell_is_init s c = true -> nth_error (proms s) p = Some y -> (forall c, po c y = false) ->
  PInv (set_prom (take_promise s c) p (Some (Some c))).
Proof.
  intros I CI HP Y c'. destruct (cell_is_init_spec s c CI) as (cl & HC & SL).
  unfold take_promise. rewrite HC.
  pose proof (refs_set_prom (set_cell s c (mkCell (CChain []) (c_pay cl) (c_nres cl))) p (Some (Some c)) _ c' HP) as R.
  rewrite refs_set_cell, Y, po_some in R. cbn [b2n] in R.
  pose proof (I c') as I'. pose proof (I c) as Ic. rewrite HC, SL in Ic. cbn in Ic.
  cbn [set_prom set_cell cells]. rewrite nth_error_set_nth, HC.
  destruct (Nat.eqb_spec c c') as [<-|N].
  - cbn [c_slot c_nres slot_chain slot_ready]. lia.
  - destruct (nth_error (cells s) c'); [destruct I'; split; [lia|assumption]|lia].
Qed.

Lemma pinv_assign_get isvoid s p c op :
  PInv s -> cell_is_init s c = true -> nth_error (proms s) p = Some (Some op) ->
  PInv (set_prom (fst (fst (fire isvoid (take_promise s c) op None))) p (Some (Some c))).
Proof.
  intros I CI HP. destruct op as [cp|]; cbn [fire]; [|cbn [fst]; eapply pinv_get; eauto].
  destruct (cell_is_init_spec s c CI) as (cl & HC & SL).
  destruct (owner_pending s p cp I HP) as (clp & l & HCP & SLP & NRP & RP).
  assert (NE : c <> cp) by (intros ->; congruence).
  unfold take_promise. rewrite HC. unfold resolve. cbn [set_cell cells]. rewrite nth_error_set_nth.
  destruct (Nat.eqb_spec c cp) as [|_]; [contradiction|]. rewrite HCP. cbn [fst].
  intros c'.
  set (s1 := set_cell (set_cell s c _) cp _).
  pose proof (refs_set_prom s1 p (Some (Some c)) _ c' HP) as R. unfold s1 in R. rewrite !refs_set_cell, !po_some in R.
  pose proof (I c') as I'. pose proof (I c) as Ic. rewrite HC, SL in Ic. cbn in Ic.
  unfold s1. cbn [set_prom set_cell cells]. rewrite !nth_error_set_nth. rewrite ?HC.
  destruct (Nat.eqb_spec c cp) as [|_]; [contradiction|]. rewrite ?HCP.
  destruct (Nat.eqb_spec cp c') as [<-|N1].
  - cbn [c_slot c_nres slot_chain slot_ready]. destruct (Nat.eqb_spec c cp); [contradiction|]. cbn [b2n] in R. lia.
  - destruct (Nat.eqb_spec c c') as [<-|N2].
    + cbn [c_slot c_nres slot_chain slot_ready]. cbn [b2n] in R. lia.
    + destruct (nth_error (cells s) c'); cbn [b2n] in R; [destruct I'; split; [lia|assumption]|lia].
Qed.

Lemma pinv_sub s c cl l w k :
  PInv s -> nth_error (cells s) c = Some cl -> c_slot cl = CChain l ->
  PInv (set_cell s c (mkCell (CChain ((w, k) :: l)) (c_pay cl) (c_nres cl))).
Proof.
  intros I HC SL c'. pose proof (I c') as I'. pose proof (I c) as Ic. rewrite HC, SL in Ic.
  cbn [set_cell cells]. rewrite nth_error_set_nth, HC. change (refs (set_cell s c _) c') with (refs s c').
  destruct (Nat.eqb_spec c c') as [<-|N]; [exact Ic|exact I'].
Qed.

(* how one operation may change a cell: a ready cell is never touched again; a cell that is not ready afterwards
   was not ready before and has kept its payload *)
Definition cell_step (l l' : list cellst) : Prop :=
  forall c, match nth_error l c with
            | Some cl => exists cl', nth_error l' c = Some cl' /\ (c_slot cl = CReady -> cl' = cl) /\
                                     (c_slot cl' <> CReady -> c_slot cl <> CReady /\ c_pay cl' = c_pay cl)
            | None => nth_error l' c = None
            end.

Lemma cell_step_refl l : cell_step l l.
Proof. intros c. destruct (nth_error l c) as [cl|]; eauto. Qed.

Lemma cell_step_trans a b c : cell_step a b -> cell_step b c -> cell_step a c.
Proof.
  intros H1 H2 i. specialize (H1 i). specialize (H2 i). destruct (nth_error a i) as [x|]; [|rewrite H1 in H2; exact H2].
  destruct H1 as (y & E & R1 & N1). rewrite E in H2. destruct H2 as (z & E2 & R2 & N2). exists z. split; [exact E2|]. split.
  - intros R. pose proof (R1 R). subst y. apply R2, R.
  - intros N. destruct (N2 N) as (Ny & P2). destruct (N1 Ny) as (Nx & P1). split; [exact Nx|congruence].
Qed.

Lemma cell_step_set l c cl x :
  nth_error l c = Some cl -> c_slot cl <> CReady -> (c_slot x <> CReady -> c_pay x = c_pay cl) -> cell_step l (set_nth l c x).
Proof.
  intros H N P i. rewrite nth_error_set_nth, H. destruct (Nat.eqb_spec c i) as [<-|NE]; [|apply cell_step_refl].
  rewrite H. exists x. repeat split; auto. intros R. contradiction.
Qed.

Definition pending_owner (s : pst) (op : option nat) : Prop :=
  forall cp, op = Some cp -> exists cl, nth_error (cells s) cp = Some cl /\ c_slot cl <> CReady.

Lemma prom_pending s p op : PInv s -> nth_error (proms s) p = Some (Some op) -> pending_owner s op.
Proof. intros I H cp ->. destruct (owner_pending s p cp I H) as (cl & l & A & B & _). exists cl. split; congruence. Qed.

Lemma clo_pending s q op v : PInv s -> nth_error (clos s) q = Some (Some (op, v)) -> pending_owner s op.
Proof. intros I H cp ->. destruct (clo_owner_pending s q cp v I H) as (cl & l & A & B & _). exists cl. split; congruence. Qed.

Lemma fire_cells isvoid s op o s1 d b : pending_owner s op -> fire isvoid s op o = (s1, d, b) -> cell_step (cells s) (cells s1).
Proof.
  intros P F. destruct op as [cp|]; cbn [fire] in F; [|inversion F; apply cell_step_refl].
  destruct (P cp eq_refl) as (cl & HC & N). unfold resolve in F. rewrite HC in F. inversion F.
  apply (cell_step_set _ _ cl); [exact HC|exact N|]. intros Q. contradiction Q. reflexivity.
Qed.

Lemma take_cells s c : cell_is_init s c = true ->
  cell_step (cells s) (cells (take_promise s c)) /\ forall op, pending_owner s op -> pending_owner (take_promise s c) op.
Proof.
  intros CI. destruct (cell_is_init_spec s c CI) as (cl & HC & SL). unfold take_promise. rewrite HC. cbn [set_cell cells]. split.
  - apply (cell_step_set _ _ cl); [exact HC|congruence|reflexivity].
  - intros op P cp E. cbn [set_cell cells]. rewrite nth_error_set_nth, HC. destruct (Nat.eqb c cp); [|exact (P cp E)].
    eexists. split; [reflexivity|discriminate].
Qed.

Ltac fire_case F := match goal with |- context[fire ?iv ?s ?op ?o] => destruct (fire iv s op o) as [[s1 d] b] eqn:F end.

Lemma po_none c : po c None = false. Proof. reflexivity. Qed.
Lemma po_empty c : po c (Some None) = false. Proof. reflexivity. Qed.

(* the shape of PUnwind, PVal, PExc, PDrop; `out` builds the output line *)
Lemma fire_and_empty isvoid s p o (out : list Z -> bool -> list Z) :
  PInv s ->
  let r := match nth_error (proms s) p with
           | Some (Some op) => let '(s1, d, b) := fire isvoid s op o in (set_prom s1 p (Some None), out d b)
           | _ => (s, rejected)
           end in
  PInv (fst r) /\ cell_step (cells s) (cells (fst r)).
Proof.
  intros I. pose proof (conj I (cell_step_refl (cells s))) as Z. cbn zeta.
  destruct (nth_error (proms s) p) as [[op|]|] eqn:HP; try exact Z. fire_case F.
  exact (conj (pinv_fire_prom _ _ _ _ _ _ _ _ _ I HP po_empty F) (fire_cells _ _ _ _ _ _ _ (prom_pending s p op I HP) F)).
Qed.

Theorem pstep_inv isvoid s x :
  PInv s -> PInv (fst (pstep isvoid s x)) /\ cell_step (cells s) (cells (fst (pstep isvoid s x))).
Proof.
  intros I. pose proof (conj I (cell_step_refl (cells s))) as Z. destruct x; cbn [pstep]; try exact Z.
  - (* get *) destruct (nth_error (proms s) p) as [[o|]|] eqn:HP; try exact Z.
    destruct (cell_is_init s c) eqn:CI; [|exact Z]. split; [eapply pinv_get; eauto|apply (take_cells s c CI)].
  - (* move construct *)
    destruct (nth_error (proms s) p) as [[o|]|] eqn:HP; try exact Z.
    destruct (nth_error (proms s) q) as [[oq|]|] eqn:HQ; try exact Z. split; [|apply cell_step_refl].
    eapply pinv_transfer; eauto. intros ->. congruence.
  - (* assign *)
    destruct (nth_error (proms s) p) as [[op|]|] eqn:HP; try exact Z.
    destruct (nth_error (proms s) q) as [[oq|]|] eqn:HQ; try exact Z.
    destruct (Nat.eqb_spec p q) as [E|N]; [exact Z|].
    fire_case F. split; [|exact (fire_cells _ _ _ _ _ _ _ (prom_pending s p op I HP) F)]. cbn [fst].
    pose proof (pinv_fire_prom _ _ _ _ _ _ _ _ _ I HP po_empty F) as I2.
    destruct (fire_refs _ _ _ _ _ _ _ F) as (E & _).
    apply (pinv_transfer _ p q oq (Some None) I2); [| |exact po_empty|exact N]; cbn [set_prom proms]; rewrite E.
    + rewrite nth_error_set_nth_other by exact N. exact HQ.
    + apply nth_error_set_nth_same. apply nth_error_Some. congruence.
  - (* assign from get_promise *)
    destruct (nth_error (proms s) p) as [[op|]|] eqn:HP; try exact Z.
    destruct (cell_is_init s c) eqn:CI; [|exact Z]. destruct (take_cells s c CI) as (TC & TP).
    fire_case F. split; [|exact (cell_step_trans _ _ _ TC (fire_cells _ _ _ _ _ _ _ (TP op (prom_pending s p op I HP)) F))].
    pose proof (pinv_assign_get isvoid s p c op I CI HP) as I2. rewrite F in I2. exact I2.
  - (* destroy *)
    destruct (nth_error (proms s) p) as [[op|]|] eqn:HP; try exact Z. fire_case F.
    exact (conj (pinv_fire_prom _ _ _ _ _ _ _ _ _ I HP po_none F) (fire_cells _ _ _ _ _ _ _ (prom_pending s p op I HP) F)).
  - (* unwind *) exact (fire_and_empty isvoid s p None (fun d _ => 0%Z :: d) I).
  - (* value *) exact (fire_and_empty isvoid s p (Some (OVal v)) (fun d b => b2z b :: d) I).
  - (* exception *) exact (fire_and_empty isvoid s p (Some (OExc e)) (fun d b => b2z b :: d) I).
  - (* drop *) exact (fire_and_empty isvoid s p None (fun d b => b2z b :: d) I).
  - (* bind *)
    destruct (nth_error (clos s) q) as [[o|]|] eqn:HQ; try exact Z.
    destruct (nth_error (proms s) p) as [[op|]|] eqn:HP; try exact Z. split; [eapply pinv_bind; eauto|apply cell_step_refl].
  - (* call closure *) destruct (nth_error (clos s) q) as [[[op v]|]|] eqn:HQ; try exact Z. fire_case F.
    exact (conj (pinv_fire_clo _ _ _ _ _ _ (Some (None, v)) _ _ _ I HQ ltac:(reflexivity) F)
                (fire_cells _ _ _ _ _ _ _ (clo_pending s q op v I HQ) F)).
  - (* destroy closure *) destruct (nth_error (clos s) q) as [[[op v]|]|] eqn:HQ; try exact Z. fire_case F.
    exact (conj (pinv_fire_clo _ _ _ _ _ _ None _ _ _ I HQ ltac:(reflexivity) F) (fire_cells _ _ _ _ _ _ _ (clo_pending s q op v I HQ) F)).
  - (* subscribe *)
    destruct (nth_error (cells s) c) as [cl|] eqn:HC; [|exact Z].
    destruct (c_slot cl) eqn:SL; try exact Z. split; [eapply pinv_sub; eauto|].
    apply (cell_step_set _ _ cl); [exact HC|congruence|reflexivity].
  - (* query cell *) destruct (nth_error (cells s) c) as [cl|]; exact Z.
  - (* query promise *) destruct (nth_error (proms s) p) as [[op|]|]; exact Z.
Qed.


(* a call through an empty (moved-from, already used, default) promise fails and leaves no trace *)
Theorem empty_call_no_trace isvoid s p :
  nth_error (proms s) p = Some (Some None) ->
  (forall v, pstep isvoid s (PVal p v) = (s, [0%Z])) /\ (forall e, pstep isvoid s (PExc p e) = (s, [0%Z])) /\
  pstep isvoid s (PDrop p) = (s, [0%Z]) /\ pstep isvoid s (PQueryProm p) = (s, [0%Z]).
Proof.
  intros H. assert (E : set_prom s p (Some None) = s).
  { destruct s as [cs ps qs]. unfold set_prom. cbn [cells proms clos] in *. rewrite set_nth_same_id by exact H. reflexivity. }
  repeat split; intros; cbn [pstep fire]; rewrite H; cbn [fire b2z]; rewrite ?E; reflexivity.
Qed.

(* move assignment for any content op of the target *)
Lemma assign_fires isvoid s p q op oq :
  nth_error (proms s) p = Some (Some op) -> nth_error (proms s) q = Some (Some oq) -> p <> q ->
  let r := pstep isvoid s (PAssign p q) in let f := fst (fire isvoid s op None) in
  cells (fst r) = cells (fst f) /\ nth_error (proms (fst r)) q = Some (Some None) /\
  nth_error (proms (fst r)) p = Some (Some oq) /\ snd r = 0%Z :: snd f.
Proof.
  intros HP HQ N. cbn [pstep]. rewrite HP, HQ. destruct (Nat.eqb_spec p q); [contradiction|].
  destruct (fire_proms isvoid s op None) as (E & _). destruct (fire isvoid s op None) as [[s1 d] b].
  cbn [fst snd set_prom cells proms] in *. rewrite E.
  assert (NQ : Nat.eqb q p = false) by (apply Nat.eqb_neq; congruence).
  assert (NP : Nat.eqb p q = false) by (apply Nat.eqb_neq; congruence).
  repeat rewrite ?nth_error_set_nth, ?Nat.eqb_refl, ?NQ, ?NP, ?HP, ?HQ. auto.
Qed.

(* move assignment P[p] = std::move(P[q]) onto a live target, p <> q: the overwritten future becomes ready with no value by
   exactly one resolve(), the source is empty afterwards, the target stands for the source's future, which is untouched *)
Theorem assign_semantics isvoid s p q cp oq :
  PInv s -> nth_error (proms s) p = Some (Some (Some cp)) -> nth_error (proms s) q = Some (Some oq) -> p <> q ->
  let s' := fst (pstep isvoid s (PAssign p q)) in
  nth_error (proms s') q = Some (Some None) /\ nth_error (proms s') p = Some (Some oq) /\
  (exists cl cl', nth_error (cells s) cp = Some cl /\ nth_error (cells s') cp = Some cl' /\
                  c_slot cl' = CReady /\ c_pay cl' = c_pay cl /\ c_nres cl = 0 /\ c_nres cl' = 1) /\
  (forall c, c <> cp -> nth_error (cells s') c = nth_error (cells s) c).
Proof.
  intros I HP HQ N. destruct (assign_fires isvoid s p q _ oq HP HQ N) as (EC & EQ & EP & _).
  destruct (owner_pending s p cp I HP) as (cl & l & HC & SL & NR & R1).
  refine (conj EQ (conj EP _)). cbn zeta. rewrite EC. cbn [fire]. unfold resolve. rewrite HC. cbn [fst set_cell cells]. split.
  - exists cl. eexists. rewrite nth_error_set_nth, Nat.eqb_refl, HC. repeat split; try reflexivity; try assumption. cbn [c_nres]. lia.
  - intros c NC. apply nth_error_set_nth_other. congruence.
Qed.

(* move construction transfers the future and empties the source without touching any future *)
Theorem move_construct_semantics isvoid s p q oq :
  nth_error (proms s) p = Some None -> nth_error (proms s) q = Some (Some oq) ->
  let s' := fst (pstep isvoid s (PMoveC p q)) in
  cells s' = cells s /\ nth_error (proms s') q = Some (Some None) /\ nth_error (proms s') p = Some (Some oq).
Proof.
  intros HP HQ. cbn [pstep]. rewrite HP, HQ. cbn [fst set_prom proms cells].
  assert (N : p <> q) by (intros ->; congruence).
  assert (NQ : Nat.eqb q p = false) by (apply Nat.eqb_neq; congruence).
  assert (NP : Nat.eqb p q = false) by (apply Nat.eqb_neq; congruence).
  repeat rewrite ?nth_error_set_nth, ?Nat.eqb_refl, ?NQ, ?NP, ?HP, ?HQ. auto.
Qed.

Lemma drop_fires isvoid s p op x :
  nth_error (proms s) p = Some (Some op) -> In x [PDestroy p; PDrop p; PUnwind p] ->
  cells (fst (pstep isvoid s x)) = cells (fst (fst (fire isvoid s op None))) /\
  exists r, snd (pstep isvoid s x) = r :: snd (fst (fire isvoid s op None)).
Proof.
  intros HP [<-|[<-|[<-|[]]]]; cbn [pstep]; rewrite HP; destruct (fire isvoid s op None) as [[s1 d] b]; cbn; eauto.
Qed.

(* destroying / dropping an owner resolves its future to no-value (payload untouched), exactly one resolve() *)
Theorem destroy_resolves isvoid s p cp :
  PInv s -> nth_error (proms s) p = Some (Some (Some cp)) ->
  forall x, x = PDestroy p \/ x = PDrop p \/ x = PUnwind p ->
  exists cl cl', nth_error (cells s) cp = Some cl /\ nth_error (cells (fst (pstep isvoid s x))) cp = Some cl' /\
                 c_slot cl' = CReady /\ c_pay cl' = c_pay cl /\ c_nres cl' = 1.
Proof.
  intros I HP x Hx. destruct (owner_pending s p cp I HP) as (cl & l & HC & SL & NR & R1).
  destruct (drop_fires isvoid s p _ x HP) as (EC & _); [destruct Hx as [-> |[-> | ->]]; cbn [In]; auto|]. rewrite EC.
  cbn [fire]. unfold resolve. rewrite HC. cbn [fst set_cell cells]. rewrite nth_error_set_nth, Nat.eqb_refl, HC.
  exists cl. eexists. repeat split; try reflexivity. cbn [c_nres]. lia.
Qed.

(* a pending future has no payload yet: so "payload untouched" above means no-value *)
Definition PInv2 (s : pst) : Prop :=
  forall c cl, nth_error (cells s) c = Some cl -> c_slot cl <> CReady -> c_pay cl = ONone.

Theorem pinv2_step isvoid s x : PInv s -> PInv2 s -> PInv2 (fst (pstep isvoid s x)).
Proof.
  intros I J c cl' H N. pose proof (proj2 (pstep_inv isvoid s x I) c) as Q.
  destruct (nth_error (cells s) c) as [cl|] eqn:E; [|congruence].
  destruct Q as (cl2 & E2 & _ & P). rewrite H in E2. inversion E2; subst cl2. destruct (P N) as (N0 & ->). exact (J c cl E N0).
Qed.

Lemma pinv2_init : PInv2 pinit.
Proof.
  intros c cl H _. unfold pinit in H. cbn [cells] in H. apply nth_error_In in H. apply repeat_spec in H. subst. reflexivity.
Qed.

Theorem pinv12_run isvoid ops : forall s, PInv s -> PInv2 s ->
  PInv (fst (prun isvoid s ops)) /\ PInv2 (fst (prun isvoid s ops)).
Proof.
  induction ops as [|x r IH]; intros s I J; cbn [prun]; [auto|].
  destruct (pstep isvoid s x) as [s1 o] eqn:E. specialize (IH s1).
  destruct (prun isvoid s1 r) as [s2 os] eqn:E2. cbn [fst] in *. apply IH.
  - pose proof (proj1 (pstep_inv isvoid s x I)) as Q. rewrite E in Q. exact Q.
  - pose proof (pinv2_step isvoid s x I J) as Q. rewrite E in Q. exact Q.
Qed.

(* exactly-once per future: resolve() ran at most once, exactly once iff the future is ready; at most one owner *)
Theorem single_winner_per_cell s c cl :
  PInv s -> nth_error (cells s) c = Some cl ->
  c_nres cl <= 1 /\ (c_nres cl = 1 <-> c_slot cl = CReady) /\
  refs s c <= 1 /\ (refs s c = 1 <-> exists l, c_slot cl = CChain l).
Proof.
  intros I H. specialize (I c). rewrite H in I. destruct I as (I1 & I2).
  destruct (c_slot cl) eqn:E; cbn in I1, I2; repeat split; try lia; try (intros Q; discriminate Q);
    try (intros (l' & Q); discriminate Q); eauto; intros; lia.
Qed.

(* the overwritten future reads as no-value (await_canceled_exception / has_value() = false) *)
Corollary assign_overwritten_novalue isvoid s p q cp oq :
  PInv s -> PInv2 s -> nth_error (proms s) p = Some (Some (Some cp)) -> nth_error (proms s) q = Some (Some oq) -> p <> q ->
  exists cl', nth_error (cells (fst (pstep isvoid s (PAssign p q)))) cp = Some cl' /\
              c_slot cl' = CReady /\ c_pay cl' = ONone /\ c_nres cl' = 1.
Proof.
  intros I J HP HQ N. destruct (assign_semantics isvoid s p q cp oq I HP HQ N) as (_ & _ & (cl & cl' & A & B & C & D & E & F) & _).
  exists cl'. repeat split; try assumption. rewrite D. destruct (owner_pending s p cp I HP) as (cl0 & l & A0 & SL & _).
  rewrite A in A0. inversion A0; subst. eapply J; [exact A|congruence].
Qed.

(* C02 side of move assignment: the waiters parked on the overwritten future are released AT the assignment, all of
   them, each once, with the (no-value) result: callbacks in chain order, then the coroutines *)
Theorem assign_releases_waiters isvoid s p q cp oq cl l :
  nth_error (proms s) p = Some (Some (Some cp)) -> nth_error (proms s) q = Some (Some oq) -> p <> q ->
  nth_error (cells s) cp = Some cl -> c_slot cl = CChain l ->
  snd (pstep isvoid s (PAssign p q)) = 0%Z :: deliver isvoid (c_pay cl) l /\
  (forall w k, In (w, k) l -> In (Z.of_nat w) (deliver isvoid (c_pay cl) l)).
Proof.
  intros HP HQ N HC SL. split.
  - destruct (assign_fires isvoid s p q _ oq HP HQ N) as (_ & _ & _ & E). rewrite E.
    cbn [fire]. unfold resolve. rewrite HC, SL. reflexivity.
  - intros w k H. unfold deliver. apply in_flat_map. exists (w, k). split; [|left; reflexivity].
    apply in_or_app. destruct k; [right|left]; apply filter_In; auto.
Qed.

