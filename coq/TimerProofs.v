(* TimerProofs.v — the libstdc++ heap primitives of TimerDefs.v (property C12): push_heap and pop_heap keep the
   min-heap order and the multiset, for arrays of any length and any time points (equal / past / negative). *)
From Cocls Require Import Base BaseProofs TimerDefs.
Require Import ZifyBool ZifyNat.
Local Open Scope Z_scope.
Ltac Zify.zify_post_hook ::= Z.div_mod_to_equations.

(* replacing slot i by x: the old content leaves, x enters *)
Lemma set_nth_perm {A} (l : list A) i x d : (i < length l)%nat ->
  Permutation (nth i l d :: set_nth l i x) (x :: l).
Proof.
  revert i; induction l as [|y l IH]; intros [|i] H; cbn [length] in H; try lia; cbn [set_nth nth].
  - apply perm_swap.
  - rewrite perm_swap, IH by lia. apply perm_swap.
Qed.

Lemma set_nth_same {A} (l : list A) i d : set_nth l i (nth i l d) = l.
Proof.
  revert i; induction l as [|y l IH]; intros [|i]; cbn [set_nth nth]; try reflexivity. rewrite IH. reflexivity.
Qed.

Lemma set_nth_set_nth {A} (l : list A) i x y : set_nth (set_nth l i x) i y = set_nth l i y.
Proof.
  revert i; induction l as [|z l IH]; intros [|i]; cbn [set_nth]; try reflexivity. rewrite IH. reflexivity.
Qed.

(* moving slot j into the hole i and then filling j is a permutation of filling the hole directly *)
Lemma hole_move_perm {A} (l : list A) i j x d : i <> j -> (i < length l)%nat -> (j < length l)%nat ->
  Permutation (set_nth (set_nth l i (nth j l d)) j x) (set_nth l i x).
Proof.
  intros N Hi Hj.
  apply (Permutation_cons_inv (a := nth j l d)).
  rewrite <- (nth_set_nth_other l i j (nth j l d) d N) at 1.
  rewrite set_nth_perm by (rewrite set_nth_length; exact Hj).
  (* x :: set_nth l i (nth j l d)  ~  nth j l d :: set_nth l i x : both are x :: nth j l d :: l less slot i *)
  apply (Permutation_cons_inv (a := nth i l d)).
  rewrite (perm_swap x), (perm_swap (nth j l d)), !set_nth_perm by exact Hi. apply perm_swap.
Qed.

Lemma set_nth_app_last {A} (l : list A) x y : set_nth (l ++ [x]) (length l) y = l ++ [y].
Proof. induction l as [|z l IH]; cbn [app length set_nth]; [reflexivity|]. rewrite IH. reflexivity. Qed.

(* `parent` is unfolded only in these two lemmas *)
Lemma parent_lt i : (0 < i)%nat -> (parent i < i)%nat.
Proof. unfold parent. lia. Qed.

Lemma parent_child i h : (0 < i)%nat -> parent i = h <-> (i = 2 * h + 1 \/ i = 2 * h + 2)%nat.
Proof. unfold parent. lia. Qed.

Definition tpat (l : list entry) (i : nat) : Z := e_tp (nth i l dflt).

(* min-heap on the time point (compare_item is `>`): every slot is >= its parent slot *)
Definition heap_ok (l : list entry) : Prop :=
  forall i, (0 < i < length l)%nat -> tpat l (parent i) <= tpat l i.

Lemma tpat_set_eq l i x : (i < length l)%nat -> tpat (set_nth l i x) i = e_tp x.
Proof. intros H. unfold tpat. rewrite nth_set_nth_same by exact H. reflexivity. Qed.

Lemma tpat_set_ne l i j x : i <> j -> tpat (set_nth l i x) j = tpat l j.
Proof. intros H. unfold tpat. rewrite nth_set_nth_other by exact H. reflexivity. Qed.

Lemma tpat_app_l l x i : (i < length l)%nat -> tpat (l ++ [x]) i = tpat l i.
Proof. intros H. unfold tpat. rewrite app_nth1 by exact H. reflexivity. Qed.

Lemma cmp_spec a b : cmp a b = true <-> e_tp b < e_tp a.
Proof. unfold cmp. lia. Qed.

Lemma heap_ok_nil : heap_ok [].
Proof. intros i Hi. cbn [length] in Hi. lia. Qed.

Lemma heap_ok_one x : heap_ok [x].
Proof. intros i Hi. cbn [length] in Hi. lia. Qed.

Lemma heap_ok_prefix l x : heap_ok (l ++ [x]) -> heap_ok l.
Proof.
  intros H i Hi. pose proof (parent_lt i). rewrite <- !(tpat_app_l l x) by lia.
  apply H. rewrite app_length. lia.
Qed.

(* heap order depends on the time points only: emptying an entry in place keeps it *)
Lemma heap_ok_ext l l' : map e_tp l = map e_tp l' -> heap_ok l -> heap_ok l'.
Proof.
  intros E H i Hi.
  assert (forall j, tpat l' j = tpat l j) as T.
  { intros j. unfold tpat. rewrite <- (map_nth e_tp l'), <- (map_nth e_tp l), E. reflexivity. }
  rewrite !T. apply H. rewrite <- (map_length e_tp l), E, map_length. exact Hi.
Qed.

(* the top of a heap is a minimum of the whole array *)
Lemma heap_top_min l : heap_ok l -> forall i, (i < length l)%nat -> tpat l 0 <= tpat l i.
Proof.
  intros H i. induction i as [i IH] using lt_wf_ind. intros Hi.
  destruct (Nat.eq_dec i 0) as [->|N]; [lia|].
  pose proof (parent_lt i). specialize (IH (parent i)). specialize (H i). lia.
Qed.

Lemma heap_top_min_in t rest e : heap_ok (t :: rest) -> In e (t :: rest) -> e_tp t <= e_tp e.
Proof.
  intros H I. destruct (In_nth _ _ dflt I) as (i & Hi & <-). apply (heap_top_min _ H i Hi).
Qed.

(* every assignment of __push_heap and __adjust_heap is an instance *)
Lemma heap_ok_fill l h x : (h < length l)%nat ->
  (forall i, (0 < i < length l)%nat -> i <> h -> parent i <> h -> tpat l (parent i) <= tpat l i) ->
  ((0 < h)%nat -> tpat l (parent h) <= e_tp x) ->
  (forall c, (0 < c < length l)%nat -> parent c = h -> e_tp x <= tpat l c) ->
  heap_ok (set_nth l h x).
Proof.
  intros HL Hrest Hup Hdown i Hi. rewrite set_nth_length in Hi.
  destruct (Nat.eq_dec i h) as [->|N].
  - pose proof (parent_lt h). rewrite tpat_set_eq, tpat_set_ne by lia. apply Hup. lia.
  - rewrite (tpat_set_ne l h i) by congruence.
    destruct (Nat.eq_dec (parent i) h) as [E|E].
    + rewrite E, tpat_set_eq by exact HL. apply Hdown; assumption.
    + rewrite tpat_set_ne by congruence. apply Hrest; assumption.
Qed.

Lemma heap_ok_pull l h c : heap_ok l -> (0 < c < length l)%nat -> parent c = h ->
  (forall c', (0 < c' < length l)%nat -> parent c' = h -> tpat l c <= tpat l c') ->
  heap_ok (set_nth l h (nth c l dflt)).
Proof.
  intros H Hc Pc Hmin. pose proof (parent_lt c). apply heap_ok_fill.
  - lia.
  - intros i Hi _ _. apply H. exact Hi.
  - intros Hh. pose proof (H h) as Q1. pose proof (H c) as Q2. rewrite Pc in Q2. fold (tpat l c). lia.
  - exact Hmin.
Qed.

Lemma heap_ok_lower l p : heap_ok l -> (p < length l)%nat -> heap_ok (set_nth l p (nth (parent p) l dflt)).
Proof.
  intros H Hp. fold (tpat l (parent p)). apply heap_ok_fill; fold (tpat l (parent p)).
  - exact Hp.
  - intros i Hi _ _. apply H. exact Hi.
  - lia.
  - intros c Hc Pc. pose proof (H c Hc) as Q. rewrite Pc in Q.
    destruct (Nat.eq_dec p 0) as [->|N]; [exact Q|]. pose proof (H p). lia.
Qed.

(* the loop invariant of __push_heap; the model copies where the code moves, so the hole holds a stale copy *)
Definition up_inv (l : list entry) (h : nat) (v : entry) : Prop :=
  (h < length l)%nat /\
  heap_ok (set_nth l h (nth (parent h) l dflt)) /\
  (forall c, (0 < c < length l)%nat -> parent c = h -> e_tp v <= tpat l c).

Lemma up_inv_leaf l h v : (h < length l <= 2 * h + 1)%nat ->
  (forall i, (0 < i < length l)%nat -> i <> h -> tpat l (parent i) <= tpat l i) -> up_inv l h v.
Proof.
  intros L H. assert (forall c, (0 < c < length l)%nat -> parent c <> h) as LEAF by (intros c Hc Pc; apply parent_child in Pc; lia).
  split; [lia|]. split.
  - apply heap_ok_fill; [lia| |fold (tpat l (parent h)); lia|].
    + intros i Hi N _. apply H; assumption.
    + intros c Hc Pc. destruct (LEAF c Hc Pc).
  - intros c Hc Pc. destruct (LEAF c Hc Pc).
Qed.

Lemma push_heap_aux_ok fuel : forall l h v, (h < fuel)%nat -> up_inv l h v ->
  let r := push_heap_aux fuel l h 0 v in
  heap_ok r /\ length r = length l /\ Permutation r (set_nth l h v).
Proof.
  induction fuel as [|f IH]; intros l h v F (HL & HH & HB); [lia|].
  cbn [push_heap_aux]. cbn zeta.
  set (p := parent h) in *. set (l' := set_nth l h (nth p l dflt)) in *.
  assert (length l' = length l) as EL by apply set_nth_length.
  destruct ((0 <? h)%nat && cmp (nth p l dflt) v)%bool eqn:C.
  - (* the parent moves down, continue at the parent *)
    apply andb_true_iff in C. destruct C as [C0 C1]. apply Nat.ltb_lt in C0. apply cmp_spec in C1. fold (tpat l p) in C1.
    assert (p < h)%nat as PH by (apply parent_lt; exact C0).
    assert (tpat l' p = tpat l p) as EP by (apply tpat_set_ne; lia).
    destruct (IH l' p v) as (I1 & I2 & I3); [lia| |].
    { split; [lia|]. split; [apply heap_ok_lower; [exact HH|lia]|].
      intros c Hc Pc. pose proof (HH c Hc) as Q. rewrite Pc, EP in Q. lia. }
    refine (conj I1 (conj _ _)).
    + rewrite I2. exact EL.
    + rewrite I3. apply hole_move_perm; lia.
  - (* place v *)
    refine (conj _ (conj (set_nth_length _ _ _) (Permutation_refl _))).
    rewrite <- (set_nth_set_nth l h (nth p l dflt) v). fold l'.
    apply heap_ok_fill; rewrite ?EL; [exact HL| |intros C0|].
    + intros i Hi _ _. apply HH. rewrite EL. exact Hi.
    + pose proof (parent_lt h C0). apply Nat.ltb_lt in C0. rewrite C0 in C. cbn [andb] in C.
      assert (~ e_tp v < tpat l p) as Q by (unfold tpat; rewrite <- cmp_spec; congruence).
      fold p. unfold l'. rewrite tpat_set_ne by lia. lia.
    + intros c Hc Pc. pose proof (proj1 (parent_child c h (proj1 Hc)) Pc).
      unfold l'. rewrite tpat_set_ne by lia. apply HB; assumption.
Qed.

Lemma push_leaf_ok l h v : heap_ok l -> (h < length l <= 2 * h + 1)%nat ->
  let r := push_heap_aux (S h) l h 0 v in
  heap_ok r /\ length r = length l /\ Permutation r (set_nth l h v).
Proof.
  intros H L. apply push_heap_aux_ok; [lia|]. apply up_inv_leaf; [exact L|]. intros i Hi _. apply H, Hi.
Qed.

(* push_back + std::push_heap *)
Theorem heap_push_ok l e : heap_ok l ->
  heap_ok (heap_push l e) /\ Permutation (heap_push l e) (e :: l) /\ length (heap_push l e) = S (length l).
Proof.
  intros H. unfold heap_push.
  assert (up_inv (l ++ [e]) (length l) e) as U.
  { apply up_inv_leaf; rewrite app_length; cbn [length]; [lia|].
    intros i Hi Ni. pose proof (parent_lt i). rewrite !tpat_app_l by lia. apply H. lia. }
  destruct (push_heap_aux_ok (S (length l)) _ _ _ (Nat.lt_succ_diag_r _) U) as (A & B & C).
  refine (conj A (conj _ _)).
  - rewrite C, set_nth_app_last. symmetry. apply Permutation_cons_append.
  - rewrite B, app_length. cbn [length]. lia.
Qed.

(* the sift-down loop of __adjust_heap keeps the array a heap (stale copy left in the hole),
   moves the hole to a node without two children, and only permutes the slots other than the hole *)
Lemma sift_down_ok fuel : forall l h len, len = length l -> heap_ok l -> (h < len)%nat ->
  let r := sift_down fuel l h len in
  heap_ok (fst r) /\ length (fst r) = len /\ (h <= snd r < len)%nat /\
  (forall x, Permutation (set_nth (fst r) (snd r) x) (set_nth l h x)) /\
  ((len <= fuel + h)%nat -> ~ (snd r < (len - 1) / 2)%nat).
Proof.
  induction fuel as [|f IH]; intros l h len EL H HL; cbn [sift_down].
  - cbn [fst snd]. refine (conj H (conj (eq_sym EL) (conj _ (conj (fun x => Permutation_refl _) _)))); lia.
  - destruct (Nat.ltb_spec h ((len - 1) / 2)) as [C|C].
    + cbn zeta.
      set (sc := (2 * (h + 1))%nat).
      set (c := if cmp (nth sc l dflt) (nth (sc - 1) l dflt) then (sc - 1)%nat else sc).
      assert ((c = sc \/ c = sc - 1)%nat /\ tpat l c <= tpat l sc /\ tpat l c <= tpat l (sc - 1)) as (CC & C1 & C2).
      { unfold c. destruct (cmp (nth sc l dflt) (nth (sc - 1) l dflt)) eqn:Q.
        - apply cmp_spec in Q. unfold tpat. lia.
        - assert (~ e_tp (nth (sc - 1) l dflt) < e_tp (nth sc l dflt)) by (rewrite <- cmp_spec; congruence).
          unfold tpat. lia. }
      assert (h < c < len)%nat as HC by (unfold sc in *; lia).
      assert (parent c = h) as PC by (apply parent_child; unfold sc in *; lia).
      assert (heap_ok (set_nth l h (nth c l dflt))) as H'.
      { apply heap_ok_pull; [exact H|lia|exact PC|]. intros i Hi Pi. apply parent_child in Pi; [|lia].
        destruct Pi as [->| ->]; [replace (2 * h + 1)%nat with (sc - 1)%nat|replace (2 * h + 2)%nat with sc];
          unfold sc; try lia; assumption. }
      specialize (IH _ c len ltac:(rewrite set_nth_length; exact EL) H' ltac:(lia)). cbn zeta in IH.
      destruct (sift_down f (set_nth l h (nth c l dflt)) c len) as [l1 h1]. cbn [fst snd] in *.
      destruct IH as (I1 & I2 & I3 & I4 & I5).
      refine (conj I1 (conj I2 (conj _ (conj _ _)))).
      * lia.
      * intros x. rewrite I4. apply hole_move_perm; lia.
      * intros Q. apply I5. lia.
    + cbn [fst snd]. refine (conj H (conj (eq_sym EL) (conj _ (conj (fun x => Permutation_refl _) _)))); lia.
Qed.

(* __adjust_heap with the hole at the root of a heap: the result is a heap holding v instead of the root *)
Lemma adjust_heap_ok l v : heap_ok l -> (0 < length l)%nat ->
  let r := adjust_heap l 0 (length l) v in
  heap_ok r /\ length r = length l /\ Permutation r (set_nth l 0 v).
Proof.
  intros H L. unfold adjust_heap.
  pose proof (sift_down_ok (length l) l 0 (length l) eq_refl H L) as S. cbn zeta in S.
  destruct (sift_down (length l) l 0 (length l)) as [l1 h1]. cbn [fst snd] in S.
  destruct S as (S1 & S2 & S3 & S4 & S5).
  assert (~ (h1 < (length l - 1) / 2)%nat) as LEAF by (apply S5; lia). clear S5.
  set (len := length l) in *.
  destruct (Nat.even len && (h1 =? (len - 2) / 2)%nat)%bool eqn:EV.
  - (* a last node with a left child only: the child moves up, the hole becomes a leaf *)
    apply andb_true_iff in EV. destruct EV as [EV EH]. apply Nat.eqb_eq in EH.
    apply Nat.even_spec in EV. destruct EV as [k EK].
    set (c := (2 * (h1 + 1) - 1)%nat).
    assert (c = len - 1 /\ h1 < c /\ c < len)%nat as (C1 & C2 & C3) by (unfold c; lia).
    assert (parent c = h1) as PC by (apply parent_child; unfold c; lia).
    assert (heap_ok (set_nth l1 h1 (nth c l1 dflt))) as H'.
    { apply heap_ok_pull; [exact S1|lia|exact PC|]. intros i Hi Pi. apply parent_child in Pi; [|lia].
      replace i with c by (unfold c; lia). lia. }
    destruct (push_leaf_ok _ c v H') as (A & B & C); [rewrite set_nth_length, S2; lia|].
    refine (conj A (conj _ _)).
    + rewrite B, set_nth_length. exact S2.
    + rewrite C, hole_move_perm by lia. apply S4.
  - (* the hole is a leaf *)
    assert (len <= 2 * h1 + 1)%nat as LF.
    { apply andb_false_iff in EV. destruct (Nat.even len) eqn:EE.
      - destruct EV as [EV|EV]; [discriminate|]. apply Nat.eqb_neq in EV.
        apply Nat.even_spec in EE. destruct EE as [k EK]. lia.
      - rewrite <- Nat.negb_odd in EE. apply negb_false_iff in EE. apply Nat.odd_spec in EE.
        destruct EE as [k EK]. lia. }
    destruct (push_leaf_ok l1 h1 v S1) as (A & B & C); [rewrite S2; lia|].
    refine (conj A (conj _ _)).
    + rewrite B. exact S2.
    + rewrite C. apply S4.
Qed.

Lemma pop_item_snoc t a b : pop_item (t :: a ++ [b]) = Ok (adjust_heap (t :: a) 0 (length (t :: a)) b).
Proof.
  destruct a as [|x a]; [reflexivity|]. cbn [app pop_item].
  change (t :: x :: a ++ [b]) with ((t :: x :: a) ++ [b]).
  rewrite removelast_last, last_last, app_length, Nat.add_sub. reflexivity.
Qed.

(* pop_item on a non-empty heap: no error, a heap again, exactly the top has left *)
Theorem pop_item_ok t rest : heap_ok (t :: rest) ->
  exists l', pop_item (t :: rest) = Ok l' /\ heap_ok l' /\ Permutation l' rest /\ length l' = length rest.
Proof.
  intros H. destruct rest as [|b a _] using rev_ind.
  - exists []. auto using heap_ok_nil.
  - rewrite pop_item_snoc.
    destruct (adjust_heap_ok (t :: a) b (heap_ok_prefix (t :: a) b H)) as (A & B & C); [cbn [length]; lia|].
    eexists. refine (conj eq_refl (conj A (conj _ _))).
    + rewrite C. apply Permutation_cons_append.
    + rewrite B, app_length. cbn [length]. lia.
Qed.
