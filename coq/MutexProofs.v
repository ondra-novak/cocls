(* MutexProofs.v — invariants of the coroutine-mutex model, for any number of contenders of any kind,
   any number of rounds and every schedule (induction over reachability).
   The invariant is stated on a "view" of the state (memory, ghost lists, and per task kind/pc/flag): every protocol
   transition is a pure lemma there.  Every case of MutexDefs.tstep is then one of these transitions wrapped in
   scheduling bookkeeping (coro_queue, scenario counters) that does not change the view.  The ghost fields are the
   state of an abstract FIFO lock (owner, pending requests in arrival order = gqueue ++ rev gstack, logs) and Inv is
   the relation between it and the memory; the C07/C08 properties are read off Inv (reachable_inv). *)
From Cocls Require Import Base BaseProofs MutexDefs.
Local Open Scope nat_scope.

Definition tview := (kind * pc * bool)%type.
Definition dflt_tv : tview := (KPlain, PDone, false).

(* what a task is to the mutex, by pc (and kind, flag): not involved; waiting with a published request; owner whose own
   request is the bottom of the request stack (PPub0, PBqS); owner before build_queue(doorman) in unlock; owner before
   the CAS doorman -> null; owner elsewhere; a pc its kind never has *)
Inductive class := CNeutral | CWait | CBottom | CBqU | CUCas | CHold | CBad.

Definition cls (v : tview) : class :=
  match v with
  | (k, p, f) =>
      match p with
      | PPub0 | PBqS => CBottom
      | PBqU => CBqU
      | PCs | PUnlock => CHold
      | PUnlockCas => CUCas
      | PParked => match k with KCoro => CWait | KPlain => CBad end
      | PPubW | PFlag => match k with KPlain => if f then CHold else CWait | KCoro => CBad end
      | PStep | PTry | PSub _ | PDone => CNeutral
      end
  end.

Definition is_hold (c : class) : bool := match c with CBottom | CBqU | CUCas | CHold => true | _ => false end.

Record view := mkV {
  v_req : ptr; v_q : ptr; v_next : list ptr; v_dn : ptr; v_err : bool;
  v_own : option nat; v_gs : list nat; v_gq : list nat; v_al : list nat; v_gl : list nat;
  v_tv : nat -> tview
}.

(* the pointer p is the head of a chain through exactly the nodes l, ending in b *)
Fixpoint repr (nx : list ptr) (p : ptr) (l : list nat) (b : ptr) : Prop :=
  match l with
  | [] => p = b
  | w :: l' => p = PNode w /\ repr nx (nth w nx PNull) l' b
  end.

Definition bottom (V : view) (o : nat) : ptr :=
  match cls (v_tv V o) with CBottom => PNode o | _ => PDoor end.

Record Inv (V : view) : Prop := {
  i_dom : forall c, length (v_next V) <= c -> v_tv V c = dflt_tv;
  i_err : v_err V = false;
  i_bad : forall c, cls (v_tv V c) <> CBad;
  i_own : forall c, is_hold (cls (v_tv V c)) = true <-> v_own V = Some c;
  i_wait : forall w, cls (v_tv V w) = CWait <-> In w (v_gs V ++ v_gq V);
  i_nodup : NoDup (v_gs V ++ v_gq V);
  i_free : v_own V = None -> v_req V = PNull /\ v_gs V = [] /\ v_gq V = [];
  i_stack : forall o, v_own V = Some o -> repr (v_next V) (v_req V) (v_gs V) (bottom V o);
  i_bot : forall o, cls (v_tv V o) = CBottom -> nth o (v_next V) PNull = PNull /\ v_gq V = [];
  i_queue : repr (v_next V) (v_q V) (v_gq V) PNull;
  i_bqu : forall o, cls (v_tv V o) = CBqU -> v_gq V = [] /\ v_gs V <> [];
  i_dn : v_dn V = PNull;
  i_fifo : v_al V = v_gl V ++ v_gq V ++ rev (v_gs V);
  (* a requester between two attempts of its publishing CAS: aw->_next holds the value it expects *)
  i_sub : forall c e, snd (fst (v_tv V c)) = PSub e -> nth c (v_next V) PNull = e;
  (* the owner found its private queue empty and is about to CAS doorman -> null *)
  i_ucas : forall o, cls (v_tv V o) = CUCas -> v_gq V = []
}.

Definition upd (f : nat -> tview) (c : nat) (v : tview) : nat -> tview :=
  fun x => if Nat.eqb x c then v else f x.

Lemma upd_same f c v : upd f c v c = v.
Proof. unfold upd. now rewrite Nat.eqb_refl. Qed.
Lemma upd_other f c v x : x <> c -> upd f c v x = f x.
Proof. unfold upd. intros H. apply Nat.eqb_neq in H. now rewrite H. Qed.

Ltac upd_case x c :=
  destruct (Nat.eq_dec x c) as [->|?N]; [rewrite ?upd_same in *|rewrite ?upd_other in * by assumption].

Lemma repr_frame nx p l b c v : ~ In c l -> repr (set_nth nx c v) p l b <-> repr nx p l b.
Proof.
  revert p. induction l as [|w l IH]; intros p H; cbn [repr]; [tauto|].
  rewrite nth_set_nth_other by (intros ->; apply H; left; reflexivity).
  rewrite IH; [tauto|]. intro Q. apply H. right. exact Q.
Qed.

Lemma repr_bottom nx p l b b' : repr nx p l b -> b = b' -> repr nx p l b'.
Proof. intros H <-. exact H. Qed.

Lemma repr_nil_inv nx p l b : repr nx p l b -> (forall w, p <> PNode w) -> l = [] /\ p = b.
Proof. destruct l as [|w l]; cbn [repr]; [auto|]. intros [E _] H. exfalso. eapply H. exact E. Qed.

Lemma repr_node_inv nx w l b : repr nx (PNode w) l b -> (forall x, b <> PNode x) ->
  exists r, l = w :: r /\ repr nx (nth w nx PNull) r b.
Proof.
  destruct l as [|x l]; cbn [repr].
  - intros E H. exfalso. eapply H. symmetry. exact E.
  - intros [E R] _. inversion E; subst. eauto.
Qed.

Lemma ptr_eqb_eq a b : ptr_eqb a b = true <-> a = b.
Proof.
  destruct a, b; cbn; split; try congruence; try discriminate; auto.
  - intros H. apply Nat.eqb_eq in H. now subst.
  - intros H. inversion H. apply Nat.eqb_refl.
Qed.

(* the pointer to the first node of l, q when there is none *)
Definition head (q : ptr) (l : list nat) : ptr := match l with [] => q | x :: _ => PNode x end.

(* the walk reverses the chain l in front of the queue ql; the links of all other nodes are untouched *)
Lemma bq_walk_repr l : forall fuel nx dn req stop q ql,
  repr nx req l stop -> NoDup (l ++ ql) -> (forall w, In w l -> w < length nx) ->
  (forall w, In w l -> stop <> PNode w) -> stop <> PNull ->
  repr nx q ql PNull -> length l < fuel ->
  exists nx', bq_walk fuel nx dn req stop q = (nx', dn, head q (rev l ++ ql)) /\
    repr nx' (head q (rev l ++ ql)) (rev l ++ ql) PNull /\
    length nx' = length nx /\ (forall x, ~ In x l -> nth x nx' PNull = nth x nx PNull).
Proof.
  induction l as [|w l IH]; intros fuel nx dn req stop q ql R ND LT NS SN RQ F;
    (destruct fuel as [|fuel]; [cbn in F; lia|]); cbn [repr] in R; cbn [bq_walk].
  - subst req. rewrite (proj2 (ptr_eqb_eq stop stop) eq_refl). exists nx. cbn [rev app].
    replace (head q ql) with q by (destruct ql; [reflexivity|apply RQ]). auto.
  - destruct R as [-> R].
    assert (E : ptr_eqb (PNode w) stop = false).
    { destruct (ptr_eqb (PNode w) stop) eqn:Q; [|reflexivity]. apply ptr_eqb_eq in Q. exfalso.
      apply (NS w); [left; reflexivity|]. symmetry. exact Q. }
    rewrite E. cbn [app] in ND. inversion ND as [|? ? Wn ND']; subst.
    assert (Wl : ~ In w l) by (intro; apply Wn; apply in_or_app; auto).
    assert (Wq : ~ In w ql) by (intro; apply Wn; apply in_or_app; auto).
    destruct (IH fuel (set_nth nx w q) dn (nth w nx PNull) stop (PNode w) (w :: ql)) as (nx' & E1 & R1 & L1 & O1).
    + apply repr_frame; assumption.
    + apply (NoDup_Add (Add_app w l ql)). split; assumption.
    + intros x Hx. rewrite set_nth_length. apply LT. right. exact Hx.
    + intros x Hx. apply NS. right. exact Hx.
    + exact SN.
    + cbn [repr]. split; [reflexivity|]. rewrite nth_set_nth_same by (apply LT; left; reflexivity).
      apply repr_frame; assumption.
    + cbn [length] in F. lia.
    + cbn [rev]. rewrite <- app_assoc. cbn [app].
      replace (head q (rev l ++ w :: ql)) with (head (PNode w) (rev l ++ w :: ql)) by (destruct (rev l); reflexivity).
      exists nx'. split; [exact E1|]. split; [exact R1|]. split.
      * rewrite L1. apply set_nth_length.
      * intros x Hx. rewrite O1 by (intro; apply Hx; right; assumption).
        apply nth_set_nth_other. intros ->. apply Hx. left. reflexivity.
Qed.

Lemma inv_req_null V : Inv V -> (v_req V = PNull <-> v_own V = None).
Proof.
  intros I. split.
  - intros E. destruct (v_own V) as [o|] eqn:O; [|reflexivity]. exfalso.
    pose proof (i_stack V I o O) as R. rewrite E in R. destruct (v_gs V) as [|w l]; cbn [repr] in R.
    + unfold bottom in R. destruct (cls (v_tv V o)); discriminate.
    + destruct R; discriminate.
  - intros O. apply (i_free V I O).
Qed.

Lemma not_hold V x k : Inv V -> v_own V <> Some x -> cls (v_tv V x) = k -> is_hold k = false.
Proof. intros I O <-. destruct (is_hold (cls (v_tv V x))) eqn:Q; [|reflexivity]. apply (i_own V I) in Q. contradiction. Qed.

Lemma inv_lt V c : Inv V -> cls (v_tv V c) <> CNeutral \/ snd (fst (v_tv V c)) <> PDone -> c < length (v_next V).
Proof.
  intros I H. destruct (le_lt_dec (length (v_next V)) c) as [L|L]; [|exact L]. exfalso.
  rewrite (i_dom V I c L) in H. cbn in H. destruct H as [H|H]; apply H; reflexivity.
Qed.

Lemma inv_wait_lt V w : Inv V -> In w (v_gs V ++ v_gq V) -> w < length (v_next V).
Proof. intros I H. apply (i_wait V I) in H. apply inv_lt; [exact I|]. left. congruence. Qed.

Lemma psub_neutral v e : snd (fst v) = PSub e -> cls v = CNeutral.
Proof. destruct v as [[k p] f]. cbn. intros ->. reflexivity. Qed.

Lemma inv_queue_null V : Inv V -> v_q V = PNull -> v_gq V = [].
Proof. intros I Q. pose proof (i_queue V I) as R. rewrite Q in R. apply (repr_nil_inv _ _ _ _ R). discriminate. Qed.

Lemma nodup_bound l n : NoDup l -> (forall x, In x l -> x < n) -> length l <= n.
Proof.
  intros ND H. rewrite <- (seq_length n 0). apply NoDup_incl_length; [exact ND|].
  intros x Hx. apply in_seq. specialize (H x Hx). lia.
Qed.

Lemma inv_cls V tv' : Inv V -> (forall x, cls (tv' x) = cls (v_tv V x)) ->
  (forall c, length (v_next V) <= c -> tv' c = dflt_tv) ->
  (forall c e, snd (fst (tv' c)) = PSub e -> snd (fst (v_tv V c)) = PSub e) ->
  Inv (mkV (v_req V) (v_q V) (v_next V) (v_dn V) (v_err V) (v_own V) (v_gs V) (v_gq V) (v_al V) (v_gl V) tv').
Proof.
  intros I H D HS. destruct I. constructor; cbn [v_req v_q v_next v_dn v_err v_own v_gs v_gq v_al v_gl v_tv]; auto.
  - intros c. rewrite H. auto.
  - intros c. rewrite H. auto.
  - intros w. rewrite H. auto.
  - intros o O. specialize (i_stack0 o O). unfold bottom in *. cbn [v_tv]. rewrite H. exact i_stack0.
  - intros o. rewrite H. apply i_bot0.
  - intros o. rewrite H. apply i_bqu0.
  - intros o. rewrite H. apply i_ucas0.
Qed.

(* One task c moves to v'.  `fields I` exposes the fields of the new invariant and closes those that are fields of I. *)
Ltac fields I := constructor; cbn [v_req v_q v_next v_dn v_err v_own v_gs v_gq v_al v_gl v_tv]; try solve [apply I].

(* the mutex is free and c takes it: mutex::ready(), CAS null -> doorman (mutex.h:185; b = PDoor, nothing
   is logged), or the publishing CAS of subscribe() finds null (mutex.h:198-203; b = the request of c, logged as
   published and as granted) *)
Lemma inv_acquire V c v' b al gl : Inv V -> v_req V = PNull -> cls (v_tv V c) = CNeutral -> c < length (v_next V) ->
  cls v' = CHold /\ b = PDoor \/ cls v' = CBottom /\ b = PNode c /\ nth c (v_next V) PNull = PNull ->
  (exists l, al = v_al V ++ l /\ gl = v_gl V ++ l) ->
  Inv (mkV b (v_q V) (v_next V) (v_dn V) (v_err V) (Some c) (v_gs V) (v_gq V) al gl (upd (v_tv V) c v')).
Proof.
  intros I E Cn L H (l & -> & ->). pose proof (proj1 (inv_req_null V I) E) as O.
  destruct (i_free V I O) as (_ & GS & GQ).
  assert (Hv : is_hold (cls v') = true) by (destruct H as [[-> _]|[-> _]]; reflexivity).
  assert (Oth : forall x, is_hold (cls (v_tv V x)) = false) by (intros x; apply (not_hold V x _ I); [congruence|reflexivity]).
  fields I.
  - intros x Lx. rewrite upd_other by lia. apply (i_dom V I). exact Lx.
  - intros x. upd_case x c; [destruct H as [[-> _]|[-> _]]; discriminate|apply (i_bad V I)].
  - intros x. upd_case x c; [tauto|]. rewrite (Oth x). split; [discriminate|congruence].
  - intros x. rewrite GS, GQ. cbn [app In]. upd_case x c; [destruct H as [[-> _]|[-> _]]; (split; [discriminate|tauto])|].
    rewrite (i_wait V I x), GS, GQ. cbn. tauto.
  - discriminate.
  - intros o Q. inversion Q; subst o. rewrite GS. cbn [repr]. unfold bottom. cbn [v_tv]. rewrite upd_same.
    destruct H as [[-> ->]|(-> & -> & _)]; reflexivity.
  - intros o. upd_case o c; [|intros Q; specialize (Oth o); rewrite Q in Oth; discriminate].
    destruct H as [[-> _]|(_ & _ & Z)]; [discriminate|auto].
  - intros o. upd_case o c; [destruct H as [[-> _]|[-> _]]; discriminate|].
    intros Q. specialize (Oth o). rewrite Q in Oth. discriminate.
  - rewrite (i_fifo V I), GS, GQ. cbn [app rev]. rewrite !app_nil_r. reflexivity.
  - intros x e. upd_case x c; [|apply (i_sub V I)]. intros Q. apply psub_neutral in Q.
    destruct H as [[Z _]|[Z _]]; congruence.
  - intros o. upd_case o c; [destruct H as [[-> _]|[-> _]]; discriminate|].
    intros Q. specialize (Oth o). rewrite Q in Oth. discriminate.
Qed.

(* mutex::subscribe(): the publishing CAS succeeds behind an owner (mutex.h:198-200, 212-214); aw->_next
   already holds the expected value *)
Lemma inv_subw V c v' : Inv V -> v_req V <> PNull -> snd (fst (v_tv V c)) = PSub (v_req V) -> cls v' = CWait ->
  Inv (mkV (PNode c) (v_q V) (v_next V) (v_dn V) (v_err V) (v_own V) (c :: v_gs V) (v_gq V)
           (v_al V ++ [c]) (v_gl V) (upd (v_tv V) c v')).
Proof.
  intros I E P H. pose proof (psub_neutral _ _ P) as N.
  assert (L : c < length (v_next V)) by (apply inv_lt; [exact I|right; rewrite P; discriminate]).
  destruct (v_own V) as [o|] eqn:O; [|exfalso; apply E; apply (inv_req_null V I); exact O].
  assert (Nc : ~ In c (v_gs V ++ v_gq V)) by (intro Q; apply (i_wait V I) in Q; congruence).
  assert (Noc : o <> c) by (intros ->; apply (i_own V I) in O; rewrite N in O; discriminate).
  fields I.
  - intros x Lx. rewrite upd_other by lia. apply (i_dom V I). exact Lx.
  - intros x. upd_case x c; [congruence|apply (i_bad V I)].
  - intros x. upd_case x c; [|rewrite <- O; apply (i_own V I)].
    rewrite H. cbn. split; [discriminate|]. intros Q. inversion Q. congruence.
  - intros x. cbn [app In]. upd_case x c; [rewrite H; tauto|].
    rewrite (i_wait V I x). split; [tauto|]. intros [Q|Q]; [congruence|exact Q].
  - cbn [app]. constructor; [exact Nc|apply (i_nodup V I)].
  - discriminate.
  - intros o' Q. inversion Q; subst o'. cbn [repr]. split; [reflexivity|]. rewrite (i_sub V I c _ P).
    unfold bottom. cbn [v_tv]. rewrite upd_other by exact Noc. apply (i_stack V I). exact O.
  - intros x. upd_case x c; [rewrite H; discriminate|apply (i_bot V I)].
  - intros x. upd_case x c; [rewrite H; discriminate|]. intros Q. split; [apply (i_bqu V I x Q)|discriminate].
  - rewrite (i_fifo V I). cbn [rev]. rewrite !app_assoc. reflexivity.
  - intros x e. upd_case x c; [intros Q; apply psub_neutral in Q; congruence|apply (i_sub V I)].
  - intros z. upd_case z c; [rewrite H; discriminate|apply (i_ucas V I)].
Qed.

(* subscribe(): aw->_next = prev before an attempt of the publishing CAS (mutex.h:199) *)
Lemma inv_sub_set V c v' e : Inv V -> cls (v_tv V c) = CNeutral -> c < length (v_next V) ->
  cls v' = CNeutral -> snd (fst v') = PSub e ->
  Inv (mkV (v_req V) (v_q V) (set_nth (v_next V) c e) (v_dn V) (v_err V) (v_own V) (v_gs V) (v_gq V)
           (v_al V) (v_gl V) (upd (v_tv V) c v')).
Proof.
  intros I N L H P.
  assert (Nc : forall l, incl l (v_gs V ++ v_gq V) -> ~ In c l).
  { intros l Hl Q. apply Hl, (i_wait V I) in Q. congruence. }
  fields I.
  - intros x Lx. rewrite set_nth_length in Lx. rewrite upd_other by lia. apply (i_dom V I). exact Lx.
  - intros x. upd_case x c; [congruence|apply (i_bad V I)].
  - intros x. upd_case x c; [|apply (i_own V I)]. rewrite H. rewrite <- (i_own V I c), N. tauto.
  - intros x. upd_case x c; [|apply (i_wait V I)]. rewrite H, <- (i_wait V I c), N. tauto.
  - intros o O. assert (Oc : o <> c) by (intros ->; apply (i_own V I) in O; rewrite N in O; discriminate).
    unfold bottom. cbn [v_tv]. rewrite upd_other by exact Oc.
    apply repr_frame; [apply Nc, incl_appl, incl_refl|]. apply (i_stack V I). exact O.
  - intros x. upd_case x c; [rewrite H; discriminate|]. rewrite nth_set_nth_other by auto. apply (i_bot V I).
  - apply repr_frame; [apply Nc, incl_appr, incl_refl|]. apply (i_queue V I).
  - intros x. upd_case x c; [rewrite H; discriminate|]. apply (i_bqu V I).
  - intros x e'. upd_case x c.
    + intros Q. rewrite nth_set_nth_same by exact L. congruence.
    + rewrite nth_set_nth_other by auto. apply (i_sub V I).
  - intros z. upd_case z c; [rewrite H; discriminate|]. apply (i_ucas V I).
Qed.

(* build_queue(stop) by the owner (mutex.h:218-233) *)
Lemma inv_bq V c stop fuel v' : Inv V ->
  (cls (v_tv V c) = CBottom /\ stop = PNode c \/ cls (v_tv V c) = CBqU /\ stop = PDoor) ->
  cls v' = CHold -> length (v_next V) < fuel ->
  exists nx q', bq_walk fuel (v_next V) (v_dn V) (v_req V) stop (v_q V) = (nx, v_dn V, q') /\
    Inv (mkV PDoor q' nx (v_dn V) (v_err V) (v_own V) [] (rev (v_gs V) ++ v_gq V) (v_al V) (v_gl V) (upd (v_tv V) c v')) /\
    (v_gs V <> [] -> exists w, q' = PNode w) /\ length nx = length (v_next V).
Proof.
  intros I C H F.
  assert (Hc : is_hold (cls (v_tv V c)) = true) by (destruct C as [[-> _]|[-> _]]; reflexivity).
  pose proof (proj1 (i_own V I c) Hc) as O.
  assert (GQ : v_gq V = []) by (destruct C as [[C _]|[C _]]; [apply (i_bot V I c C)|apply (i_bqu V I c C)]).
  assert (B : bottom V c = stop) by (unfold bottom; destruct C as [[-> ->]|[-> ->]]; reflexivity).
  pose proof (i_stack V I c O) as R. rewrite B in R.
  pose proof (i_queue V I) as RQ. pose proof (i_nodup V I) as ND. pose proof (i_wait V I) as W.
  rewrite GQ in RQ, ND, W |- *. rewrite app_nil_r in *.
  assert (LT : forall w, In w (v_gs V) -> w < length (v_next V)).
  { intros w Hw. apply inv_wait_lt; [exact I|]. apply in_or_app. auto. }
  assert (Ncg : ~ In c (v_gs V)) by (intro Q; apply W in Q; destruct C as [[C _]|[C _]]; congruence).
  assert (Oth : forall x k, x <> c -> cls (v_tv V x) = k -> is_hold k = false)
    by (intros x k N; apply (not_hold V x k I); rewrite O; congruence).
  destruct (bq_walk_repr (v_gs V) fuel (v_next V) (v_dn V) (v_req V) stop (v_q V) []) as (nx & E & R1 & L1 & O1);
    try assumption.
  - rewrite app_nil_r. exact ND.
  - intros w Hw Q. destruct C as [[_ ->]|[_ ->]]; [|discriminate]. inversion Q; subst. contradiction.
  - destruct C as [[_ ->]|[_ ->]]; discriminate.
  - pose proof (nodup_bound _ _ ND LT). lia.
  - rewrite app_nil_r in *. exists nx. eexists. split; [exact E|]. split; [|split; [|exact L1]].
    + fields I.
      * intros x Lx. rewrite L1 in Lx. rewrite upd_other; [apply (i_dom V I); exact Lx|]. intros ->.
        assert (c < length (v_next V)); [|lia]. apply inv_lt; [exact I|]. left. destruct C as [[-> _]|[-> _]]; discriminate.
      * intros x. upd_case x c; [congruence|apply (i_bad V I)].
      * intros x. upd_case x c; [rewrite H; cbn; tauto|]. apply (i_own V I).
      * intros x. upd_case x c.
        -- rewrite H. split; [discriminate|]. intros Q. apply in_rev in Q. contradiction.
        -- rewrite W. apply in_rev.
      * apply NoDup_rev. exact ND.
      * rewrite O. discriminate.
      * intros o Q. cbn [repr]. unfold bottom. cbn [v_tv]. rewrite O in Q. inversion Q; subst o.
        rewrite upd_same, H. reflexivity.
      * intros o. upd_case o c; [rewrite H; discriminate|]. intros Q. discriminate (Oth o _ N Q).
      * exact R1.
      * intros o. upd_case o c; [rewrite H; discriminate|]. intros Q. discriminate (Oth o _ N Q).
      * rewrite (i_fifo V I), GQ. cbn [app rev]. rewrite app_nil_r. reflexivity.
      * intros x e. upd_case x c; [intros Q; apply psub_neutral in Q; congruence|]. intros Q.
        rewrite O1; [apply (i_sub V I); exact Q|]. intro Z. apply W in Z. apply psub_neutral in Q. congruence.
      * intros o. upd_case o c; [rewrite H; discriminate|]. intros Q. discriminate (Oth o _ N Q).
    + intros NE. destruct (rev (v_gs V)) as [|x r] eqn:Z; [|cbn [head]; eauto].
      destruct NE. apply (f_equal (@rev nat)) in Z. rewrite rev_involutive in Z. exact Z.
Qed.

(* the owner goes on inside unlock() without touching memory: from the load that found the private queue
   empty to the fast path (mutex.h:154-157), from the failed CAS doorman -> null to build_queue (mutex.h:161-165).
   Neither class is the one whose chain ends in the owner's own request. *)
Lemma inv_owner_cls V c v' : Inv V -> is_hold (cls (v_tv V c)) = true -> cls (v_tv V c) <> CBottom ->
  v_gq V = [] -> cls v' = CUCas \/ cls v' = CBqU /\ v_gs V <> [] ->
  Inv (mkV (v_req V) (v_q V) (v_next V) (v_dn V) (v_err V) (v_own V) (v_gs V) (v_gq V) (v_al V) (v_gl V) (upd (v_tv V) c v')).
Proof.
  intros I Hc NB GQ H. pose proof (proj1 (i_own V I c) Hc) as O.
  assert (Hv : is_hold (cls v') = true) by (destruct H as [->|[-> _]]; reflexivity).
  assert (Lc : c < length (v_next V)) by (apply inv_lt; [exact I|left; intro Z; rewrite Z in Hc; discriminate]).
  fields I.
  - intros x Lx. rewrite upd_other by lia. apply (i_dom V I). exact Lx.
  - intros x. upd_case x c; [destruct H as [->|[-> _]]; discriminate|apply (i_bad V I)].
  - intros x. upd_case x c; [tauto|]. apply (i_own V I).
  - intros x. upd_case x c; [|apply (i_wait V I)]. rewrite <- (i_wait V I c).
    destruct (cls (v_tv V c)), H as [->|[-> _]]; split; discriminate.
  - intros o Z. rewrite O in Z. inversion Z; subst o. pose proof (i_stack V I c O) as R. unfold bottom in *. cbn [v_tv].
    rewrite upd_same. destruct (cls (v_tv V c)), H as [->|[-> _]]; try discriminate; try exact R; destruct NB; reflexivity.
  - intros o. upd_case o c; [destruct H as [->|[-> _]]; discriminate|]. apply (i_bot V I).
  - intros o. upd_case o c; [destruct H as [->|[_ Z]]; [discriminate|auto]|]. apply (i_bqu V I).
  - intros x e. upd_case x c; [|apply (i_sub V I)]. intros Z. apply psub_neutral in Z. rewrite Z in Hv. discriminate.
  - intros o. upd_case o c; [auto|]. apply (i_ucas V I).
Qed.

(* unlock(): queue empty and CAS doorman -> null succeeded (mutex.h:154-160) *)
Lemma inv_unlock_free V c v' : Inv V -> cls (v_tv V c) = CUCas -> v_req V = PDoor -> cls v' = CNeutral ->
  (forall e, snd (fst v') <> PSub e) ->
  Inv (mkV PNull (v_q V) (v_next V) (v_dn V) (v_err V) None (v_gs V) (v_gq V) (v_al V) (v_gl V) (upd (v_tv V) c v')).
Proof.
  intros I C E H NS.
  assert (O : v_own V = Some c) by (apply (i_own V I); rewrite C; reflexivity).
  pose proof (i_stack V I c O) as R. unfold bottom in R. rewrite C, E in R.
  destruct (repr_nil_inv _ _ _ _ R) as [GS _]; [discriminate|].
  pose proof (i_ucas V I c C) as GQ.
  assert (Lc : c < length (v_next V)) by (apply inv_lt; [exact I|left; congruence]).
  assert (Oth : forall x k, x <> c -> cls (v_tv V x) = k -> is_hold k = false)
    by (intros x k N; apply (not_hold V x k I); rewrite O; congruence).
  fields I.
  - intros x Lx. rewrite upd_other by lia. apply (i_dom V I). exact Lx.
  - intros x. upd_case x c; [congruence|apply (i_bad V I)].
  - intros x. upd_case x c; [rewrite H|rewrite (Oth x _ N eq_refl)]; split; discriminate.
  - intros x. upd_case x c; [|apply (i_wait V I)]. rewrite H, GS, GQ. cbn. split; [discriminate|tauto].
  - auto.
  - discriminate.
  - intros o. upd_case o c; [rewrite H; discriminate|]. apply (i_bot V I).
  - intros o. upd_case o c; [rewrite H; discriminate|]. apply (i_bqu V I).
  - intros x e. upd_case x c; [intros Z; exfalso; eapply NS; exact Z|apply (i_sub V I)].
  - intros z. upd_case z c; [rewrite H; discriminate|]. apply (i_ucas V I).
Qed.

(* the owner at the load of unlock() finds a waiting task at the head of its queue *)
Lemma inv_queue_head V c w : Inv V -> cls (v_tv V c) = CHold -> v_q V = PNode w ->
  cls (v_tv V w) = CWait /\ w <> c.
Proof.
  intros I C Q. pose proof (i_queue V I) as RQ. rewrite Q in RQ.
  destruct (repr_node_inv _ _ _ _ RQ) as (r & GQ & _); [discriminate|].
  assert (Ww : cls (v_tv V w) = CWait) by (apply (i_wait V I); rewrite GQ; apply in_or_app; right; left; reflexivity).
  split; [exact Ww|]. intros ->. congruence.
Qed.

(* unlock(): hand-over to the head of the queue (mutex.h:170-176) *)
Lemma inv_handover V c w v' vw' : Inv V -> cls (v_tv V c) = CHold -> v_q V = PNode w ->
  cls v' = CNeutral -> cls vw' = CHold -> (forall e, snd (fst v') <> PSub e) ->
  Inv (mkV (v_req V) (nth w (v_next V) PNull) (set_nth (v_next V) w PNull) (v_dn V) (v_err V) (Some w)
           (v_gs V) (tl (v_gq V)) (v_al V) (v_gl V ++ [w]) (upd (upd (v_tv V) c v') w vw')).
Proof.
  intros I C Q H HW NS.
  assert (O : v_own V = Some c) by (apply (i_own V I); rewrite C; reflexivity).
  pose proof (i_stack V I c O) as R. unfold bottom in R. rewrite C in R.
  pose proof (i_queue V I) as RQ. rewrite Q in RQ.
  destruct (repr_node_inv _ _ _ _ RQ) as (r & GQ & RR); [discriminate|].
  pose proof (i_wait V I) as W. pose proof (i_nodup V I) as ND. rewrite GQ in W, ND.
  destruct (inv_queue_head V c w I C Q) as [Ww Nwc].
  pose proof (NoDup_remove_2 _ _ _ ND) as Nw.
  assert (Lc : c < length (v_next V)) by (apply inv_lt; [exact I|left; congruence]).
  assert (Lw : w < length (v_next V)) by (apply inv_lt; [exact I|left; congruence]).
  assert (Oth : forall x k, x <> c -> cls (v_tv V x) = k -> is_hold k = false)
    by (intros x k N; apply (not_hold V x k I); rewrite O; congruence).
  rewrite GQ. cbn [tl].
  fields I.
  - intros x Lx. rewrite set_nth_length in Lx. rewrite !upd_other by lia. apply (i_dom V I). exact Lx.
  - intros x. upd_case x w; [congruence|]. upd_case x c; [congruence|apply (i_bad V I)].
  - intros x. upd_case x w; [rewrite HW; cbn; tauto|]. split; [|intros Z; inversion Z; congruence].
    upd_case x c; [rewrite H|rewrite (Oth x _ N0 eq_refl)]; discriminate.
  - intros x. upd_case x w; [rewrite HW; split; [discriminate|]; intros Z; contradiction|].
    upd_case x c; [rewrite H; split; [discriminate|]; intros Z; exfalso|rewrite W].
    + assert (Y : In c (v_gs V ++ w :: r)) by (rewrite in_app_iff in *; cbn; tauto). apply W in Y. congruence.
    + rewrite !in_app_iff. cbn [In]. split; [intros [Z|[Z|Z]]; auto; congruence|tauto].
  - exact (NoDup_remove_1 _ _ _ ND).
  - discriminate.
  - intros o Z. inversion Z; subst o. unfold bottom. cbn [v_tv]. rewrite upd_same, HW.
    apply repr_frame; [intro Y; apply Nw; apply in_or_app; auto|exact R].
  - intros o. upd_case o w; [rewrite HW; discriminate|]. upd_case o c; [rewrite H; discriminate|].
    intros Z. discriminate (Oth o _ N0 Z).
  - apply repr_frame; [intro Y; apply Nw; apply in_or_app; auto|exact RR].
  - intros o. upd_case o w; [rewrite HW; discriminate|]. upd_case o c; [rewrite H; discriminate|].
    intros Z. discriminate (Oth o _ N0 Z).
  - rewrite (i_fifo V I), GQ. cbn [app]. rewrite <- !app_assoc. reflexivity.
  - intros x e. upd_case x w; [intros Z; apply psub_neutral in Z; congruence|].
    upd_case x c; [intros Z; exfalso; eapply NS; exact Z|]. rewrite nth_set_nth_other by auto. apply (i_sub V I).
  - intros o. upd_case o w; [rewrite HW; discriminate|]. upd_case o c; [rewrite H; discriminate|].
    intros Z. discriminate (Oth o _ N0 Z).
Qed.

Definition tvw (x : task) : tview := (tk x, tpc x, flag x).
Definition tvs (s : st) : nat -> tview := fun c => tvw (gtask s c).
Definition vw (s : st) : view :=
  mkV (requests s) (queue s) (next s) (dnext s) (err s) (owner s) (gstack s) (gqueue s) (alog s) (glog s) (tvs s).

Definition SInv (s : st) : Prop := length (next s) = length (tasks s) /\ Inv (vw s).

Definition veq (V V' : view) : Prop :=
  v_req V = v_req V' /\ v_q V = v_q V' /\ v_next V = v_next V' /\ v_dn V = v_dn V' /\ v_err V = v_err V' /\
  v_own V = v_own V' /\ v_gs V = v_gs V' /\ v_gq V = v_gq V' /\ v_al V = v_al V' /\ v_gl V = v_gl V' /\
  forall x, v_tv V x = v_tv V' x.

Lemma inv_veq V V' : veq V V' -> Inv V -> Inv V'.
Proof.
  intros (Rq & Qu & Nx & Dn & Er & Ow & Gs & Gq & Al & Gl & Tv) I.
  pose proof (inv_cls V (v_tv V') I) as Q.
  destruct V, V'. cbn [v_req v_q v_next v_dn v_err v_own v_gs v_gq v_al v_gl v_tv] in *. subst.
  apply Q.
  - intros x. rewrite Tv. reflexivity.
  - intros c L. rewrite <- Tv. apply (i_dom _ I). exact L.
  - intros c e Z. rewrite Tv. exact Z.
Qed.

Lemma veq_refl V : veq V V.
Proof. unfold veq. repeat split; reflexivity. Qed.

Lemma nth_set_nth_gen {A} (l : list A) i j x d :
  nth j (set_nth l i x) d = if Nat.eqb j i && Nat.ltb i (length l) then x else nth j l d.
Proof.
  destruct (Nat.eqb_spec j i) as [->|N]; cbn [andb]; [|apply nth_set_nth_other; auto].
  destruct (Nat.ltb_spec i (length l)) as [L|L]; [apply nth_set_nth_same; exact L|].
  rewrite !nth_overflow by (rewrite ?set_nth_length; exact L). reflexivity.
Qed.

Lemma set_nth_twice {A} (l : list A) t x y : set_nth (set_nth l t x) t y = set_nth l t y.
Proof. revert t; induction l as [|z l IH]; intros [|t]; cbn; auto. now rewrite IH. Qed.

Lemma set_task_len s c y : length (tasks (set_task s c y)) = length (tasks s).
Proof. apply set_nth_length. Qed.

Lemma set_task_twice s c x y : set_task (set_task s c x) c y = set_task s c y.
Proof. unfold set_task, s_tasks. cbn [tasks]. rewrite set_nth_twice. reflexivity. Qed.

Lemma gtask_set_task_gen s c y x :
  gtask (set_task s c y) x = if Nat.eqb x c && Nat.ltb c (length (tasks s)) then y else gtask s x.
Proof. unfold gtask, set_task, s_tasks. cbn [tasks]. apply nth_set_nth_gen. Qed.

Lemma gtask_set_task s c y x : c < length (tasks s) ->
  gtask (set_task s c y) x = if Nat.eqb x c then y else gtask s x.
Proof. intros L. rewrite gtask_set_task_gen, (proj2 (Nat.ltb_lt _ _) L), andb_true_r. reflexivity. Qed.

Lemma gtask_set_task_same s c y : c < length (tasks s) -> gtask (set_task s c y) c = y.
Proof. intros L. rewrite gtask_set_task by exact L. rewrite Nat.eqb_refl. reflexivity. Qed.

Lemma gtask_set_task_other s c y w : w <> c -> gtask (set_task s c y) w = gtask s w.
Proof. intros N. apply nth_set_nth_other. auto. Qed.

Lemma tvs_set_task s c y : c < length (tasks s) -> forall x, tvs (set_task s c y) x = upd (tvs s) c (tvw y) x.
Proof. intros L x. unfold tvs, upd. rewrite gtask_set_task by exact L. destruct (Nat.eqb x c); reflexivity. Qed.

(* set_task with a task of the same kind/pc/flag does not change the view (any index) *)
Lemma tvs_set_task_same s c y : tvw y = tvw (gtask s c) -> forall x, tvs (set_task s c y) x = tvs s x.
Proof.
  intros E x. unfold tvs, gtask, set_task, s_tasks. cbn [tasks]. rewrite nth_set_nth_gen.
  destruct (Nat.eqb_spec x c) as [->|]; cbn [andb]; [|reflexivity].
  destruct (Nat.ltb c (length (tasks s))); [exact E|reflexivity].
Qed.

Lemma task_lt s c : tpc (gtask s c) <> PDone -> c < length (tasks s).
Proof.
  intros H. destruct (le_lt_dec (length (tasks s)) c) as [L|L]; [|exact L]. exfalso. apply H.
  unfold gtask. rewrite nth_overflow by exact L. reflexivity.
Qed.

Ltac veq_fields := unfold veq, vw; cbn [v_req v_q v_next v_dn v_err v_own v_gs v_gq v_al v_gl v_tv];
  repeat match goal with |- _ /\ _ => split end; try reflexivity.

Definition same (s s' : st) : Prop :=
  veq (vw s) (vw s') /\ length (next s') = length (next s) /\ length (tasks s') = length (tasks s).

Lemma same_refl s : same s s.
Proof. split; [apply veq_refl|auto]. Qed.

Lemma sinv_same s s' : same s s' -> SInv s -> SInv s'.
Proof. intros (V & N & T) [L I]. split; [congruence|]. eapply inv_veq; eassumption. Qed.

(* convertible statements; the lemma lets `apply` see through set_run and set_tq *)
Lemma sinv_thrs s l : SInv s -> SInv (s_thrs s l).
Proof. intros H. exact H. Qed.

Lemma same_enter s w : same s (enter s w).
Proof.
  unfold enter. split; [|split; [reflexivity|exact (set_task_len _ _ _)]].
  veq_fields. intros x. symmetry. exact (tvs_set_task_same (s_scn s _ _) w (t_enter (gtask s w)) eq_refl x).
Qed.

Lemma same_yield s t : same s (yield s t).
Proof.
  unfold yield. destruct (tq (gthr s t)) as [|w r].
  - destruct (tk (gtask s t)); [exact (same_refl s)|]. destruct (tpc (gtask s t)); exact (same_refl s).
  - match goal with |- same s (match ?p with _ => _ end) => destruct p end; try exact (same_refl s).
    exact (same_enter (set_run (set_tq s t r) t (TRun w)) w).
Qed.

Lemma sinv_set_task s c y f : length (next s) = length (tasks s) -> c < length (tasks s) -> (forall x, tvs s x = f x) ->
  Inv (mkV (requests s) (queue s) (next s) (dnext s) (err s) (owner s) (gstack s) (gqueue s) (alog s) (glog s)
           (upd f c (tvw y))) ->
  SInv (set_task s c y).
Proof.
  intros L Lc F I. split; [rewrite set_task_len; exact L|].
  eapply inv_veq; [|exact I]. veq_fields. intros x. rewrite tvs_set_task by exact Lc.
  unfold upd. destruct (Nat.eqb x c); [reflexivity|symmetry; apply F].
Qed.

Lemma sinv_set_task_cls s c y : SInv s -> c < length (tasks s) -> cls (tvw y) = cls (tvs s c) ->
  (forall e, tpc y <> PSub e) -> SInv (set_task s c y).
Proof.
  intros [L I] Lc E NS. apply sinv_set_task with (f := tvs s); [exact L|exact Lc|reflexivity|].
  apply (inv_cls (vw s) (upd (tvs s) c (tvw y)) I).
  - intros x. cbn [vw v_tv]. upd_case x c; [exact E|reflexivity].
  - intros x Lx. cbn [vw v_next] in Lx. rewrite upd_other by lia. apply (i_dom _ I). exact Lx.
  - intros x e. cbn [vw v_tv]. upd_case x c; [|auto]. intros Z. destruct (NS e Z).
Qed.

(* the task at the pc given by P gets a record of the same class *)
Ltac cls_case SI P :=
  apply sinv_set_task_cls;
  [exact SI | apply task_lt; rewrite P; discriminate
  | unfold tvs, tvw; cbn [tk tpc flag t_pc t_begin t_endround t_leave t_flag]; rewrite P; reflexivity
  | intros e; cbn [tk tpc flag t_pc t_begin t_endround t_leave t_flag]; discriminate].

Lemma build_queue_eq s stop nx q :
  bq_walk (length (tasks s) + 2) (next s) (dnext s) (requests s) stop (queue s) = (nx, dnext s, q) ->
  build_queue s stop =
  s_ghost (s_mem s PDoor q nx (dnext s)) (owner s) [] (rev (gstack s) ++ gqueue s) (alog s) (glog s).
Proof. intros E. unfold build_queue. rewrite E. reflexivity. Qed.

Lemma build_queue_frame s stop :
  thrs (build_queue s stop) = thrs s /\ tasks (build_queue s stop) = tasks s /\ ovl (build_queue s stop) = ovl s.
Proof. unfold build_queue. destruct (bq_walk _ _ _ _ _ _) as [[nx dn] q]. repeat split. Qed.

Lemma build_queue_inv s c stop p : SInv s ->
  (tpc (gtask s c) = PBqS /\ stop = PNode c \/ tpc (gtask s c) = PBqU /\ stop = PDoor) ->
  cls (tvw (t_pc (gtask s c) p)) = CHold ->
  SInv (set_pc (build_queue s stop) c p) /\ (gstack s <> [] -> queue (set_pc (build_queue s stop) c p) <> PNull).
Proof.
  intros [L I] C H.
  assert (Lc : c < length (tasks s)) by (apply task_lt; destruct C as [[-> _]|[-> _]]; discriminate).
  destruct (inv_bq (vw s) c stop (length (tasks s) + 2) (tvw (t_pc (gtask s c) p)) I) as (nx & q' & E & I2 & NE & Lnx).
  { cbn [vw v_tv]. unfold tvs, tvw. destruct C as [[-> ->]|[-> ->]]; [left|right]; split; reflexivity. }
  { exact H. }
  { cbn [vw v_next]. lia. }
  cbn [vw v_req v_q v_next v_dn v_err v_own v_gs v_gq v_al v_gl v_tv] in E, I2, NE, Lnx.
  rewrite (build_queue_eq s stop nx q' E). split.
  - apply sinv_set_task with (f := tvs s); [cbn; congruence|exact Lc|reflexivity|exact I2].
  - intros G. destruct (NE G) as (w & ->). discriminate.
Qed.

(* the task records after the hand-over (mutex.h:170-176): the round of c is over, w is woken (a blocked thread by its flag, a coroutine by
   becoming runnable at the cs point) *)
Definition woken (x : task) : task := match tk x with KPlain => t_flag x true | KCoro => t_pc x PCs end.
Lemma woken_hold x : cls (tvw x) = CWait -> cls (tvw (woken x)) = CHold.
Proof.
  destruct x as [k p pr a r f i n1 n2 n3]. unfold woken, tvw. cbn [tk tpc flag].
  destruct k, p; cbn; try discriminate; try reflexivity; destruct f; try discriminate; reflexivity.
Qed.

Definition granted (s : st) (w : nat) : st :=
  s_ghost (s_mem s (requests s) (gnext s w) (set_nth (next s) w PNull) (dnext s))
          (Some w) (gstack s) (tl (gqueue s)) (alog s) (glog s ++ [w]).
Definition handed (s : st) (c w : nat) : st :=
  set_task (set_task (granted s w) c (t_endround (gtask s c) false)) w (woken (gtask s w)).

(* ... and what each release flavour does with the suspend point returned by awaiter::resume() *)
Lemma handover_eq s t c w : queue s = PNode w -> w <> c -> c < length (tasks s) ->
  handover s t c =
  match tk (gtask s w) with
  | KPlain => handed s c w
  | KCoro =>
      match tk (gtask s c), crel (gtask s c) with
      | KPlain, _ => enter (set_run (handed s c w) t (TRun w)) w
      | KCoro, RAwait => enter (set_run (set_tq (handed s c w) t (tq (gthr s t) ++ [c])) t (TRun w)) w
      | KCoro, _ => set_tq (handed s c w) t (tq (gthr s t) ++ [w])
      end
  end.
Proof.
  intros Q N Lc. unfold handover, handed, woken. rewrite Q. cbv zeta.
  set (s2 := s_ghost _ (Some w) _ _ _ _). change (granted s w) with s2. change (gtask s2 c) with (gtask s c).
  set (s3 := set_task s2 c _).
  assert (G3 : gtask s3 w = gtask s w) by (unfold s3; rewrite gtask_set_task_other by exact N; reflexivity).
  rewrite G3. destruct (tk (gtask s w)); [|reflexivity].
  unfold set_pc. rewrite G3. set (s4 := set_task s3 w _).
  assert (G4 : gtask s4 c = t_endround (gtask s c) false).
  { unfold s4. rewrite gtask_set_task_other by auto. apply (gtask_set_task_same s2). exact Lc. }
  rewrite G4. reflexivity.
Qed.

(* the pc of the releasing task plays no part *)
Lemma handover_pc s t c p w : queue s = PNode w -> w <> c -> c < length (tasks s) ->
  handover (set_pc s c p) t c = handover s t c.
Proof.
  intros Q N Lc.
  assert (Lc' : c < length (tasks (set_pc s c p))) by (unfold set_pc; rewrite set_task_len; exact Lc).
  rewrite (handover_eq (set_pc s c p) t c w Q N Lc'), (handover_eq s t c w Q N Lc).
  assert (H : handed (set_pc s c p) c w = handed s c w).
  { unfold handed, set_pc. rewrite gtask_set_task_same, gtask_set_task_other by assumption.
    change (granted (set_task s c (t_pc (gtask s c) p)) w) with (set_task (granted s w) c (t_pc (gtask s c) p)).
    rewrite set_task_twice. reflexivity. }
  rewrite H. unfold set_pc. rewrite gtask_set_task_same, gtask_set_task_other by assumption. reflexivity.
Qed.

Lemma handover_target s c : SInv s -> tpc (gtask s c) = PUnlock -> queue s <> PNull ->
  exists w, queue s = PNode w /\ cls (tvs s w) = CWait /\ w <> c /\ c < length (tasks s) /\ w < length (tasks s).
Proof.
  intros [L I] P Q. pose proof (i_queue _ I) as RQ. cbn [vw v_next v_q v_gq] in RQ.
  destruct (queue s) as [| |w] eqn:EQ; [contradiction|destruct (repr_nil_inv _ _ _ _ RQ); discriminate|].
  destruct (inv_queue_head (vw s) c w I) as (Ww & Nwc);
    [cbn [vw v_tv]; unfold tvs, tvw; rewrite P; reflexivity|exact EQ|].
  exists w. repeat split; try assumption; apply task_lt; [rewrite P; discriminate|].
  intro Z. cbn [vw v_tv] in Ww. unfold tvs, tvw in Ww. rewrite Z in Ww. destruct (tk (gtask s w)); discriminate.
Qed.

Lemma handover_inv s t c : SInv s -> tpc (gtask s c) = PUnlock -> queue s <> PNull -> SInv (handover s t c).
Proof.
  intros SI P Q. destruct (handover_target s c SI P Q) as (w & EQ & Ww & Nwc & Lc & Lw). destruct SI as [L I].
  assert (B : SInv (handed s c w)).
  { apply sinv_set_task with (f := upd (tvs s) c (tvw (t_endround (gtask s c) false))).
    - rewrite set_task_len. cbn. rewrite set_nth_length. exact L.
    - rewrite set_task_len. exact Lw.
    - exact (tvs_set_task (granted s w) c _ Lc).
    - apply (inv_handover (vw s) c w _ _ I); [cbn [vw v_tv]; unfold tvs, tvw; rewrite P; reflexivity|exact EQ|reflexivity| |intros e; discriminate].
      apply woken_hold. exact Ww. }
  rewrite (handover_eq s t c w EQ Nwc Lc).
  destruct (tk (gtask s w)); [|exact B].
  destruct (tk (gtask s c)); [destruct (crel (gtask s c))|].
  - exact B.
  - exact B.
  - apply (sinv_same _ _ (same_enter _ w)). exact B.
  - apply (sinv_same _ _ (same_enter _ w)). exact B.
Qed.

(* unlock() by c reached build_queue(doorman) (mutex.h:165): the step is build_queue, after which c stands where the
   load of unlock() found the queue non-empty, followed by the hand-over of that case *)
Lemma step_bqu s t c : SInv s -> tpc (gtask s c) = PBqU ->
  let s1 := set_pc (build_queue s PDoor) c PUnlock in
  SInv s1 /\ tpc (gtask s1 c) = PUnlock /\ queue s1 <> PNull /\ handover (build_queue s PDoor) t c = handover s1 t c.
Proof.
  intros SI P s1. pose proof SI as [L I].
  assert (Lc : c < length (tasks s)) by (apply task_lt; rewrite P; discriminate).
  destruct (build_queue_frame s PDoor) as (_ & T & _).
  destruct (build_queue_inv s c PDoor PUnlock SI) as [S1 Q1]; [right; split; [exact P|reflexivity]|reflexivity|].
  assert (Q : queue s1 <> PNull).
  { apply Q1. apply (i_bqu _ I c). cbn [vw v_tv]. unfold tvs, tvw. rewrite P. reflexivity. }
  assert (P1 : tpc (gtask s1 c) = PUnlock).
  { unfold s1, set_pc. rewrite gtask_set_task_same by (rewrite T; exact Lc). reflexivity. }
  split; [exact S1|]. split; [exact P1|]. split; [exact Q|].
  destruct (handover_target s1 c S1 P1 Q) as (w & EQ & _ & N & _). symmetry.
  apply (handover_pc _ t c PUnlock w); [exact EQ|exact N|rewrite T; exact Lc].
Qed.

Lemma enabled_flag s t c : enabled s t = true -> run (gthr s t) = TRun c -> tpc (gtask s c) = PFlag ->
  flag (gtask s c) = true.
Proof.
  unfold enabled, gthr. intros E R P. apply andb_true_iff in E. destruct E as [_ E].
  destruct (nth_error (thrs s) t) as [th|] eqn:N; [|discriminate].
  rewrite (nth_error_nth _ _ dflt_thr N) in R. destruct th as [r q]. cbn [run] in R. subst r.
  rewrite P in E. exact E.
Qed.

(* subscribe(): aw->_next = e, next attempt of the publishing CAS with expected value e *)
Lemma sub_set_inv s c e : SInv s -> c < length (tasks s) -> cls (tvs s c) = CNeutral ->
  SInv (set_pc (s_mem s (requests s) (queue s) (set_nth (next s) c e) (dnext s)) c (PSub e)).
Proof.
  intros [L I] Lc Nc. apply sinv_set_task with (f := tvs s); [cbn; rewrite set_nth_length; exact L|exact Lc|reflexivity|].
  apply (inv_sub_set (vw s) c _ e I Nc); [cbn [vw v_next]; lia|reflexivity|reflexivity].
Qed.

Lemma step_inv s t : SInv s -> enabled s t = true -> SInv (fst (fst (tstep s t))).
Proof.
  intros SI En. pose proof SI as [L I]. unfold tstep.
  destruct (run (gthr s t)) as [|c|c] eqn:R; cbn [fst]; [exact SI| |exact (sinv_same _ _ (same_yield s t) SI)].
  destruct (tpc (gtask s c)) eqn:P; cbn [fst]; try exact SI;
    (assert (Lc : c < length (tasks s)) by (apply task_lt; rewrite P; discriminate));
    (assert (C : cls (tvs s c) = cls (tk (gtask s c), tpc (gtask s c), flag (gtask s c))) by reflexivity);
    rewrite P in C; cbn [cls] in C.
  - (* PStep *)
    destruct (prog (gtask s c)) as [|[a r] p]; cbn [fst]; [|cls_case SI P].
    assert (B : SInv (set_pc s c PDone)) by (unfold set_pc; cls_case SI P).
    destruct (tk (gtask s c)); [exact (sinv_same _ _ (same_yield _ t) B)|exact B].
  - (* PTry *)
    pose proof (sub_set_inv s c PNull SI Lc C) as SubSet.
    destruct (requests s) eqn:Rq; cbn [fst]; [|destruct (cacq (gtask s c)); [exact SubSet|cls_case SI P]..].
    apply (sinv_same _ _ (same_enter _ c)). apply sinv_set_task with (f := tvs s); [exact L|exact Lc|reflexivity|].
    apply (inv_acquire (vw s) c _ PDoor _ _ I Rq C); [cbn [vw v_next]; lia|left; split; reflexivity|].
    exists []. cbn [vw v_al v_gl]. rewrite !app_nil_r. split; reflexivity.
  - (* PSub e *)
    destruct (ptr_eqb (requests s) e) eqn:EQ; cbn [fst]; [|exact (sub_set_inv s c (requests s) SI Lc C)].
    apply ptr_eqb_eq in EQ. subst e. cbv zeta.
    assert (Sub : forall y, cls (tvw y) = CWait -> requests s <> PNull ->
              SInv (set_task (s_ghost (s_ev (s_mem s (PNode c) (queue s) (next s) (dnext s)) 5 c)
                                      (owner s) (c :: gstack s) (gqueue s) (alog s ++ [c]) (glog s)) c y)).
    { intros y Cy Rq. apply sinv_set_task with (f := tvs s); [exact L|exact Lc|reflexivity|].
      exact (inv_subw (vw s) c (tvw y) I Rq P Cy). }
    destruct (requests s) eqn:Rq; cbn [fst].
    1: { apply sinv_set_task with (f := tvs s); [exact L|exact Lc|reflexivity|].
         apply (inv_acquire (vw s) c _ (PNode c) _ _ I Rq C); [cbn [vw v_next]; lia| |exists [c]; split; reflexivity].
         right. repeat split. apply (i_sub _ I c). exact P. }
    (* requests = doorman or a node: published behind an owner (Sub); a coroutine parks, a thread goes to its wait *)
    all: destruct (tk (gtask s c)) eqn:K; cbn [fst]; [apply sinv_thrs|];
      (apply Sub; [|discriminate]); [change (cls (tvw (t_pc (gtask s c) PParked)) = CWait)|];
      unfold tvw; cbn [t_pc t_flag tk tpc flag cls]; rewrite K; reflexivity.
  - unfold set_pc. cls_case SI P.
  - unfold set_pc. cls_case SI P.
  - (* PBqS *)
    apply (sinv_same _ _ (same_enter _ c)). apply (build_queue_inv s c (PNode c) PCs SI); [|reflexivity].
    left. split; [exact P|reflexivity].
  - (* PFlag *)
    pose proof (enabled_flag s t c En R P) as F. rewrite F in C.
    apply (sinv_same _ _ (same_enter _ c)).
    apply sinv_set_task_cls; [exact SI|exact Lc| |intros e; discriminate].
    rewrite C. pose proof (i_bad _ I c) as B. cbn [vw v_tv] in B. rewrite C in B.
    unfold tvw. cbn [t_pc t_flag tk tpc flag cls]. destruct (tk (gtask s c)); [destruct B|]; reflexivity.
  - (* PCs: leave the critical section *)
    apply sinv_set_task_cls; [exact SI|exact Lc| |intros e; discriminate].
    change (cls (tvw (t_leave (gtask s c))) = cls (tvs s c)). rewrite C. reflexivity.
  - (* PUnlock *)
    assert (Hc : is_hold (cls (v_tv (vw s) c)) = true) by (cbn [vw v_tv]; rewrite C; reflexivity).
    assert (Nb : cls (v_tv (vw s) c) <> CBottom) by (cbn [vw v_tv]; rewrite C; discriminate).
    assert (UC : queue s = PNull -> SInv (set_pc s c PUnlockCas)).
    { intros Q. apply sinv_set_task with (f := tvs s); [exact L|exact Lc|reflexivity|].
      apply (inv_owner_cls (vw s) c _ I Hc Nb (inv_queue_null _ I Q)). left. reflexivity. }
    assert (Hand : queue s <> PNull -> SInv (handover s t c)) by (apply handover_inv; assumption).
    destruct (requests s) eqn:Rq; cbn [fst];
      [exfalso; apply (inv_req_null _ I) in Rq; apply (i_own _ I c) in Hc; cbn [vw v_own] in *; congruence|..];
      (destruct (queue s); cbn [fst]; [apply UC; reflexivity|apply Hand; discriminate..]).
  - (* PUnlockCas *)
    assert (Hc : is_hold (cls (v_tv (vw s) c)) = true) by (cbn [vw v_tv]; rewrite C; reflexivity).
    assert (Nb : cls (v_tv (vw s) c) <> CBottom) by (cbn [vw v_tv]; rewrite C; discriminate).
    assert (Bqu : requests s <> PDoor -> SInv (set_pc s c PBqU)).
    { intros Rq. apply sinv_set_task with (f := tvs s); [exact L|exact Lc|reflexivity|].
      apply (inv_owner_cls (vw s) c _ I Hc Nb (i_ucas _ I c C)). right. split; [reflexivity|].
      intro Z. pose proof (i_stack _ I c (proj1 (i_own _ I c) Hc)) as RR. unfold bottom in RR.
      cbn [vw v_tv v_gs] in RR, Z. rewrite C, Z in RR. exact (Rq RR). }
    destruct (requests s) eqn:Rq; cbn [fst]; [apply Bqu; discriminate| |apply Bqu; discriminate].
    apply sinv_set_task with (f := tvs s); [exact L|exact Lc|reflexivity|].
    apply (inv_unlock_free (vw s) c _ I C Rq); [reflexivity|intros e; discriminate].
  - (* PBqU *)
    destruct (step_bqu s t c SI P) as (S1 & P1 & Q1 & ->). apply handover_inv; assumption.
Qed.

Lemma NoDup_app_swap_rev (a b : list nat) : NoDup (a ++ b) -> NoDup (b ++ rev a).
Proof.
  intros H. apply NoDup_app_comm in H. apply (Permutation_NoDup (l := b ++ a)); [|exact H].
  apply Permutation_app_head. apply Permutation_rev.
Qed.

Inductive reachable (ops : list (list Z)) : st -> Prop :=
| r_init : reachable ops (init ops)
| r_step s t : reachable ops s -> enabled s t = true -> reachable ops (fst (fst (tstep s t))).

Lemma init_task ops c : c < length (tasks (init ops)) ->
  tpc (gtask (init ops) c) = PStep /\ incs (gtask (init ops) c) = false.
Proof.
  intros L. apply nth_In with (d := dflt_task) in L. apply in_flat_map in L. destruct L as (l & _ & H).
  fold (gtask (init ops) c) in H. revert H. generalize (gtask (init ops) c). intros x H. unfold decode_task in H.
  repeat match type of H with
  | In _ (match ?e with _ => _ end) => destruct e; cbn [In] in H; try contradiction
  end.
  destruct H as [<-|[]]. split; reflexivity.
Qed.

Lemma init_pc ops c : tpc (gtask (init ops) c) = PStep \/ tpc (gtask (init ops) c) = PDone.
Proof.
  destruct (le_lt_dec (length (tasks (init ops))) c) as [G|G]; [right|left; apply init_task; exact G].
  unfold gtask. rewrite nth_overflow by exact G. reflexivity.
Qed.

Lemma init_cls ops c : cls (tvs (init ops) c) = CNeutral.
Proof. unfold tvs, tvw. destruct (init_pc ops c) as [-> | ->]; reflexivity. Qed.

Lemma init_inv ops : SInv (init ops).
Proof.
  split.
  - unfold init. cbn [next tasks]. apply repeat_length.
  - constructor; cbn [vw v_req v_q v_next v_dn v_err v_own v_gs v_gq v_al v_gl v_tv].
    + intros c L. unfold init in L. cbn [next] in L. rewrite repeat_length in L.
      unfold tvs, gtask, init. cbn [tasks]. rewrite nth_overflow by exact L. reflexivity.
    + reflexivity.
    + intros c. rewrite init_cls. discriminate.
    + intros c. rewrite init_cls. cbn. split; discriminate.
    + intros c. rewrite init_cls. cbn. split; [discriminate|tauto].
    + constructor.
    + auto.
    + discriminate.
    + intros o. rewrite init_cls. discriminate.
    + reflexivity.
    + intros o. rewrite init_cls. discriminate.
    + reflexivity.
    + reflexivity.
    + intros c e Q. exfalso. unfold tvs, tvw in Q. cbn [fst snd] in Q.
      destruct (init_pc ops c) as [E|E]; rewrite E in Q; discriminate.
    + intros o. rewrite init_cls. discriminate.
Qed.

Lemma reachable_inv ops s : reachable ops s -> SInv s.
Proof. induction 1 as [|s t _ IH En]; [apply init_inv|apply step_inv; assumption]. Qed.

(* c owns the mutex: from the successful CAS / the hand-over up to the end of its unlock *)
Definition holds (s : st) (c : nat) : Prop :=
  match tpc (gtask s c) with
  | PPub0 | PBqS | PCs | PUnlock | PUnlockCas | PBqU => True
  | PPubW | PFlag => flag (gtask s c) = true
  | _ => False
  end.
(* c has published a request that has not been granted *)
Definition waiting (s : st) (c : nat) : Prop :=
  match tpc (gtask s c) with
  | PParked => True
  | PPubW | PFlag => flag (gtask s c) = false
  | _ => False
  end.

(* holds and waiting are read off the pc alone, except at the three pcs where the class depends on kind and flag *)
Lemma holds_cls s c : Inv (vw s) -> (holds s c <-> is_hold (cls (tvs s c)) = true).
Proof.
  intros I. pose proof (i_bad _ I c) as B. cbn [vw v_tv] in B. unfold holds, tvs, tvw in *.
  destruct (tpc (gtask s c)); cbn in *; try (split; [reflexivity|intros _; exact Logic.I]);
    try (split; [contradiction|discriminate]);
    (destruct (tk (gtask s c)); [|destruct (flag (gtask s c))]); cbn in *;
    try (destruct B; reflexivity); split; try reflexivity; try discriminate; try contradiction.
Qed.

Lemma waiting_cls s c : Inv (vw s) -> (waiting s c <-> cls (tvs s c) = CWait).
Proof.
  intros I. pose proof (i_bad _ I c) as B. cbn [vw v_tv] in B. unfold waiting, tvs, tvw in *.
  destruct (tpc (gtask s c)); cbn in *; try (split; [contradiction|discriminate]);
    (destruct (tk (gtask s c)); [|destruct (flag (gtask s c))]); cbn in *;
    try (destruct B; reflexivity); split; try reflexivity; try discriminate; try contradiction.
Qed.

Lemma holds_owner s c : Inv (vw s) -> (holds s c <-> owner s = Some c).
Proof. intros I. rewrite (holds_cls s c I). apply (i_own _ I c). Qed.

Lemma waiting_pending s w : Inv (vw s) -> (waiting s w <-> In w (gstack s ++ gqueue s)).
Proof. intros I. rewrite (waiting_cls s w I). apply (i_wait _ I w). Qed.

Lemma no_holder s : Inv (vw s) -> (forall c, ~ holds s c) -> owner s = None.
Proof. intros I H. destruct (owner s) as [o|] eqn:O; [|reflexivity]. destruct (H o). apply (holds_owner s o I). exact O. Qed.

Lemma mutual_exclusion s i j : SInv s -> holds s i -> holds s j -> i = j.
Proof.
  intros [_ I] Hi Hj.
  apply (holds_owner s i I) in Hi. apply (holds_owner s j I) in Hj. congruence.
Qed.

Lemma grant_once s : SInv s ->
  exists pending, alog s = glog s ++ pending /\ NoDup pending /\
    (forall w, In w pending <-> waiting s w) /\ (forall w, waiting s w -> ~ holds s w).
Proof.
  intros [_ I].
  exists (gqueue s ++ rev (gstack s)). split; [apply (i_fifo _ I)|]. split; [|split].
  - pose proof (i_nodup _ I) as ND. cbn [vw v_gs v_gq] in ND.
    apply NoDup_app_swap_rev. exact ND.
  - intros w. rewrite (waiting_pending s w I), !in_app_iff, <- in_rev. tauto.
  - intros w Ww Hw. apply (waiting_cls s w I) in Ww. apply (holds_cls s w I) in Hw. rewrite Ww in Hw. discriminate.
Qed.

Lemma sentinel_never_queued s : SInv s ->
  err s = false /\ dnext s = PNull /\ (queue s = PNull \/ exists w, queue s = PNode w /\ waiting s w).
Proof.
  intros [_ I].
  split; [apply (i_err _ I)|]. split; [apply (i_dn _ I)|].
  pose proof (i_queue _ I) as Q. cbn [vw v_next v_q v_gq] in Q.
  destruct (gqueue s) as [|w r] eqn:G; cbn [repr] in Q; [left; exact Q|].
  right. exists w. split; [apply Q|]. apply (waiting_pending s w I).
  rewrite G. apply in_or_app. right. left. reflexivity.
Qed.

(* grants are a prefix of the publishing CASes; what is pending is, in order, the owner-private queue
   followed by the reversed request stack — both are the chains actually present in memory *)
Lemma fifo ops s : reachable ops s ->
  exists stack fifo_q b,
    repr (next s) (requests s) stack b /\ repr (next s) (queue s) fifo_q PNull /\
    (b = PNull /\ stack = [] \/ b = PDoor \/ exists o, b = PNode o /\ holds s o /\ gnext s o = PNull /\ fifo_q = []) /\
    alog s = glog s ++ fifo_q ++ rev stack.
Proof.
  intros R. destruct (reachable_inv _ _ R) as [_ I].
  exists (gstack s), (gqueue s).
  destruct (owner s) as [o|] eqn:O.
  - exists (bottom (vw s) o). split; [apply (i_stack _ I); exact O|]. split; [apply (i_queue _ I)|].
    split; [|apply (i_fifo _ I)].
    unfold bottom. destruct (cls (v_tv (vw s) o)) eqn:C; auto.
    right. right. exists o. split; [reflexivity|].
    split; [apply (holds_cls s o I); cbn [vw v_tv] in C; rewrite C; reflexivity|].
    apply (i_bot _ I o C).
  - exists PNull. destruct (i_free _ I O) as (A & B & C). cbn [vw v_req v_gs v_gq] in A, B, C.
    split; [rewrite A, B; reflexivity|]. split; [apply (i_queue _ I)|]. split; [auto|apply (i_fifo _ I)].
Qed.

(* whenever a request is pending the mutex is not free and has an owner: in particular the state right after
   a release with waiters (unlock never stores null then; ownership went to a waiter or is still being passed) *)
Lemma direct_handoff s w : SInv s -> waiting s w -> requests s <> PNull /\ exists o, holds s o /\ o <> w.
Proof.
  intros [_ I] W.
  apply (waiting_cls s w I) in W. pose proof (proj1 (i_wait _ I w) W) as M. cbn [vw v_gs v_gq] in M.
  destruct (owner s) as [o|] eqn:O.
  - split.
    + intro E. apply (inv_req_null _ I) in E. cbn [vw v_own] in E. congruence.
    + exists o. assert (H : is_hold (cls (tvs s o)) = true) by (apply (i_own _ I); exact O).
      split; [apply (holds_cls s o I); exact H|]. intro; subst o. rewrite W in H. discriminate.
  - exfalso. destruct (i_free _ I O) as (_ & B & C). cbn [vw v_gs v_gq] in B, C. rewrite B, C in M. contradiction.
Qed.

(* when nobody owns the mutex, nothing is pending, every published request was granted and it is free again *)
Lemma no_lost_request s : SInv s -> (forall c, ~ holds s c) ->
  requests s = PNull /\ queue s = PNull /\ alog s = glog s /\ forall w, ~ waiting s w.
Proof.
  intros [_ I] H.
  pose proof (no_holder s I H) as O.
  destruct (i_free _ I O) as (A & B & C). cbn [vw v_req v_gs v_gq] in A, B, C.
  split; [exact A|]. split; [|split].
  - pose proof (i_queue _ I) as Q. cbn [vw v_next v_q v_gq] in Q. rewrite C in Q. exact Q.
  - pose proof (i_fifo _ I) as F. cbn [vw v_al v_gl v_gq v_gs] in F. rewrite F, B, C. cbn. rewrite app_nil_r. reflexivity.
  - intros w W. apply (waiting_pending s w I) in W. rewrite B, C in W. contradiction.
Qed.

Lemma holds_same s s' c : same s s' -> (holds s c <-> holds s' c).
Proof.
  intros ((_ & _ & _ & _ & _ & _ & _ & _ & _ & _ & E) & _). specialize (E c). cbn [vw v_tv] in E.
  unfold tvs, tvw in E. inversion E as [[E1 E2 E3]]. unfold holds. rewrite E2, E3. tauto.
Qed.

(* try_lock is one step; it succeeds exactly when nobody owns the mutex; a failed try changes nothing but the
   caller's own bookkeeping (no request is published) *)
Lemma try_lock ops s t c : reachable ops s -> run (gthr s t) = TRun c -> tpc (gtask s c) = PTry -> cacq (gtask s c) = ATry ->
  let s' := fst (fst (tstep s t)) in
  ((forall o, ~ holds s o) -> holds s' c /\ requests s' = PDoor /\ alog s' = alog s) /\
  ((exists o, holds s o) -> s' = set_task s c (t_endround (gtask s c) true) /\ ~ holds s' c /\ ~ waiting s' c).
Proof.
  intros R Ru P A. destruct (reachable_inv _ _ R) as [L I].
  assert (Lc : c < length (tasks s)) by (apply task_lt; rewrite P; discriminate).
  unfold tstep. rewrite Ru, P. cbn zeta. split.
  - intros F. pose proof (no_holder s I F) as O.
    destruct (i_free _ I O) as (E & _ & _). cbn [vw v_req] in E. rewrite E. cbn [fst].
    split; [|split; reflexivity].
    apply (proj1 (holds_same _ _ c (same_enter _ c))).
    unfold holds, set_pc. rewrite gtask_set_task_same by exact Lc. reflexivity.
  - intros (o & Ho). apply (holds_owner s o I) in Ho.
    assert (E : requests s <> PNull).
    { intro E. apply (inv_req_null _ I) in E. cbn [vw v_own] in E. congruence. }
    destruct (requests s) eqn:Rq; [contradiction| |]; rewrite A; cbn [fst];
      (split; [reflexivity|]); unfold holds, waiting; rewrite gtask_set_task by exact Lc; rewrite Nat.eqb_refl;
      cbn [t_endround tpc]; tauto.
Qed.

Lemma enabled_list_sound s n : forall from i, In i (enabled_list s n from) -> enabled s i = true.
Proof.
  induction n as [|n IH]; intros from i H; cbn [enabled_list] in H; [contradiction|].
  apply in_app_or in H. destruct H as [H|H]; [|eapply IH; exact H].
  destruct (enabled s from) eqn:E; [|contradiction]. destruct H as [<-|[]]. exact E.
Qed.

Lemma run_sched_reachable ops fuel : forall s sched tr, reachable ops s -> reachable ops (fst (run_sched fuel s sched tr)).
Proof.
  induction fuel as [|fuel IH]; intros s sched tr R; cbn [run_sched]; [exact R|].
  destruct (all_enabled s) as [|e en] eqn:A; [exact R|].
  set (i := nth _ (e :: en) 0).
  assert (In i (e :: en)) by (apply nth_mod_In; discriminate).
  assert (En : enabled s i = true) by (rewrite <- A in H; eapply enabled_list_sound; exact H).
  destruct (tstep s i) as [[s1 p] c] eqn:T.
  apply IH. replace s1 with (fst (fst (tstep s i))) by (rewrite T; reflexivity).
  apply r_step; assumption.
Qed.
