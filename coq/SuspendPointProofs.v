(* SuspendPointProofs.v — invariants of the suspend_point model, for op sequences of any length
   over any number of objects and handles: one per-op contract (`step_ok`), then inductions over runs. *)
From Cocls Require Import Base BaseProofs SuspendPointDefs.
Require Import ZifyBool.
Local Open Scope Z_scope.
Ltac Zify.zify_post_hook ::= Z.div_mod_to_equations.

Arguments Z.div : simpl never.
Arguments Z.odd : simpl never.
Arguments Z.mul : simpl never.
Arguments Z.add : simpl never.
Arguments count_z : simpl never.

Definition arr (s : sp) : Z := if sp_flag s then 1 else 0.   (* heap arrays owned *)

(* reads only cf, hs and cap *)
Definition wf_sp (s : sp) : Prop :=
  0 <= cf s /\ zlen (hs s) = cf s / 2 /\
  (cf s mod 2 = 1 -> cf s / 2 <= cap s /\ 6 <= cap s) /\
  (cf s mod 2 = 0 -> cf s / 2 <= 3).

(* the part of an object that no operation on its handle list touches *)
Definition vof (s : sp) : vinfo := (typed s, val s).

Lemma flag_mod s : sp_flag s = (cf s mod 2 =? 1).
Proof. unfold sp_flag. rewrite Zmod_odd. destruct (Z.odd (cf s)); reflexivity. Qed.

Lemma arr_same s s' : cf s' = cf s -> arr s' = arr s.
Proof. unfold arr, sp_flag. intros ->. reflexivity. Qed.

Lemma arr_empty c t v : arr (mkSp 0 [] c t v) = 0.
Proof. reflexivity. Qed.
Lemma arr_single h c t v : arr (mkSp 2 [h] c t v) = 0.
Proof. reflexivity. Qed.
Lemma arr_reset_src s : arr (reset_src s) = 0.
Proof. reflexivity. Qed.
Lemma arr_moved_val s : arr (moved_val s) = arr s.
Proof. reflexivity. Qed.
Lemma arr_set_val s v : arr (set_val s v) = arr s.
Proof. reflexivity. Qed.
Lemma arr_retyped s t v : arr (mkSp (cf s) (hs s) (cap s) t v) = arr s.
Proof. reflexivity. Qed.
#[local] Hint Rewrite arr_empty arr_single arr_moved_val arr_set_val arr_reset_src arr_retyped : sp_arr.

Lemma wf_empty c t v : wf_sp (mkSp 0 [] c t v).
Proof. unfold wf_sp, zlen. cbn. lia. Qed.

Lemma wf_single h c t v : wf_sp (mkSp 2 [h] c t v).
Proof. unfold wf_sp, zlen. cbn. lia. Qed.

Lemma wf_sp_bounds s : wf_sp s ->
  zlen (hs s) = sp_count s /\ (sp_flag s = true -> sp_count s <= cap s) /\ (sp_flag s = false -> sp_count s <= inline_count).
Proof.
  intros (H0 & HL & HF & HI). unfold sp_count, inline_count. rewrite flag_mod. refine (conj HL (conj _ _)); intros Q; lia.
Qed.

Lemma wf_count0 s : wf_sp s -> sp_count s = 0 -> hs s = [].
Proof. unfold sp_count. intros (_ & HL & _) C. apply zlen_nil_inv. lia. Qed.

(* AllocDefs has its own cost model of the same object *)
Lemma sp_add_spec s h s1 c : sp_add s h = (s1, c) -> wf_sp s ->
  wf_sp s1 /\ hs s1 = hs s ++ [h] /\ vof s1 = vof s /\ arr s1 - arr s = fst c - snd c.
Proof.
  unfold sp_add, sp_count, inline_count, arr, wf_sp. rewrite flag_mod. intros E (H0 & HL & HF & HI).
  destruct (cf s mod 2 =? 1) eqn:F; [destruct (cf s / 2 =? cap s) eqn:C | destruct (cf s / 2 <? 3) eqn:C];
    injection E as <- <-; rewrite flag_mod; cbn [cf hs cap fst snd]; rewrite zlen_app; change (zlen [h]) with 1;
    (repeat split; try reflexivity; try lia); destruct ((cf s + _) mod 2 =? 1) eqn:G; lia.
Qed.

(* C20: no allocation before the 4th handle *)
Lemma sp_add_inline_no_alloc s h : wf_sp s -> sp_flag s = false -> cf s / 2 < 3 ->
  snd (sp_add s h) = (0, 0) /\ sp_flag (fst (sp_add s h)) = false.
Proof.
  unfold wf_sp, sp_add, sp_count, inline_count. intros (H0 & HL & HF & HI) F C. rewrite F.
  destruct (cf s / 2 <? 3) eqn:E; [|lia]. cbn [fst snd]. split; [reflexivity|].
  rewrite flag_mod in *. cbn [cf]. lia.
Qed.

Lemma sp_add_all_spec l : forall s s1 c, sp_add_all s l = (s1, c) -> wf_sp s ->
  wf_sp s1 /\ hs s1 = hs s ++ l /\ vof s1 = vof s /\ arr s1 - arr s = fst c - snd c.
Proof.
  induction l as [|h l IH]; intros s s1 c E W; cbn [sp_add_all] in E.
  - injection E as <- <-. rewrite app_nil_r. cbn [fst snd]. refine (conj W (conj eq_refl (conj eq_refl _))). lia.
  - destruct (sp_add s h) as [s' c'] eqn:A. destruct (sp_add_all s' l) as [s'' c''] eqn:B. injection E as <- <-.
    destruct (sp_add_spec _ _ _ _ A W) as (W1 & H1 & V1 & A1). destruct (IH _ _ _ B W1) as (W2 & H2 & V2 & A2).
    refine (conj W2 (conj _ (conj _ _))).
    + rewrite H2, H1, <- app_assoc. reflexivity.
    + congruence.
    + unfold cadd. cbn [fst snd]. lia.
Qed.

Lemma sp_merge_spec d s d1 s1 c : sp_merge d s = (d1, s1, c) -> wf_sp d ->
  wf_sp d1 /\ hs d1 = hs d ++ hs s /\ vof d1 = vof d /\ s1 = reset_src s /\ arr d1 - arr d - arr s = fst c - snd c.
Proof.
  unfold sp_merge, sp_clear_internal. intros E W. destruct (sp_add_all d (hs s)) as [d' c'] eqn:A. injection E as <- <- <-.
  destruct (sp_add_all_spec _ _ _ _ A W) as (W1 & H1 & V1 & A1).
  refine (conj W1 (conj H1 (conj V1 (conj eq_refl _)))). unfold cadd, arr at 3. cbn [fst snd]. destruct (sp_flag s); lia.
Qed.

Lemma sp_pop_spec s s1 out : sp_pop s = (s1, out) -> wf_sp s ->
  wf_sp s1 /\ hs s = hs s1 ++ olist out /\ vof s1 = vof s /\ cap s1 = cap s /\ arr s1 = arr s.
Proof.
  unfold sp_pop, sp_count. intros E W. destruct (0 <? cf s / 2) eqn:C; injection E as <- <-.
  - pose proof W as (H0 & HL & HF & HI).
    assert (hs s <> []) as NE by (intros Q; rewrite Q in HL; cbn in HL; lia).
    pose proof (app_removelast_last 0 NE) as SPLIT.
    refine (conj _ (conj SPLIT (conj eq_refl (conj eq_refl _)))).
    + rewrite SPLIT, zlen_app in HL. change (zlen [last (hs s) 0]) with 1 in HL. unfold wf_sp. cbn [cf hs cap]. lia.
    + unfold arr. rewrite !flag_mod. cbn [cf]. destruct (cf s mod 2 =? 1) eqn:A; destruct ((cf s - 2) mod 2 =? 1) eqn:B; lia.
  - cbn [olist]. rewrite app_nil_r. auto.
Qed.

Lemma is_drv_eq x : is_drv x = true -> x = driver.
Proof. unfold is_drv. lia. Qed.

Lemma count_driver_self : count_z driver [driver] = 1%nat.
Proof. reflexivity. Qed.

Lemma count_drv_existsb l : existsb is_drv l = false -> count_z driver l = 0%nat.
Proof.
  induction l as [|x l IH]; intros H; [reflexivity|]. cbn [existsb] in H. apply orb_false_elim in H as [A B].
  rewrite count_z_cons, (IH B). unfold is_drv in A. destruct (driver =? x) eqn:E; [lia|reflexivity].
Qed.

Lemma existsb_drv_In l : existsb is_drv l = true -> In driver l.
Proof. intros H. apply existsb_exists in H as (x & I & D). apply is_drv_eq in D. subst. exact I. Qed.

Lemma forallb_not_drv_count l : count_z driver l = 0%nat -> forallb not_drv l = true.
Proof.
  induction l as [|x l IH]; [reflexivity|]. rewrite count_z_cons. cbn [forallb]. unfold not_drv at 1, is_drv.
  destruct (driver =? x) eqn:E; [lia|]. intros C. rewrite (IH C). lia.
Qed.

Lemma count_drv_pos l : forallb (fun h => 0 <? h) l = true -> count_z driver l = 0%nat.
Proof.
  induction l as [|x l IH]; intros H; [reflexivity|]. cbn [forallb] in H. apply andb_true_iff in H as [A B].
  rewrite count_z_cons, (IH B). unfold driver. destruct (0 =? x) eqn:E; [lia|reflexivity].
Qed.

(* both callers put the awaiter's handle into the queue first, so it is always found *)
Lemma split_drv_spec q : In driver q ->
  exists pre post, split_drv q = (pre, post, true) /\ q = pre ++ [driver] ++ post /\ count_z driver pre = 0%nat.
Proof.
  induction q as [|x q IH]; intros I; [destruct I|]. cbn [split_drv]. destruct (is_drv x) eqn:D.
  - apply is_drv_eq in D. subst. exists [], q. repeat split.
  - destruct I as [->|I]; [discriminate|]. destruct (IH I) as (pre & post & -> & E & C).
    exists (x :: pre), post. rewrite E at 1. rewrite count_z_cons, C. unfold is_drv in D.
    destruct (driver =? x) eqn:N; [lia|]. repeat split.
Qed.

Lemma suspend_now_spec coro e s s1 q r c k : suspend_now coro e s = (s1, q, r, c, k) ->
  s1 = reset_src s /\ c = (0, arr s) /\
  forall y, (count_z y r + count_z y q = count_z y (queue e) + count_z y (hs s) /\ count_z y r <= count_z y (hs s))%nat.
Proof.
  unfold suspend_now, sp_clear_internal. destruct coro; intros E; injection E as <- <- <- <- <-;
    (repeat split; [rewrite ?count_z_app, ?count_z_nil; lia | rewrite ?count_z_nil; lia]).
Qed.

Lemma await_suspend_spec q s s2 q' r c pu po : await_suspend q s = (s2, q', r, c, pu, po) -> wf_sp s -> sp_count s <> 0 ->
  s2 = reset_src s /\ c = (0, arr s) /\
  (forall y, (count_z y q + count_z y (hs s) + count_z y (self_push s) = count_z y r + count_z y q')%nat) /\
  (exists t, r = t ++ [driver] /\ count_z driver t = 0%nat) /\
  (count_z driver q = 0 -> count_z driver (hs s) <= 1 -> count_z driver q' = 0)%nat.
Proof.
  unfold await_suspend, self_push. intros E W NZ. destruct (sp_count s =? 0) eqn:Z0; [lia|].
  destruct (sp_pop s) as [s1 out] eqn:P. destruct (sp_pop_spec _ _ _ P W) as (W1 & H1 & V1 & C1 & A1).
  unfold sp_clear_internal in E. injection V1 as T1 V1.
  assert (forall y, count_z y (hs s) = (count_z y (hs s1) + count_z y (olist out))%nat) as HC
    by (intros y; rewrite H1, count_z_app; reflexivity).
  pose proof count_driver_self as ONE.
  destruct (existsb is_drv (olist out)) eqn:DO.
  - (* the awaiter's own handle was the last one: symmetric transfer to the awaiter itself *)
    cbn [orb app] in *. rewrite app_nil_r in E. injection E as <- <- <- <- <- <-.
    assert (olist out = [driver]) as OD.
    { destruct out as [x|]; [|discriminate]. cbn in DO. rewrite orb_false_r in DO. apply is_drv_eq in DO. subst. reflexivity. }
    rewrite OD in HC. refine (conj _ (conj _ (conj _ (conj _ _)))).
    + rewrite T1, V1, C1. reflexivity.
    + f_equal. exact A1.
    + intros y. rewrite HC, count_z_nil, count_z_app. lia.
    + exists []. split; reflexivity.
    + intros Q0 LE. rewrite HC in LE. rewrite count_z_app. lia.
  - (* the last handle runs, then the queue up to the awaiter *)
    cbn [orb] in *. apply count_drv_existsb in DO.
    set (q1 := q ++ hs s1 ++ _) in E.
    assert (In driver q1) as I.
    { unfold q1. apply in_or_app. right. apply in_or_app.
      destruct (existsb is_drv (hs s1)) eqn:M; [left; apply existsb_drv_In; exact M|right; left; reflexivity]. }
    destruct (split_drv_spec q1 I) as (pre & post & S & EQ & CP). rewrite S in E. injection E as <- <- <- <- <- <-.
    assert (forall y, count_z y q1 = (count_z y pre + count_z y [driver] + count_z y post)%nat) as SC
      by (intros y; rewrite EQ, !count_z_app; lia).
    unfold q1 in SC. clear I EQ S.
    refine (conj _ (conj _ (conj _ (conj _ _)))).
    + rewrite T1, V1, C1. reflexivity.
    + f_equal. exact A1.
    + intros y. specialize (SC y). rewrite !count_z_app in *. rewrite HC.
      destruct (existsb is_drv (hs s1)); rewrite ?count_z_nil in *; lia.
    + exists (olist out ++ pre). split; [rewrite <- app_assoc; reflexivity|]. rewrite count_z_app. lia.
    + intros Q0 LE. specialize (SC driver). rewrite !count_z_app in SC. rewrite HC in LE.
      destruct (existsb is_drv (hs s1)) eqn:M; [apply existsb_drv_In, count_z_In in M|apply count_drv_existsb in M];
        rewrite ?count_z_nil in SC; lia.
Qed.

Definition arrs_o (o : option sp) : Z := match o with Some s => arr s | None => 0 end.
Fixpoint arrs (l : list (option sp)) : Z := match l with [] => 0 | o :: t => arrs_o o + arrs t end.
Definition wf_objs (l : list (option sp)) : Prop := forall i s, get l i = Some s -> wf_sp s.
Definition wf_o (o : option sp) : Prop := match o with Some s => wf_sp s | None => True end.

Lemma held_put y (l : list (option sp)) i v :
  (count_z y (held_objs (put l i v)) + count_z y (hso (get l i)) = count_z y (hso v) + count_z y (held_objs l))%nat.
Proof.
  unfold put, get, held_objs. revert l; induction i as [|i IH]; intros [|o l]; cbn [ensure set_nth nth_error flat_map];
    rewrite ?count_z_app.
  - cbn [hso]. rewrite count_z_nil. lia.
  - destruct o; lia.
  - specialize (IH []). destruct i; cbn [nth_error flat_map hso] in *; rewrite count_z_nil in *; lia.
  - specialize (IH l). lia.
Qed.

Lemma arrs_put (l : list (option sp)) i v : arrs (put l i v) + arrs_o (get l i) = arrs_o v + arrs l.
Proof.
  unfold put, get. revert l; induction i as [|i IH]; intros [|o l]; cbn [ensure set_nth nth_error arrs].
  - cbn [arrs_o]. lia.
  - destruct o; lia.
  - specialize (IH []). destruct i; cbn [nth_error arrs arrs_o] in *; lia.
  - specialize (IH l). lia.
Qed.

Lemma wf_put l i v : wf_objs l -> wf_o v -> wf_objs (put l i v).
Proof.
  intros W V j s G. destruct (Nat.eq_dec i j) as [E|E].
  - subst. rewrite get_put_same in G. subst. exact V.
  - rewrite get_put_other in G by exact E. eapply W; eassumption.
Qed.

Lemma hs_le_held l o s y : get l o = Some s -> (count_z y (hs s) <= count_z y (held_objs l))%nat.
Proof. intros G. pose proof (held_put y l o None) as P. rewrite G in P. cbn [hso] in P. rewrite count_z_nil in P. lia. Qed.

Lemma count_z_rev y l : count_z y (rev l) = count_z y l.
Proof. apply counts_of_perm. apply Permutation_sym, Permutation_rev. Qed.

(* ready coroutines handed in by an op (only when the op was accepted); `o << co_await self()` hands in the awaiter *)
Definition handed_op (x : op) (ob : obs) : list Z :=
  if o_st ob =? 0 then
    match x with
    | ONewH _ h _ | OAdd _ h | ONewVoidH _ h | OAddFail _ h => [h]
    | OCreate _ _ _ l | OCreateThrow _ _ _ l => l
    | OAddSelf _ => [driver]
    | _ => []
    end
  else [].

Definition handed (x : op) : list Z := handed_op x (ok_obs 0 0 (0, 0) []).   (* by an accepted x *)

(* the awaiter's own handle as handed in by the await itself (pause always; await_suspend unless it is in the list;
   a co_await that does not suspend simply continues: counted the same way) *)
Definition spush (coro : bool) (e : env) (x : op) : list Z :=
  if coro then
    match x with
    | OAwait o | OAwaitL o => match get (objs e) o with Some s => self_push s | None => [] end
    | OFlush => [driver]
    | _ => []
    end
  else [].

Lemma spush_nonawait coro e x : awaits x = false -> spush coro e x = [].
Proof. unfold spush. destruct coro, x; (reflexivity || discriminate). Qed.

Lemma spush_cases coro e x : spush coro e x = [] \/ spush coro e x = [driver].
Proof.
  assert (forall s, self_push s = [] \/ self_push s = [driver]) as S.
  { intros s. unfold self_push. destruct (sp_count s =? 0); [auto|]. destruct (sp_pop s) as [s1 out]. destruct (_ || _); auto. }
  unfold spush. destruct coro; [|auto]. destruct x; auto; destruct (get (objs e) o); auto.
Qed.

Definition wf_env (e : env) : Prop := wf_objs (objs e).

Lemma wf_env0 : wf_env env0.
Proof. intros i s G. unfold env0, get in G. cbn in G. destruct i; discriminate. Qed.

(* per op: an accepted await continues the awaiter exactly once, after everything else that ran; no other op resumes it *)
Definition drv_step_ok (x : op) (ob : obs) : Prop :=
  if (o_st ob =? 0) && awaits x
  then exists t, o_res ob = t ++ [driver] /\ count_z driver t = 0%nat
  else count_z driver (o_res ob) = 0%nat.

Lemma drv_nonawait x ob : awaits x = false -> count_z driver (o_res ob) = 0%nat -> drv_step_ok x ob.
Proof. unfold drv_step_ok. intros ->. rewrite andb_false_r. auto. Qed.

Lemma drv_await x ob t : awaits x = true -> o_st ob = 0 -> o_res ob = t ++ [driver] -> count_z driver t = 0%nat -> drv_step_ok x ob.
Proof. unfold drv_step_ok. intros -> -> R C. exists t. auto. Qed.
Arguments drv_await {x ob} t & _ _ _ _.

(* the awaiter's own handle is in at most one place and never waits in the ready queue while the awaiter runs *)
Definition drv_inv (e : env) : Prop := (count_z driver (held e) <= 1)%nat /\ count_z driver (queue e) = 0%nat.

Definition vrel (vs : list (option vinfo)) (l : list (option sp)) : Prop :=
  forall i, get vs i = option_map vof (get l i).

Lemma vrel_nil : vrel [] [].
Proof. intros [|i]; reflexivity. Qed.

Lemma vrel_put vs l o i s' : vrel vs l -> i = option_map vof s' -> vrel (put vs o i) (put l o s').
Proof.
  intros R -> j. destruct (Nat.eq_dec o j) as [<-|N]; [rewrite !get_put_same; reflexivity|].
  rewrite !get_put_other by exact N. apply R.
Qed.

Lemma vrel_same vs l o s s1 : vrel vs l -> get l o = Some s -> vof s1 = vof s -> vrel vs (put l o (Some s1)).
Proof.
  intros R G E i. destruct (Nat.eq_dec o i) as [<-|N]; [|rewrite get_put_other by exact N; apply R].
  rewrite get_put_same, R, G. cbn [option_map]. congruence.
Qed.

Lemma vrel_get vs l o s : vrel vs l -> get l o = Some s -> get vs o = Some (vof s).
Proof. intros R G. rewrite R, G. reflexivity. Qed.

Lemma vrel_vget vs l o s : vrel vs l -> get l o = Some s -> vget vs o = val s.
Proof. intros R G. unfold vget. rewrite (vrel_get _ _ _ _ R G). reflexivity. Qed.

Lemma vals_kept vs l o s s1 : vrel vs l -> get l o = Some s -> vof s1 = vof s ->
  vrel vs (put l o (Some s1)) /\ val s1 = vget vs o.
Proof.
  intros R G E. split; [exact (vrel_same _ _ _ _ _ R G E)|]. rewrite (vrel_vget _ _ _ _ R G). exact (f_equal snd E).
Qed.
Arguments vals_kept {vs l o s s1} & _ _ _.

Lemma vals_kept2 vs l o1 o2 d s d1 s1 : o1 <> o2 -> vrel vs l -> get l o1 = Some d -> get l o2 = Some s ->
  vof d1 = vof d -> vof s1 = vof s -> vrel vs (put (put l o1 (Some d1)) o2 (Some s1)) /\ val d1 = vget vs o1.
Proof.
  intros N R G1 G2 E1 E2. destruct (vals_kept (s1 := d1) R G1 E1) as (R1 & V). split; [|exact V].
  apply (vrel_same _ _ _ s); [exact R1|rewrite get_put_other by exact N; exact G2|exact E2].
Qed.
Arguments vals_kept2 {vs l o1 o2 d s d1 s1} & _ _ _ _ _ _.

(* what the result r of op x in state e satisfies *)
Record step_ok (coro : bool) (e : env) (x : op) (r : env * obs) : Prop := {
  ok_wf : wf_env (fst r);
  ok_held : forall y, (count_z y (handed_op x (snd r)) + count_z y (held e) + count_z y (spush coro e x) =
                       count_z y (o_res (snd r)) + count_z y (held (fst r)))%nat;
  ok_arrs : arrs (objs (fst r)) - arrs (objs e) = fst (o_cost (snd r)) - snd (o_cost (snd r));
  ok_awaiter : drv_step_ok x (snd r);
  ok_queue : drv_inv e -> count_z driver (queue (fst r)) = 0%nat;
  ok_vals : forall vs, vrel vs (objs e) -> o_st (snd r) = 0 ->
            vrel (fst (vstep vs x)) (objs (fst r)) /\ o_val (snd r) = snd (vstep vs x);
  ok_rej : o_st (snd r) <> 0 -> fst r = e }.

(* writes out what the op hands in and what the fresh, emptied or retyped objects hold, then counts *)
Ltac counts :=
  rewrite ?spush_nonawait by reflexivity;
  cbn [handed handed_op spush ok_obs o_st o_res o_cost hso arrs_o objs queue fst snd Z.eqb]; autorewrite with sp_arr;
  cbn [hs reset_src moved_val set_val]; rewrite ?count_z_app, ?count_z_nil; lia.

Section Step.
Context (e : env) (W : wf_env e).

Lemma step_ok_rej coro x ob : (o_st ob =? 0) = false -> o_res ob = [] -> o_cost ob = (0, 0) -> spush coro e x = [] ->
  step_ok coro e x (e, ob).
Proof.
  intros ST R C S. split; cbn [fst snd]; try (intros; assumption || reflexivity).
  - intros y. unfold handed_op. rewrite ST, S, R, count_z_nil. lia.
  - rewrite C. cbn [fst snd]. lia.
  - unfold drv_step_ok. rewrite ST, R. reflexivity.
  - apply proj2.
  - intros vs _ Z. rewrite Z in ST. discriminate.
Qed.

(* In the frame lemmas the arguments read off the goal are implicit and come first (`&`): `refine (lemma eq_refl ...)`
   must know x and ob before it checks the `eq_refl`s. *)
Lemma step_ok_acc coro x e' ob :
  o_st ob = 0 -> wf_env e' ->
  (forall y, (count_z y (handed x) + count_z y (held e) + count_z y (spush coro e x)
              = count_z y (o_res ob) + count_z y (held e'))%nat) ->
  arrs (objs e') - arrs (objs e) = fst (o_cost ob) - snd (o_cost ob) ->
  drv_step_ok x ob -> (drv_inv e -> count_z driver (queue e') = 0%nat) ->
  (forall vs, vrel vs (objs e) -> vrel (fst (vstep vs x)) (objs e') /\ o_val ob = snd (vstep vs x)) ->
  step_ok coro e x (e', ob).
Proof.
  intros ST W' C A D Q V. split; cbn [fst snd]; try assumption.
  - unfold handed_op. rewrite ST. exact C.
  - intros vs R _. exact (V vs R).
  - intros N. contradiction.
Qed.

Lemma step_ok_same coro x e' ob :
  o_st ob = 0 -> objs e' = objs e ->
  (forall y, (count_z y (handed x) + count_z y (queue e) + count_z y (spush coro e x)
              = count_z y (o_res ob) + count_z y (queue e'))%nat) ->
  o_cost ob = (0, 0) ->
  drv_step_ok x ob -> (drv_inv e -> count_z driver (queue e') = 0%nat) ->
  (forall vs, vrel vs (objs e) -> vrel (fst (vstep vs x)) (objs e) /\ o_val ob = snd (vstep vs x)) ->
  step_ok coro e x (e', ob).
Proof.
  intros ST E C A D Q V. apply step_ok_acc; try assumption; unfold wf_env, held; rewrite E, ?A; try assumption.
  - intros y. specialize (C y). rewrite !count_z_app. lia.
  - cbn [fst snd]. lia.
Qed.
Arguments step_ok_same {coro x e' ob} & _ _ _ _ _ _ _.

Lemma step_ok_put1 coro x o old v q' pu po ob :
  o_st ob = 0 -> get (objs e) o = old -> wf_o v ->
  (forall y, (count_z y (handed x) + count_z y (hso old) + count_z y (queue e) + count_z y (spush coro e x)
              = count_z y (o_res ob) + count_z y (hso v) + count_z y q')%nat) ->
  arrs_o v - arrs_o old = fst (o_cost ob) - snd (o_cost ob) ->
  drv_step_ok x ob -> (drv_inv e -> count_z driver q' = 0%nat) ->
  (forall vs, vrel vs (objs e) -> vrel (fst (vstep vs x)) (put (objs e) o v) /\ o_val ob = snd (vstep vs x)) ->
  step_ok coro e x (mkEnv (put (objs e) o v) q' pu po, ob).
Proof.
  intros ST <- Wv C A D Q V. apply step_ok_acc; try assumption; cbn [objs].
  - apply wf_put; assumption.
  - intros y. specialize (C y). pose proof (held_put y (objs e) o v). unfold held. cbn [objs queue]. rewrite !count_z_app. lia.
  - pose proof (arrs_put (objs e) o v). lia.
Qed.
Arguments step_ok_put1 {coro x o old v q' pu po ob} & _ _ _ _ _ _ _ _.

Lemma step_ok_upd1 coro x o old v ob :
  awaits x = false -> o_st ob = 0 -> o_res ob = [] -> get (objs e) o = old -> wf_o v ->
  (forall y, (count_z y (handed x) + count_z y (hso old) = count_z y (hso v))%nat) ->
  arrs_o v - arrs_o old = fst (o_cost ob) - snd (o_cost ob) ->
  (forall vs, vrel vs (objs e) -> vrel (fst (vstep vs x)) (put (objs e) o v) /\ o_val ob = snd (vstep vs x)) ->
  step_ok coro e x (upd e (put (objs e) o v), ob).
Proof.
  intros AW ST R G Wv C A V. apply (step_ok_put1 ST G); try assumption.
  - intros y. specialize (C y). rewrite R, (spush_nonawait _ _ _ AW). lia.
  - apply drv_nonawait; [exact AW|]. rewrite R. reflexivity.
  - apply proj2.
Qed.
Arguments step_ok_upd1 {coro x o old v ob} & _ _ _ _ _ _ _ _.

Lemma step_ok_upd2 coro x o1 o2 old1 old2 v1 v2 ob :
  awaits x = false -> o_st ob = 0 -> o_res ob = [] -> o1 <> o2 ->
  get (objs e) o1 = old1 -> get (objs e) o2 = old2 -> wf_o v1 -> wf_o v2 ->
  (forall y, (count_z y (handed x) + count_z y (hso old1) + count_z y (hso old2) = count_z y (hso v1) + count_z y (hso v2))%nat) ->
  arrs_o v1 + arrs_o v2 - arrs_o old1 - arrs_o old2 = fst (o_cost ob) - snd (o_cost ob) ->
  (forall vs, vrel vs (objs e) -> vrel (fst (vstep vs x)) (put (put (objs e) o1 v1) o2 v2) /\ o_val ob = snd (vstep vs x)) ->
  step_ok coro e x (upd e (put (put (objs e) o1 v1) o2 v2), ob).
Proof.
  intros AW ST R N <- <- W1 W2 C A V.
  pose proof (arrs_put (put (objs e) o1 v1) o2 v2) as A2. pose proof (arrs_put (objs e) o1 v1) as A1.
  rewrite get_put_other in A2 by exact N.
  apply step_ok_acc; try assumption; cbn [upd objs queue].
  - apply wf_put; [apply wf_put|]; assumption.
  - intros y. specialize (C y). pose proof (held_put y (put (objs e) o1 v1) o2 v2) as P2. pose proof (held_put y (objs e) o1 v1) as P1.
    rewrite get_put_other in P2 by exact N. unfold held. cbn [upd objs queue]. rewrite R, (spush_nonawait _ _ _ AW), !count_z_app. lia.
  - lia.
  - apply drv_nonawait; [exact AW|]. rewrite R. reflexivity.
  - apply proj2.
Qed.
Arguments step_ok_upd2 {coro x o1 o2 old1 old2 v1 v2 ob} & _ _ _ _ _ _ _ _ _ _ _.

(* a branch in which the model rejects the op *)
Ltac rej := apply step_ok_rej; first [reflexivity | apply spush_nonawait; reflexivity].

(* the three ways to add one handle *)
Lemma add_ok coro x o h s :
  awaits x = false -> get (objs e) o = Some s -> handed x = [h] -> (forall vs, vstep vs x = (vs, vget vs o)) ->
  step_ok coro e x (let '(s1, c) := sp_add s h in (upd e (put (objs e) o (Some s1)), ok_obs (sp_count s1) (val s1) c [])).
Proof.
  intros AW G HX VX. destruct (sp_add s h) as [s1 c] eqn:A. destruct (sp_add_spec _ _ _ _ A (W _ _ G)) as (W1 & H1 & V1 & A1).
  refine (step_ok_upd1 AW eq_refl eq_refl G W1 _ A1 _).
  - intros y. cbn [hso]. rewrite HX, H1. counts.
  - intros vs R. rewrite VX. exact (vals_kept R G V1).
Qed.
Arguments add_ok {coro x o h s} & _ _ _ _.

Lemma step_spec coro x : step_ok coro e x (step coro e x).
Proof.
  destruct x as [o v|o h v|o h|o1 o2|o1 o2|o1 o2 v|o|o|o|o| |o1 o2|o t v l|o|o h|o k|o|o|o1 o2|o h|o t v l| ]; cbn [step].
  - (* NewV *)
    destruct (get (objs e) o) eqn:G; [rej|].
    refine (step_ok_upd1 eq_refl eq_refl eq_refl G (wf_empty _ _ _) _ _ _); [intros y; counts|counts|].
    intros vs R. split; [apply vrel_put; [exact R|reflexivity]|reflexivity].
  - (* NewH *)
    destruct (h <=? 0) eqn:HP; [rej|]. destruct (get (objs e) o) eqn:G; [rej|].
    refine (step_ok_upd1 eq_refl eq_refl eq_refl G (wf_single _ _ _ _) _ _ _); [intros y; counts|counts|].
    intros vs R. split; [apply vrel_put; [exact R|reflexivity]|reflexivity].
  - (* Add *)
    destruct (h <=? 0) eqn:HP; [rej|]. destruct (get (objs e) o) as [s|] eqn:G; [|rej].
    exact (add_ok eq_refl G eq_refl (fun _ => eq_refl)).
  - (* Merge *)
    destruct (Nat.eqb_spec o1 o2) as [E|E]; [rej|].
    destruct (get (objs e) o1) as [d|] eqn:G1; [|rej]. destruct (get (objs e) o2) as [s|] eqn:G2; [|rej].
    destruct (sp_merge d s) as [[d1 s1] c] eqn:M. destruct (sp_merge_spec _ _ _ _ _ M (W _ _ G1)) as (W1 & H1 & V1 & -> & A1).
    refine (step_ok_upd2 eq_refl eq_refl eq_refl E G1 G2 W1 (wf_empty _ _ _) _ _ _).
    + intros y. cbn [hso]. rewrite H1. counts.
    + counts.
    + intros vs R. exact (vals_kept2 E R G1 G2 V1 eq_refl).
  - (* MoveCtor *)
    destruct (Nat.eqb_spec o1 o2) as [E|E]; [rej|].
    destruct (get (objs e) o1) as [d|] eqn:G1; [rej|]. destruct (get (objs e) o2) as [s|] eqn:G2; [|rej].
    refine (step_ok_upd2 eq_refl eq_refl eq_refl E G1 G2 (W _ _ G2) (wf_empty _ _ _) _ _ _);
      [intros y; counts|counts|].
    intros vs R. cbn [vstep]. rewrite (vrel_get _ _ _ _ R G2). split.
    + apply vrel_put; [apply vrel_put; [exact R|reflexivity]|reflexivity].
    + unfold vget. rewrite get_put_other, get_put_same by auto. reflexivity.
  - (* MoveBase *)
    destruct (Nat.eqb_spec o1 o2) as [E|E]; [rej|].
    destruct (get (objs e) o1) as [d|] eqn:G1; [rej|]. destruct (get (objs e) o2) as [s|] eqn:G2; [|rej].
    refine (step_ok_upd2 eq_refl eq_refl eq_refl E G1 G2 (W _ _ G2 : wf_o (Some (mkSp _ _ _ _ _))) (wf_empty _ _ _) _ _ _);
      [intros y; counts|counts|].
    intros vs R. split; [|reflexivity].
    apply (vrel_same _ _ _ s); [apply vrel_put; [exact R|reflexivity]|rewrite get_put_other by exact E; exact G2|reflexivity].
  - (* Pop *)
    destruct (get (objs e) o) as [s|] eqn:G; [|rej]. destruct (has_drv s) eqn:HD; [rej|]. apply count_drv_existsb in HD.
    destruct (sp_pop s) as [s1 out] eqn:P. destruct (sp_pop_spec _ _ _ P (W _ _ G)) as (W1 & H1 & V1 & _ & A1).
    rewrite H1, count_z_app in HD.
    refine (step_ok_put1 eq_refl G W1 _ _ _ (@proj2 _ _) _).
    + intros y. cbn [hso]. rewrite H1. counts.
    + counts.
    + apply drv_nonawait; [reflexivity|]. cbn [o_res ok_obs]. lia.
    + intros vs R. exact (vals_kept R G V1).
  - (* Clear *)
    destruct (get (objs e) o) as [s|] eqn:G; [|rej]. destruct (has_drv s) eqn:HD; [rej|]. apply count_drv_existsb in HD.
    destruct (suspend_now coro e s) as [[[[s1 q] r] c] k] eqn:S. destruct (suspend_now_spec _ _ _ _ _ _ _ _ S) as (-> & -> & C).
    refine (step_ok_put1 eq_refl G (wf_empty _ _ _) _ _ _ _ _).
    + intros y. specialize (C y). counts.
    + counts.
    + apply drv_nonawait; [reflexivity|]. specialize (C driver). cbn [o_res]. lia.
    + intros [_ D]. specialize (C driver). lia.
    + intros vs R. exact (vals_kept R G eq_refl).
  - (* Destroy *)
    destruct (get (objs e) o) as [s|] eqn:G; [|rej]. destruct (has_drv s) eqn:HD; [rej|]. apply count_drv_existsb in HD.
    destruct (suspend_now coro e s) as [[[[s1 q] r] c] k] eqn:S. destruct (suspend_now_spec _ _ _ _ _ _ _ _ S) as (-> & -> & C).
    refine (step_ok_put1 eq_refl G I _ _ _ _ _).
    + intros y. specialize (C y). counts.
    + counts.
    + apply drv_nonawait; [reflexivity|]. specialize (C driver). cbn [o_res]. lia.
    + intros [_ D]. specialize (C driver). lia.
    + intros vs R. split; [apply vrel_put; [exact R|reflexivity]|symmetry; exact (vrel_vget _ _ _ _ R G)].
  - (* Await: whether or not the temporary suspends, the object is left moved-from *)
    destruct coro; [|rej]. destruct (get (objs e) o) as [s|] eqn:G; [|apply step_ok_rej; try reflexivity; unfold spush; rewrite G; reflexivity].
    cbn [negb]. pose proof (W _ _ G) as Ws.
    assert (forall vs, vrel vs (objs e) ->
              vrel (fst (vstep vs (OAwait o))) (put (objs e) o (Some (moved_val (reset_src s)))) /\ val s = snd (vstep vs (OAwait o))) as V.
    { intros vs R. cbn [vstep fst snd]. unfold vget. rewrite (vrel_get _ _ _ _ R G).
      split; [apply vrel_put; [exact R|reflexivity]|reflexivity]. }
    destruct (sp_count s =? 0) eqn:C.
    + unfold sp_clear_internal. fold (arr s).
      refine (step_ok_put1 eq_refl G (wf_empty _ _ _) _ _ _ (@proj2 _ _) V).
      * intros y. cbn [hso]. unfold spush, self_push. rewrite G, C, (wf_count0 s Ws) by lia. counts.
      * counts.
      * exact (drv_await [] eq_refl eq_refl eq_refl eq_refl).
    + destruct (await_suspend (queue e) s) as [[[[[s2 q'] r] c] pu] po] eqn:A.
      destruct (await_suspend_spec _ _ _ _ _ _ _ _ A Ws ltac:(lia)) as (-> & -> & AC & (t & -> & T) & AQ).
      refine (step_ok_put1 eq_refl G (wf_empty _ _ _) _ _ _ _ V).
      * intros y. specialize (AC y). rewrite count_z_app in AC. unfold spush. rewrite G. counts.
      * counts.
      * exact (drv_await t eq_refl eq_refl eq_refl T).
      * intros [D1 D2]. pose proof (hs_le_held _ _ _ driver G). unfold held in D1. rewrite count_z_app in D1. apply AQ; lia.
  - (* Flush *)
    destruct coro; [|rej]. cbn [negb].
    destruct (split_drv_spec (queue e ++ [driver])) as (pre & post & -> & E & CP); [apply in_or_app; right; left; reflexivity|].
    assert (forall y, count_z y (queue e) + count_z y [driver] = count_z y pre + count_z y [driver] + count_z y post)%nat as EC
      by (intros y; rewrite <- !count_z_app, <- app_assoc, E; reflexivity).
    refine (step_ok_same eq_refl eq_refl _ eq_refl _ _ _).
    + intros y. specialize (EC y). counts.
    + exact (drv_await pre eq_refl eq_refl eq_refl CP).
    + intros [_ D]. specialize (EC driver). cbn [queue]. lia.
    + intros vs R. split; [exact R|reflexivity].
  - (* MoveAssign *)
    destruct (Nat.eqb_spec o1 o2) as [E|E]; [rej|].
    destruct (get (objs e) o1) as [d|] eqn:G1; [|rej]. destruct (get (objs e) o2) as [s|] eqn:G2; [|rej].
    destruct (typed d && negb (typed s)) eqn:TT; [rej|].
    destruct (sp_merge d s) as [[d1 s1] c] eqn:M. destruct (sp_merge_spec _ _ _ _ _ M (W _ _ G1)) as (W1 & H1 & V1 & -> & A1).
    pose proof (f_equal fst V1 : typed d1 = typed d) as T1.
    destruct (typed d) eqn:TD;
      (refine (step_ok_upd2 eq_refl eq_refl eq_refl E G1 G2 (W1 : wf_o (Some _)) (wf_empty _ _ _) _ _ _);
       [intros y; cbn [hso hs set_val]; rewrite H1; counts|counts|]); intros vs R; cbn [vstep]; rewrite (vrel_get _ _ _ _ R G1); cbn [vtyped vof]; rewrite TD.
    + (* typed = typed: the value moves along *)
      assert (typed s = true) as TS by (destruct (typed s); [reflexivity|discriminate]).
      rewrite (vrel_get _ _ _ _ R G2). split.
      * apply vrel_put; [apply vrel_put; [exact R|]|reflexivity].
        unfold vof. cbn [typed val set_val option_map]. rewrite T1, TS. reflexivity.
      * unfold vget. rewrite get_put_other, get_put_same by auto. reflexivity.
    + exact (vals_kept2 E R G1 G2 V1 eq_refl).
  - (* Create *)
    destruct (negb (forallb (fun h => 0 <? h) l)) eqn:FP; [rej|]. destruct (get (objs e) o) eqn:G; [rej|].
    destruct (sp_add_all (mkSp 0 [] 0 false 0) (rev l)) as [s1 c] eqn:A.
    destruct (sp_add_all_spec _ _ _ _ A (wf_empty _ _ _)) as (W1 & H1 & _ & A1). cbn [hs app] in H1. rewrite arr_empty in A1.
    refine (step_ok_upd1 eq_refl eq_refl eq_refl G (W1 : wf_o (Some (mkSp _ _ _ _ _))) _ _ _).
    + intros y. cbn [hso hs]. rewrite H1, count_z_rev. counts.
    + counts.
    + intros vs R. split; [apply vrel_put; [exact R|reflexivity]|reflexivity].
  - (* NewVoid *)
    destruct (get (objs e) o) eqn:G; [rej|].
    refine (step_ok_upd1 eq_refl eq_refl eq_refl G (wf_empty _ _ _) _ _ _); [intros y; counts|counts|].
    intros vs R. split; [apply vrel_put; [exact R|reflexivity]|reflexivity].
  - (* NewVoidH *)
    destruct (h <=? 0) eqn:HP; [rej|]. destruct (get (objs e) o) eqn:G; [rej|].
    refine (step_ok_upd1 eq_refl eq_refl eq_refl G (wf_single _ _ _ _) _ _ _); [intros y; counts|counts|].
    intros vs R. split; [apply vrel_put; [exact R|reflexivity]|reflexivity].
  - (* Read *)
    destruct (negb ((k =? 0) || (k =? 1))); [rej|].
    destruct (get (objs e) o) as [s|] eqn:G; [|rej]. destruct (typed s); [|rej].
    refine (step_ok_same eq_refl eq_refl _ eq_refl _ (@proj2 _ _) _); [intros y; counts|apply drv_nonawait; reflexivity|].
    intros vs R. split; [exact R|symmetry; exact (vrel_vget _ _ _ _ R G)].
  - (* AwaitL *)
    destruct coro; [|rej]. destruct (get (objs e) o) as [s|] eqn:G; [|apply step_ok_rej; try reflexivity; unfold spush; rewrite G; reflexivity].
    cbn [negb]. pose proof (W _ _ G) as Ws.
    destruct (sp_count s =? 0) eqn:C.
    + (* an empty object is not touched at all *)
      refine (step_ok_same eq_refl eq_refl _ eq_refl _ (@proj2 _ _) _).
      * intros y. unfold spush, self_push. rewrite G, C. counts.
      * exact (drv_await [] eq_refl eq_refl eq_refl eq_refl).
      * intros vs R. split; [exact R|symmetry; exact (vrel_vget _ _ _ _ R G)].
    + destruct (await_suspend (queue e) s) as [[[[[s2 q'] r] c] pu] po] eqn:A.
      destruct (await_suspend_spec _ _ _ _ _ _ _ _ A Ws ltac:(lia)) as (-> & -> & AC & (t & -> & T) & AQ).
      refine (step_ok_put1 eq_refl G (wf_empty _ _ _) _ _ _ _ _).
      * intros y. specialize (AC y). rewrite count_z_app in AC. unfold spush. rewrite G. counts.
      * counts.
      * exact (drv_await t eq_refl eq_refl eq_refl T).
      * intros [D1 D2]. pose proof (hs_le_held _ _ _ driver G). unfold held in D1. rewrite count_z_app in D1. apply AQ; lia.
      * intros vs R. exact (vals_kept R G eq_refl).
  - (* AddSelf *)
    destruct coro; [|rej]. destruct (existsb is_drv (held e)); [rej|]. destruct (get (objs e) o) as [s|] eqn:G; [|rej].
    exact (add_ok eq_refl G eq_refl (fun _ => eq_refl)).
  - (* Swap: a = move(b) into the emptied a, then b = move(tmp) into the emptied b *)
    destruct (Nat.eqb_spec o1 o2) as [E|E]; [rej|].
    destruct (get (objs e) o1) as [a|] eqn:G1; [|rej]. destruct (get (objs e) o2) as [b|] eqn:G2; [|rej].
    destruct (negb (Bool.eqb (typed a) (typed b))) eqn:TT; [rej|].
    assert (typed b = typed a) as TB by (destruct (typed a), (typed b); (reflexivity || discriminate)).
    destruct (sp_merge (moved_val (reset_src a)) b) as [[a1 b1] c1] eqn:M1.
    destruct (sp_merge_spec _ _ _ _ _ M1 (wf_empty _ _ _)) as (W1 & H1 & V1 & -> & A1).
    pose proof (f_equal fst V1 : typed a1 = typed a) as T1.
    destruct (typed a) eqn:TA;
      (destruct (sp_merge _ a) as [[b3 t3] c2] eqn:M2; destruct (sp_merge_spec _ _ _ _ _ M2 (wf_empty _ _ _)) as (W2 & H2 & V2 & _ & A2);
       autorewrite with sp_arr in A1, A2;
       refine (step_ok_upd2 eq_refl eq_refl eq_refl E G1 G2 (W1 : wf_o (Some _)) (W2 : wf_o (Some _)) _ _ _);
       [intros y; cbn [hso hs set_val]; rewrite H1, H2; counts|unfold cadd; counts|]);
      intros vs R; cbn [vstep]; rewrite (vrel_get _ _ _ _ R G1), (vrel_get _ _ _ _ R G2); cbn [vtyped vof]; rewrite TA.
    + pose proof (f_equal fst V2 : typed b3 = typed b) as T2. split.
      * apply vrel_put; [apply vrel_put; [exact R|]|]; unfold vof; cbn [option_map typed val set_val]; congruence.
      * unfold vget. rewrite get_put_other, get_put_same by auto. reflexivity.
    + refine (vals_kept2 E R G1 G2 _ V2). rewrite V1. unfold vof. cbn [typed val moved_val reset_src]. rewrite TA. reflexivity.
  - (* AddFail *)
    destruct (h <=? 0) eqn:HP; [rej|]. destruct (get (objs e) o) as [s|] eqn:G; [|rej].
    destruct (if sp_flag s then _ else _); [rej|]. exact (add_ok eq_refl G eq_refl (fun _ => eq_refl)).
  - (* CreateThrow *)
    destruct (negb (forallb (fun h => 0 <? h) l)) eqn:FP; [rej|]. apply negb_false_iff, count_drv_pos in FP.
    destruct (get (objs e) o) eqn:G; [rej|].
    destruct coro; (refine (step_ok_same eq_refl eq_refl _ eq_refl _ _ _);
      [intros y; counts|apply drv_nonawait; [reflexivity|first [reflexivity|exact FP]]
      |intros [_ D]; cbn [queue]; rewrite ?count_z_app; lia|intros vs R; split; [exact R|reflexivity]]).
  - rej.
Qed.

End Step.

Fixpoint handed_run (ops : list op) (os : list obs) : list Z :=
  match ops, os with
  | x :: t, o :: u => handed_op x o ++ handed_run t u
  | _, _ => []
  end.
Definition resumed_run (os : list obs) : list Z := flat_map o_res os.
Fixpoint spush_run (coro : bool) (e : env) (ops : list op) : list Z :=
  match ops with
  | [] => []
  | x :: t => spush coro e x ++ spush_run coro (fst (step coro e x)) t
  end.
Fixpoint allocs_run (os : list obs) : Z := match os with [] => 0 | o :: t => fst (o_cost o) + allocs_run t end.
Fixpoint frees_run (os : list obs) : Z := match os with [] => 0 | o :: t => snd (o_cost o) + frees_run t end.

Lemma run_from_cons coro e x ops :
  run_from coro e (x :: ops) =
  (snd (step coro e x) :: fst (run_from coro (fst (step coro e x)) ops), snd (run_from coro (fst (step coro e x)) ops)).
Proof. cbn [run_from]. destruct (step coro e x) as [e1 o]. cbn [fst snd]. destruct (run_from coro e1 ops). reflexivity. Qed.

Lemma run_spec coro ops : forall e, wf_env e ->
  let r := run_from coro e ops in
  wf_env (snd r) /\
  (forall y, (count_z y (handed_run ops (fst r)) + count_z y (held e) + count_z y (spush_run coro e ops) =
              count_z y (resumed_run (fst r)) + count_z y (held (snd r)))%nat) /\
  arrs (objs (snd r)) - arrs (objs e) = allocs_run (fst r) - frees_run (fst r) /\
  length (fst r) = length ops.
Proof.
  induction ops as [|x ops IH]; intros e W.
  - refine (conj W (conj (fun y => _) (conj _ eq_refl)));
      cbn [run_from spush_run handed_run resumed_run flat_map allocs_run frees_run fst snd]; rewrite ?count_z_nil; lia.
  - rewrite run_from_cons. cbn [fst snd spush_run handed_run resumed_run flat_map allocs_run frees_run length].
    destruct (step_spec e W coro x) as [W1 C1 A1 _ _ _ _]. destruct (IH _ W1) as (W2 & C2 & A2 & L2).
    refine (conj W2 (conj _ (conj _ (f_equal S L2)))); [|lia].
    intros y. specialize (C1 y). specialize (C2 y). rewrite !count_z_app. unfold resumed_run in C2. lia.
Qed.

Lemma spush_run_only coro ops : forall e y, y <> driver -> count_z y (spush_run coro e ops) = 0%nat.
Proof.
  induction ops as [|x ops IH]; intros e y N; cbn [spush_run]; [reflexivity|].
  rewrite count_z_app, (IH _ y N). destruct (spush_cases coro e x) as [->| ->]; [reflexivity|].
  rewrite count_z_cons. destruct (y =? driver) eqn:E; [lia|reflexivity].
Qed.

Lemma count_filter_not_drv y l : count_z y (filter not_drv l) = if y =? driver then 0%nat else count_z y l.
Proof.
  induction l as [|x l IH]; cbn [filter]; [rewrite count_z_nil; destruct (y =? driver); reflexivity|].
  unfold not_drv at 1, is_drv. destruct (x =? driver) eqn:E; cbn [negb]; rewrite ?count_z_cons, IH;
    destruct (y =? driver) eqn:F; destruct (y =? x) eqn:G; try reflexivity; lia.
Qed.

(* every handle handed in — and the awaiter once per await — is, at any moment, either resumed or still held *)
Theorem conservation coro ops e : wf_env e ->
  let r := run_from coro e ops in
  Permutation (handed_run ops (fst r) ++ spush_run coro e ops ++ held e) (resumed_run (fst r) ++ held (snd r)).
Proof.
  intros W. pose proof (run_spec coro ops e W) as (_ & C & _). cbn zeta.
  apply perm_of_counts. intros y. rewrite !count_z_app. specialize (C y). lia.
Qed.

Lemma ready_balance coro ops e h : wf_env e -> h <> driver ->
  let r := run_from coro e ops in
  (count_z h (handed_run ops (fst r)) + count_z h (held e) = count_z h (resumed_run (fst r)) + count_z h (held (snd r)))%nat.
Proof.
  intros W N. pose proof (run_spec coro ops e W) as (_ & C & _). specialize (C h).
  rewrite (spush_run_only coro ops e h N) in C. cbn zeta. lia.
Qed.

(* the same for the ready coroutines alone (everything but the awaiter's own handle) *)
Theorem conservation_ready coro ops e : wf_env e ->
  let r := run_from coro e ops in
  Permutation (filter not_drv (handed_run ops (fst r) ++ held e)) (filter not_drv (resumed_run (fst r) ++ held (snd r))).
Proof.
  intros W. cbn zeta. apply perm_of_counts. intros y. rewrite !count_filter_not_drv. destruct (y =? driver) eqn:E; [reflexivity|].
  rewrite !count_z_app. apply (ready_balance coro ops e y W). lia.
Qed.

Definition src_of (x : op) : option nat :=
  match x with
  | OMerge _ o | OMoveCtor _ o | OMoveBase _ o _ | OMoveAssign _ o | OClear o | OAwait o => Some o
  | _ => None
  end.

(* moved-from / merged-from / cleared / awaited objects are left with count_flag = 0 *)
Theorem source_is_emptied coro e x o :
  src_of x = Some o -> o_st (snd (step coro e x)) = 0 ->
  exists s, get (objs (fst (step coro e x))) o = Some s /\ cf s = 0.
Proof.
  intros S A.
  (* accepted: the source slot is written last, by reset_src or clear_internal; rejected: contradicts A *)
  assert (forall l s, cf s = 0 -> exists s', get (put l o (Some s)) o = Some s' /\ cf s' = 0) as last
    by (intros l s C; exists s; rewrite get_put_same; auto).
  destruct x; try discriminate S; injection S as ->; cbn [step] in *.
  - (* Merge *)
    destruct (Nat.eqb _ o); [discriminate A|]. destruct (get (objs e) o1); [|discriminate A].
    destruct (get (objs e) o); [|discriminate A].
    unfold sp_merge, sp_clear_internal. destruct (sp_add_all _ _). apply last. reflexivity.
  - (* MoveCtor *)
    destruct (Nat.eqb _ o); [discriminate A|]. destruct (get (objs e) o1); [discriminate A|].
    destruct (get (objs e) o); [|discriminate A]. apply last. reflexivity.
  - (* MoveBase *)
    destruct (Nat.eqb _ o); [discriminate A|]. destruct (get (objs e) o1); [discriminate A|].
    destruct (get (objs e) o); [|discriminate A]. apply last. reflexivity.
  - (* Clear *)
    destruct (get (objs e) o) as [s|]; [|discriminate A]. destruct (has_drv s); [discriminate A|].
    unfold suspend_now, sp_clear_internal. destruct coro; apply last; reflexivity.
  - (* Await *)
    destruct coro; [|discriminate A]. destruct (get (objs e) o) as [s|]; [|discriminate A]. cbn [negb].
    destruct (sp_count s =? 0); [|destruct (await_suspend _ s) as [[[[[s2 q] r] c] pu] po]]; apply last; reflexivity.
  - (* MoveAssign *)
    destruct (Nat.eqb _ o); [discriminate A|]. destruct (get (objs e) o1) as [d|]; [|discriminate A].
    destruct (get (objs e) o) as [s|]; [|discriminate A]. destruct (typed d && negb (typed s)); [discriminate A|].
    unfold sp_merge, sp_clear_internal. destruct (sp_add_all _ _). destruct (typed d); apply last; reflexivity.
Qed.

Lemma handed_pos coro e x :
  match x with
  | OAddSelf _ => o_st (snd (step coro e x)) = 0 -> existsb is_drv (held e) = false
  | _ => forallb (fun h => 0 <? h) (handed_op x (snd (step coro e x))) = true
  end.
Proof.
  unfold handed_op. destruct x; try (destruct (_ =? 0); reflexivity); cbn [step].
  1, 2, 4, 6: destruct (h <=? 0) eqn:HP; [reflexivity|]; destruct (_ =? 0); [|reflexivity]; cbn [forallb]; lia.
  1, 3: destruct (negb (forallb _ l)) eqn:FP; [reflexivity|]; apply negb_false_iff in FP; destruct (_ =? 0); [exact FP|reflexivity].
  destruct coro; [|discriminate]. destruct (existsb is_drv (held e)); [discriminate|reflexivity].
Qed.

Lemma step_drv_inv coro e x : wf_env e -> drv_inv e -> drv_inv (fst (step coro e x)).
Proof.
  intros W D. destruct (step_spec e W coro x) as [_ C _ R Q _ J]. specialize (Q D). split; [|exact Q].
  destruct D as (D1 & _). specialize (C driver). pose proof (handed_pos coro e x) as P.
  unfold drv_step_ok in R. destruct (o_st (snd (step coro e x)) =? 0) eqn:ST; [|rewrite J by lia; exact D1].
  destruct (awaits x) eqn:AW; cbn [andb] in R.
  - (* resumed once, pushed at most once *)
    destruct R as (t & R & T). rewrite R, count_z_app, T, count_driver_self in C.
    assert (handed_op x (snd (step coro e x)) = []) as HE by (unfold handed_op; destruct x; try discriminate; destruct (_ =? 0); reflexivity).
    destruct (spush_cases coro e x) as [S|S]; rewrite HE, S in C; rewrite ?count_driver_self, ?count_z_nil in C; lia.
  - rewrite (spush_nonawait _ _ _ AW), R in C.
    destruct x; try (apply count_drv_pos in P; rewrite ?count_z_nil in *; lia).
    unfold handed_op in C. rewrite ST in C. apply count_drv_existsb in P; [|lia]. rewrite count_driver_self, count_z_nil in C. lia.
Qed.

Fixpoint drv_run_ok (ops : list op) (os : list obs) : Prop :=
  match ops, os with
  | x :: t, o :: u => drv_step_ok x o /\ drv_run_ok t u
  | _, _ => True
  end.

(* in every history: each accepted await continues the awaiter exactly once (own handle in the list or not, at any
   position), no other op ever resumes it *)
Theorem awaiter_once coro ops : forall e, wf_env e -> drv_run_ok ops (fst (run_from coro e ops)).
Proof.
  induction ops as [|x ops IH]; intros e W; [exact I|]. rewrite run_from_cons.
  destruct (step_spec e W coro x) as [W1 _ _ D _ _ _]. exact (conj D (IH _ W1)).
Qed.

Lemma run_drv_inv coro ops : forall e, wf_env e -> drv_inv e -> drv_inv (snd (run_from coro e ops)).
Proof.
  induction ops as [|x ops IH]; intros e W D; [exact D|]. rewrite run_from_cons.
  exact (IH _ (ok_wf _ _ _ _ (step_spec e W coro x)) (step_drv_inv coro e x W D)).
Qed.

(* ... and it is never left behind in the ready queue (no second, spurious resume later) *)
Theorem awaiter_not_left_queued coro ops :
  let e := snd (run_from coro env0 ops) in
  ~ In driver (queue e) /\ (count_z driver (held e) <= 1)%nat.
Proof.
  cbn zeta. assert (drv_inv env0) as D0 by (split; [apply le_S, le_n|reflexivity]).
  destruct (run_drv_inv coro ops env0 wf_env0 D0) as (D1 & D2). split; [|exact D1].
  intros I. apply count_z_In in I. lia.
Qed.

Lemma obs_ok_enc o : obs_ok (encode_obs o) = (o_st o =? 0).
Proof. unfold obs_ok, encode_obs. destruct (o_st o); reflexivity. Qed.

(* the model shows, after every accepted op, exactly the value the independent account `vstep` predicts *)
Lemma run_vals coro ops : forall e vs, wf_env e -> vrel vs (objs e) ->
  vals_ok vs ops (map encode_obs (fst (run_from coro e ops))) = true.
Proof.
  induction ops as [|x ops IH]; intros e vs W R; [reflexivity|]. rewrite run_from_cons. cbn [fst map vals_ok].
  destruct (step_spec e W coro x) as [W1 _ _ _ _ V J]. specialize (V vs R).
  rewrite obs_ok_enc. destruct (o_st (snd (step coro e x)) =? 0) eqn:ST.
  - destruct (vstep vs x) as [vs1 v]. destruct V as (R1 & EV); [lia|].
    unfold obs_val, encode_obs. cbn [nth]. rewrite EV, Z.eqb_refl. exact (IH _ _ W1 R1).
  - rewrite J by lia. exact (IH _ _ W R).
Qed.

Lemma filter_not_drv_pos l : forallb (fun h => 0 <? h) l = true -> filter not_drv l = l.
Proof.
  induction l as [|x l IH]; intros H; [reflexivity|]. cbn [forallb] in H. apply andb_true_iff in H as [A B].
  cbn [filter]. unfold not_drv at 1, is_drv, driver. destruct (x =? 0) eqn:E; [lia|]. cbn [negb]. rewrite (IH B). reflexivity.
Qed.

Lemma handed_of_filter coro e x :
  handed_of x (o_st (snd (step coro e x)) =? 0) = filter not_drv (handed_op x (snd (step coro e x))).
Proof.
  pose proof (handed_pos coro e x) as P.
  destruct x; try (rewrite filter_not_drv_pos by exact P); unfold handed_of, handed_op; destruct (_ =? 0); reflexivity.
Qed.

Lemma run_handed coro ops : forall e,
  flat_map (fun p => handed_of (fst p) (obs_ok (snd p))) (combine ops (map encode_obs (fst (run_from coro e ops))))
  = filter not_drv (handed_run ops (fst (run_from coro e ops))).
Proof.
  induction ops as [|x ops IH]; intros e; [reflexivity|]. rewrite run_from_cons. cbn [fst snd map combine flat_map handed_run].
  rewrite obs_ok_enc, handed_of_filter, IH, filter_app. reflexivity.
Qed.

Lemma flat_map_res_enc os : flat_map obs_res (map encode_obs os) = resumed_run os.
Proof. induction os as [|o os IH]; cbn [map flat_map resumed_run]; [reflexivity|]. rewrite IH. reflexivity. Qed.

Lemma sum_costs_enc os :
  sumz (map obs_allocs (map encode_obs os)) = allocs_run os /\ sumz (map obs_frees (map encode_obs os)) = frees_run os.
Proof.
  induction os as [|o os (IA & IF)]; cbn [map sumz allocs_run frees_run]; [split; reflexivity|]. rewrite IA, IF. split; reflexivity.
Qed.

Lemma drv_ok_of x o : drv_step_ok x o -> drv_ok x (o_st o =? 0) (o_res o) = true.
Proof.
  unfold drv_step_ok, drv_ok. destruct ((o_st o =? 0) && awaits x).
  - intros (t & E & C). rewrite E, rev_app_distr. cbn [rev app]. unfold is_drv at 1. rewrite Z.eqb_refl. cbn [andb].
    apply forallb_not_drv_count. rewrite count_z_rev. exact C.
  - intros C. apply forallb_not_drv_count. exact C.
Qed.

Lemma run_drv_ok ops : forall os, drv_run_ok ops os -> drv_all_ok ops (map encode_obs os) = true.
Proof.
  induction ops as [|x ops IH]; intros [|o os] D; try reflexivity.
  cbn [drv_run_ok map drv_all_ok] in *. destruct D as (D1 & D2).
  rewrite obs_ok_enc. change (obs_res (encode_obs o)) with (o_res o). rewrite (drv_ok_of _ _ D1), (IH _ D2). reflexivity.
Qed.

Lemma all_none_nil {A} (l : list (option A)) : (forall i, get l i = None) -> Forall (eq None) l.
Proof.
  induction l as [|o l IH]; intros H; constructor.
  - specialize (H 0%nat). unfold get in H. cbn in H. destruct o; [discriminate|reflexivity].
  - apply IH. intros i. exact (H (S i)).
Qed.

(* closed = every object destroyed and the ready queue drained *)
Theorem oracle_sound coro ops :
  let r := run_from coro env0 (map decode ops) in
  (forall i, get (objs (snd r)) i = None) -> queue (snd r) = [] ->
  sp_oracle ops (sp_run coro ops) = true.
Proof.
  cbn zeta. intros NO QE. unfold sp_oracle, sp_run.
  set (dops := map decode ops) in *. apply all_none_nil in NO.
  assert (held (snd (run_from coro env0 dops)) = [] /\ arrs (objs (snd (run_from coro env0 dops))) = 0) as (HE & AE).
  { unfold held. rewrite QE, app_nil_r. induction NO as [|o l <- _ (IH1 & IH2)]; [split; reflexivity|].
    cbn [held_objs flat_map hso app arrs arrs_o]. split; [exact IH1|lia]. }
  pose proof (run_spec coro dops env0 wf_env0) as (_ & _ & A & L).
  pose proof (conservation_ready coro dops env0 wf_env0) as P. cbn zeta in A, L, P.
  change (held env0) with (@nil Z) in P. rewrite HE, !app_nil_r in P. rewrite AE in A. change (arrs (objs env0)) with 0 in A.
  rewrite run_handed, flat_map_res_enc, (proj1 (sum_costs_enc _)), (proj2 (sum_costs_enc _)).
  rewrite map_length, L. unfold dops at 1. rewrite map_length, Nat.eqb_refl.
  rewrite (perm_b_complete _ _ P), (run_drv_ok _ _ (awaiter_once coro dops env0 wf_env0)), (run_vals coro dops env0 [] wf_env0 vrel_nil).
  cbn [andb]. rewrite andb_true_r. lia.
Qed.

