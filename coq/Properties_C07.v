(* Properties_C07.v — C07: coroutine mutex, mutual exclusion and exactly-once grant.
   Statements only, each proved in a few lines from the lemmas of MutexProofs, MutexSched, MutexObs, MutexOwnProofs and
   MutexBareProofs.  `reachable ops s` ranges over every schedule
   of every set of contenders declared by ops: any number of coroutines and plain (blocking) threads, each
   running any number of rounds with acquisition by lock (co_await / blocking wait) or try_lock and release
   by ownership destruction, release() discarded or co_await release().
   holds s c   : c owns the mutex (from its successful CAS / the hand-over to the end of its unlock)
   waiting s c : c has published a request that was not granted yet. *)
From Cocls Require Import Base BaseProofs MutexDefs MutexProofs MutexSched MutexObs.
From Cocls Require MutexOwnDefs MutexOwnProofs MutexBareDefs MutexBareProofs.
Local Open Scope Z_scope.

(* at most one owner in every reachable state *)
Theorem c07_mutual_exclusion : forall ops s i j, reachable ops s -> holds s i -> holds s j -> i = j.
Proof. intros ops s i j R. exact (mutual_exclusion s i j (reachable_inv _ _ R)). Qed.
Print Assumptions c07_mutual_exclusion.

(* every state the executable model visits under any schedule list is reachable (so the theorems cover mutex_run) *)
Theorem c07_runs_are_reachable : forall ops fuel s sched tr,
  reachable ops s -> reachable ops (fst (run_sched fuel s sched tr)).
Proof. exact run_sched_reachable. Qed.
Print Assumptions c07_runs_are_reachable.

(* each published request is granted at most once and in order: the grant log is a prefix of the log of
   publishing CASes, the rest is exactly the set of waiting tasks (each once), and a waiting task is never an
   owner (a request is never both "found free" and handed over) *)
Theorem c07_grant_once : forall ops s, reachable ops s ->
  exists pending, alog s = glog s ++ pending /\ NoDup pending /\
    (forall w, In w pending <-> waiting s w) /\ (forall w, waiting s w -> ~ holds s w).
Proof. intros ops s R. exact (grant_once s (reachable_inv _ _ R)). Qed.
Print Assumptions c07_grant_once.

(* between the publishing CAS and the return of await_suspend the suspending thread touches neither the mutex
   nor any task: it is harmless that the coroutine is already resumed elsewhere (repair 2b1c999) *)
Theorem c07_not_while_suspending : forall s t c, run (gthr s t) = TSusp c ->
  let s' := fst (fst (tstep s t)) in
  requests s' = requests s /\ queue s' = queue s /\ next s' = next s /\ dnext s' = dnext s /\
  owner s' = owner s /\ alog s' = alog s /\ glog s' = glog s /\
  (forall x, tk (gtask s' x) = tk (gtask s x) /\ tpc (gtask s' x) = tpc (gtask s x) /\ flag (gtask s' x) = flag (gtask s x)).
Proof.
  intros s t c R. unfold tstep. rewrite R. cbn [fst].
  destruct (same_yield s t) as ((Rq & Qu & Nx & Dn & _ & Ow & _ & _ & Al & Gl & Tv) & _).
  cbn [vw v_req v_q v_next v_dn v_err v_own v_gs v_gq v_al v_gl v_tv] in *.
  repeat split; try (symmetry; assumption); specialize (Tv x); unfold tvs, tvw in Tv; inversion Tv; reflexivity.
Qed.
Print Assumptions c07_not_while_suspending.

(* the other continuations after the publishing CAS only move the publisher's own program counter *)
Theorem c07_after_publish_local : forall s t c, run (gthr s t) = TRun c ->
  (tpc (gtask s c) = PPub0 -> fst (fst (tstep s t)) = set_pc s c PBqS) /\
  (tpc (gtask s c) = PPubW -> fst (fst (tstep s t)) = set_pc s c PFlag).
Proof. intros s t c R. unfold tstep. rewrite R. split; intros ->; reflexivity. Qed.
Print Assumptions c07_after_publish_local.

(* a suspended task is a coroutine whose request is pending: it can only be resumed by a hand-over *)
Theorem c07_suspended_is_waiting : forall ops s c, reachable ops s -> tpc (gtask s c) = PParked ->
  tk (gtask s c) = KCoro /\ waiting s c.
Proof.
  intros ops s c R P. destruct (reachable_inv _ _ R) as [_ I]. pose proof (i_bad _ I c) as B.
  cbn [vw v_tv] in B. unfold tvs, tvw in B. unfold waiting. rewrite P in *.
  destruct (tk (gtask s c)); [tauto|]. destruct B. reflexivity.
Qed.
Print Assumptions c07_suspended_is_waiting.

(* the doorman never enters the owner-private queue, its _next is never written, unlock never dereferences null *)
Theorem c07_sentinel_never_queued : forall ops s, reachable ops s ->
  err s = false /\ dnext s = PNull /\ (queue s = PNull \/ exists w, queue s = PNode w /\ waiting s w).
Proof. intros ops s R. exact (sentinel_never_queued s (reachable_inv _ _ R)). Qed.
Print Assumptions c07_sentinel_never_queued.

(* thread level: a coroutine contender is in exactly one place when it can run (executing on exactly one OS
   thread, or exactly once in exactly one ready queue) and nowhere while parked or finished: it is never
   resumed concurrently with itself, never resumed twice for one grant, never queued while it runs.
   occ counts "executing on a thread" + occurrences in all ready queues. *)
Theorem c07_never_concurrent_with_itself : forall ops s c, reachable ops s -> tk (gtask s c) = KCoro ->
  occ (thrs s) c = (if live (tpc (gtask s c)) then 1 else 0)%nat /\
  (forall t t', run (gthr s t) = TRun c -> run (gthr s t') = TRun c -> t = t') /\
  (forall t t', run (gthr s t) = TRun c -> ~ In c (tq (gthr s t'))) /\
  (forall t t', In c (tq (gthr s t)) -> In c (tq (gthr s t')) -> t = t') /\
  (forall t, (count_occ Nat.eq_dec (tq (gthr s t)) c <= 1)%nat) /\
  (live (tpc (gtask s c)) = false -> forall t, run (gthr s t) <> TRun c /\ ~ In c (tq (gthr s t))).
Proof. intros ops s c R. exact (one_place s c (reachable_linv _ _ R)). Qed.
Print Assumptions c07_never_concurrent_with_itself.

(* the thread-level invariant is inductive over every step *)
Theorem c07_location_invariant_inductive : forall s t, SInv s -> LInv s -> enabled s t = true -> LInv (fst (fst (tstep s t))).
Proof. exact step_linv. Qed.
Print Assumptions c07_location_invariant_inductive.

(* observable form: the scenario's critical-section overlap detector never fires; at most one contender is inside the
   critical section, it owns the mutex and is at the cs point; a contender waiting in a ready queue is not inside *)
Theorem c07_overlap_never : forall ops s, reachable ops s ->
  ovl s = false /\
  (forall x y, incs (gtask s x) = true -> incs (gtask s y) = true -> x = y) /\
  (forall x, incs (gtask s x) = true -> holds s x /\ tpc (gtask s x) = PCs) /\
  (forall t x, In x (tq (gthr s t)) -> incs (gtask s x) = false).
Proof. intros ops s R. exact (overlap_never s (reachable_inv _ _ R) (reachable_cs _ _ R)). Qed.
Print Assumptions c07_overlap_never.

(* ownership objects (mutex.h:62-103; sequential model MutexOwnDefs: two mutexes, four ownership slots, callback-style
   waiters that store their grant into a slot from inside unlock()): after any sequence of try_lock / callback
   request / release / destruction / move assignment / move construction, at most one ownership object holds a
   mutex, and a mutex is locked exactly when one does *)
Theorem c07_ownership_unique : forall s i j m, MutexOwnProofs.wreach s ->
  MutexOwnDefs.gslot s i = Some m -> MutexOwnDefs.gslot s j = Some m -> i = j.
Proof. exact MutexOwnProofs.own_unique. Qed.
Print Assumptions c07_ownership_unique.

Theorem c07_locked_iff_owned : forall s m, MutexOwnProofs.wreach s ->
  (MutexOwnDefs.locked (MutexOwnDefs.gmx s m) = true <-> exists j, MutexOwnDefs.gslot s j = Some m).
Proof. exact MutexOwnProofs.own_locked_iff. Qed.
Print Assumptions c07_locked_iff_owned.

(* coroutines that use the mutex without an installed coro_queue (resumed by plain handle.resume(); model MutexBareDefs):
   whatever sequence of starts and gate openings, at most one coroutine is inside and it is the holder *)
Theorem c07_bare_exclusion : forall s c d, MutexBareProofs.breach s ->
  MutexBareDefs.bget s c = Some MutexBareDefs.BIn -> MutexBareDefs.bget s d = Some MutexBareDefs.BIn ->
  c = d /\ MutexBareDefs.bholder s = Some c.
Proof.
  intros s c d R A B. pose proof (MutexBareProofs.breach_inv s R) as I.
  pose proof (MutexBareProofs.in_is_holder s c I A) as Hc. pose proof (MutexBareProofs.in_is_holder s d I B) as Hd.
  split; [congruence|exact Hc].
Qed.
Print Assumptions c07_bare_exclusion.

(* non-vacuity: coroutine 0 owns the mutex, coroutine 1 has published and its thread is still inside
   await_suspend, plain thread 2 has published too *)
Example c07_nonvacuous :
  let ops := [[1;0;0;0]; [1;0;0;2]; [1;1;0;1]; [9; 0;0;1;1;1;1;2;2;2;2]]%Z in
  let s := fst (run_sched 10 (init ops) (flat_map decode_sched ops) []) in
  reachable ops s /\ holds s 0 /\ waiting s 1 /\ waiting s 2 /\ run (gthr s 1) = TSusp 1%nat /\
  requests s = PNode 2 /\ alog s = [1; 2]%nat /\ glog s = [].
Proof.
  split; [apply run_sched_reachable; apply r_init|]. vm_compute. repeat split.
Qed.
