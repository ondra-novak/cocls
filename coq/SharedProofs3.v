(* SharedProofs3.v — results: every copy observes the one result of the resolver; every awaiter picks it up exactly once
   (read off the users' clause of the invariant of SharedInv.v) *)
From Cocls Require Import Base BaseProofs SharedDefs SharedProofs SharedProofs2.
Local Open Scope nat_scope.

Definition result_of_ops (ops : list (list Z)) : outcome :=
  match mode_of ops with MPre v => OVal v | _ => payload_of (res_of ops) end.

Lemma result_of_ops_eq ops s : reachable ops s -> expd s = result_of_ops ops.
Proof.
  intros R. destruct (decl_const ops s R) as (M & K & _). unfold expd, result, result_of_ops. rewrite M, K.
  destruct (mode_of ops); reflexivity.
Qed.

Lemma seen_reachable ops s j u : reachable ops s -> nth_error (users s) j = Some u -> seen_ok (result_of_ops ops) u.
Proof.
  intros R H. rewrite <- (result_of_ops_eq ops s R). apply (us_ok s (proj1 (inv_reachable ops s R)) j u H).
Qed.

Lemma seen_one_result e u o : seen_ok e u -> useen u = Some o -> o = e \/ (ukd u = UKPoll /\ o = ONotReady).
Proof.
  unfold seen_ok. intros SK S. rewrite S in SK.
  destruct (picked (ukd u) (upcf u)); destruct SK as (_ & Q); [|discriminate].
  destruct Q as [Q|(K & Q)]; inversion Q; auto.
Qed.

(* every awaiter is resumed at most once, and exactly once with the result when it has finished *)
Theorem awaiters_once ops s j u k : reachable ops s -> nth_error (users s) j = Some u -> ukd u = UKAwait k ->
  uruns u <= 1 /\ (upcf u = UDone -> uruns u = 1 /\ useen u = Some (result_of_ops ops)) /\
  (upcf u <> UDone -> uruns u = 0 /\ useen u = None).
Proof.
  intros R H KD. pose proof (seen_reachable ops s j u R H) as SK. unfold seen_ok in SK. rewrite KD in SK.
  destruct (upcf u); cbn in SK; destruct SK as (Q1 & Q2); repeat split; try lia; try congruence; intros; try congruence.
  destruct Q2 as [Q2|(Q2 & _)]; [exact Q2|discriminate].
Qed.
