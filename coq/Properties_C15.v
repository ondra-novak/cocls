(* Properties_C15.v — C15: Signal: every waiting listener gets every value; disconnect wakes all.
   Only statements, each proved in a line or two from the lemmas of SignalProofs and SignalXProofs.
   Quantification: any state s of the model (any number of listeners and callbacks in the chain, any
   scripts, any queue contents) resp. any op sequence from the initial state; both driver modes;
   signal<T> and signal<void>. *)
From Cocls Require Import Base BaseProofs SignalXDefs SignalXProofs SignalDefs SignalProofs.
Local Open Scope Z_scope.

(* A collector call from ordinary code, or one whose suspend point is co_awaited (nothing left queued by an
   earlier discarded call): the deliveries made before the call's effects end are exactly one per listener in
   the chain at the exchange — callbacks in chain order, then the coroutines in the order the suspend point
   runs them — each with exactly the emitted value; the returned suspend point holds exactly the waiting
   coroutines; no coroutine is left "resumed but not run"; only callbacks of that chain are freed. *)
Theorem c15_broadcast : forall s kind awaited v s' o,
  step s (OEmit kind awaited v) = (s', o) -> o_st o = 0 ->
  (m_coro s = false \/ awaited = true) -> not_ready (queue s) ->
  delivs (o_ev o) = map (fun i => (i, emitted s v)) (cbs (chain s) ++ sp_order (m_coro s) (cos (chain s)))
  /\ o_ret o = zlen (cos (chain s))
  /\ not_ready (queue s')
  /\ incl (freeds (o_ev o)) (cbs (chain s)).
Proof. exact broadcast. Qed.
Print Assumptions c15_broadcast.

(* Last strong handle dropped: every callback object in the chain is freed exactly once (in chain order) and
   never called, no value is delivered, the chain is empty afterwards; from ordinary code every waiting
   coroutine logs exactly one cancel script (resumed once with await_canceled_exception, its retries are
   cancelled at once, then it returns) inside the op; in a coroutine they are queued, each once. *)
Theorem c15_disconnect : forall s s' o, strong s = 1%nat -> step s ODrop = (s', o) ->
  o_st o = 0 /\ strong s' = 0%nat /\ chain s' = [] /\
  freeds (o_ev o) = cbs (chain s) /\ delivs (o_ev o) = [] /\
  (m_coro s = false -> cancel_log (ready_items (cos (chain s))) (co_evs (o_ev o)) /\ queue s' = queue s) /\
  (m_coro s = true -> co_evs (o_ev o) = [] /\ queue s' = queue s ++ ready_items (cos (chain s))).
Proof. exact disconnect. Qed.
Print Assumptions c15_disconnect.

(* ... and the queued ones are cancelled, each once, as soon as the driver suspends *)
Theorem c15_disconnect_queued : forall s s' o, strong s = 0%nat -> m_coro s = true -> step s OPause = (s', o) ->
  cancel_log (queue s) (o_ev o) /\ queue s' = [] /\ chain s' = chain s /\ strong s' = 0%nat.
Proof. exact disconnect_queued. Qed.
Print Assumptions c15_disconnect_queued.

(* awaiting a disconnected emitter: cancelled immediately (r+1 times for r retries), never suspended:
   the coroutine is neither in the chain nor in the queue afterwards *)
Theorem c15_await_disconnected : forall s i lim p r s' o, strong s = 0%nat -> get (tab s) i = None ->
  step s (OSpawn i lim p r) = (s', o) ->
  o_st o = 0 /\ o_ev o = dead_await r i /\ chain s' = chain s /\ queue s' = queue s /\ strong s' = 0%nat.
Proof. exact await_disconnected. Qed.
Print Assumptions c15_await_disconnected.

(* connecting to a signal without state: the callback object is allocated, never called, freed at once *)
Theorem c15_connect_disconnected : forall s i lim s' o, strong s = 0%nat -> get (tab s) i = None ->
  step s (OConnect i lim) = (s', o) ->
  o_ev o = [EFree i] /\ o_new o = 1 /\ o_del o = 1 /\ chain s' = chain s /\ queue s' = queue s.
Proof. exact connect_disconnected. Qed.
Print Assumptions c15_connect_disconnected.

(* for every op sequence: operator new - operator delete = callback objects subscribed in the chain;
   once the state is gone the chain stays empty, so nothing leaks and nothing is freed twice *)
Theorem c15_callback_alloc_balance : forall coro vd ops,
  let r := run_from (st0 coro vd) ops in
  sum_new (fst r) - sum_del (fst r) = ncb (snd r) /\
  (strong (snd r) = 0%nat -> sum_new (fst r) = sum_del (fst r) /\ chain (snd r) = []).
Proof.
  intros coro vd ops r. destruct (alloc_balance (st0 coro vd) ops) as (B & OK); [intros H; discriminate|]. fold r in B, OK.
  change (ncb (st0 coro vd)) with 0 in B. split; [lia|]. intros S0. specialize (OK S0).
  unfold ncb in B. rewrite OK in B. cbn in B. split; [lia|exact OK].
Qed.
Print Assumptions c15_callback_alloc_balance.

(* A listener that does nothing but re-await: resumed with a value it logs exactly that value and is back at the
   head of the chain before its resumption ends — before the collector (or anything else) can run again — with
   unchanged script; together with c15_broadcast (everybody in the chain gets the value) this is why it misses none. *)
Theorem c15_reawait_rejoins : forall s g v, await_resume s = Some v ->
  l_limit (getl s g) = O -> l_pause (getl s g) = false ->
  exists s', co_resumed g s = (s', [ERecv g v; EAwait g], false) /\
     chain s' = (g, false) :: chain s /\ queue s' = queue s /\ same_val s s' /\
     l_limit (getl s' g) = O /\ l_pause (getl s' g) = false /\
     (forall inl, run_item inl (g, true) s = (s', [ERecv g v; EAwait g])).
Proof. exact reawait_rejoins. Qed.
Print Assumptions c15_reawait_rejoins.

(* Run level.  A listener g whose script is `for(;;) co_await e;`, subscribed while the state is alive, and a driver that
   never discards the collector's result inside a coroutine nor keeps it in a variable (ordinary code, or co_await of the result): for EVERY op
   sequence that follows (any other listeners/callbacks with any scripts arriving and leaving, handle copies and drops,
   pauses), every accepted collector call delivers its value to g inside that very op: g misses none. *)
Theorem c15_reawait_misses_none : forall g s r ops,
  alive s = true -> not_ready (queue s) -> held s = [] -> get (tab s) g = None ->
  Forall (disc_op (m_coro s)) ops ->
  none_missed g (fst (step s (OSpawn g 0 false r))) ops.
Proof.
  intros g s r ops A N HN G D. destruct (step s (OSpawn g 0 false r)) as [s1 o] eqn:E.
  exact (reawait_run g (m_coro s) ops s1 (proj1 (spawn_reawait_inv g s r s1 o A N HN G E)) D).
Qed.
Print Assumptions c15_reawait_misses_none.

(* Run level: for every op sequence from the initial state (any ops, also discarded results, kept suspend points,
   hook-up), no listener id occurs twice among the chain, the ready queue and the kept suspend points — a listener is
   never subscribed / queued / held twice. *)
Theorem c15_unique_ids : forall coro vd ops, NoDup (ids (snd (run_from (st0 coro vd) ops))).
Proof. intros coro vd ops. exact (proj1 (run_from_inv uniq step0_uniq ops _ (uniq_st0 coro vd))). Qed.
Print Assumptions c15_unique_ids.

(* ... hence exactly once at run level: after ANY op sequence, a collector call from ordinary code or an awaited one
   (nothing pending) delivers without repetition, exactly to the listeners in the chain, exactly the emitted value. *)
Theorem c15_exactly_once : forall coro vd ops kind awaited v,
  let s := snd (run_from (st0 coro vd) ops) in
  let r := step s (OEmit kind awaited v) in
  o_st (snd r) = 0 -> (m_coro s = false \/ awaited = true) -> not_ready (queue s) ->
  NoDup (delivs (o_ev (snd r))) /\
  (forall i w, In (i, w) (delivs (o_ev (snd r))) <-> In i (cids (chain s)) /\ w = emitted s v).
Proof.
  intros coro vd ops kind awaited v. apply exactly_once_at. exact (proj1 (run_from_inv uniq step0_uniq ops _ (uniq_st0 coro vd))).
Qed.
Print Assumptions c15_exactly_once.

(* A suspend point kept in a variable and destroyed with nothing in between behaves exactly like a discarded one. *)
Theorem c15_hold_release : forall s kind v s1 o1 s2 o2 s' o,
  held s = [] ->
  step s (OEmitHold kind v) = (s1, o1) -> o_st o1 = 0 -> step s1 ORelease = (s2, o2) ->
  step s (OEmit kind false v) = (s', o) ->
  s2 = s' /\ o_st o = 0 /\ o_ev o1 ++ o_ev o2 = o_ev o /\ o_ret o1 = o_ret o.
Proof. exact hold_release. Qed.
Print Assumptions c15_hold_release.

(* hook_up_emitter: a listener hooked up from ordinary code with script `for(;;) co_await e;` receives, inside the hook-up
   itself, every value the registration function emits through the collector it was handed — the coroutine is subscribed
   before the registration function runs. *)
Theorem c15_hook_up_receives : forall vd g r keep k s' o,
  step (st0 false vd) (OHookUp g 0 false r keep k) = (s', o) ->
  forall j, (1 <= j <= k)%nat -> In (g, if vd then 0 else 900 + Z.of_nat j) (delivs (o_ev o)).
Proof.
  intros vd g r keep k s' o. exact (hook_up_receives_at (st0 false vd) g r keep k s' o eq_refl eq_refl not_ready_nil eq_refl (get_tab0 _ _ _)).
Qed.
Print Assumptions c15_hook_up_receives.

(* Subscribers on other threads against the collector's exchanges, every schedule, any number of subscribers and
   exchanges, every CAS attempt its own step: the rounds the collector took plus the chain contain exactly the
   subscribers whose CAS succeeded, each exactly once (never lost, never doubled); so a subscriber that published
   before an exchange is in that round or an earlier one, and one that publishes after it is in the chain for the next. *)
Theorem c15_concurrent_subscribe : forall ids k sched, NoDup ids ->
  let c := cs_run (cs0 ids k) sched in
  Permutation (concat (c_rounds c) ++ c_head c) (published c) /\
  NoDup (concat (c_rounds c) ++ c_head c) /\
  incl (published c) ids /\
  (forall x, In x ids -> ~ In x (published c) -> ~ In x (concat (c_rounds c) ++ c_head c)).
Proof.
  intros ids k sched ND. pose proof (subscribe_rounds (cs0 ids k) sched (cs0_inv ids k)) as H. rewrite cs0_sids in H.
  destruct (H ND) as (P & N & I). exact (conj P (conj N (conj I (fun x _ NI J => NI (Permutation_in _ P J))))).
Qed.
Print Assumptions c15_concurrent_subscribe.

(* lock-freedom of the subscribe loop in the model: an unpublished subscriber that takes two steps in a row publishes *)
Theorem c15_subscribe_two_attempts : forall c j x, nth_error (c_subs c) j = Some x -> spub x = false ->
  exists y, nth_error (c_subs (cs_thread (cs_thread c j) j)) j = Some y /\ spub y = true /\ sid y = sid x.
Proof. exact cs_two_attempts. Qed.
Print Assumptions c15_subscribe_two_attempts.

(* The cross-thread model that the controlled-schedule harness (harness/ctl_signal.cpp) follows step by step — subscribers
   of all kinds (coroutine, blocking .wait() on a future coroutine, connect(callback), detached async) on their own threads,
   one collector thread calling and dropping, the state's destructor running on whichever thread releases the last
   reference, yields at asub/apub/rchain/walk/flag wait: for every case, every schedule, any length, every listener id is
   at every moment in exactly one place — before its CAS, in the chain, held by a thread walking a taken chain, or
   finished (resumed once / freed once / future resolved once): never lost, never doubled. *)
Theorem c15_cross_thread_conservation : forall ops fuel sched,
  let thr := flat_map decode_thr ops in
  let s := fst (xrun fuel (x_init thr) sched) in
  (forall x, SignalXProofs.cnt x (all_ids s) = SignalXProofs.cnt x (subs_from thr O)) /\ NoDup (all_ids s).
Proof. intros ops fuel sched. exact (x_conservation _ fuel sched (decode_init ops)). Qed.
Print Assumptions c15_cross_thread_conservation.

(* ... and when every thread has finished, every subscriber is either still subscribed or finished exactly once *)
Theorem c15_cross_thread_terminal : forall ops fuel sched,
  let thr := flat_map decode_thr ops in
  let s := fst (xrun fuel (x_init thr) sched) in
  Forall (fun p => p = XDone) (x_pcs s) ->
  forall x, In x (subs_from thr O) ->
  SignalXProofs.cnt x (map fst (x_chain s) ++ flat_map ev_fin (x_ev s) ++ map fst (x_resolved s)) = 1%nat.
Proof. intros ops fuel sched. exact (x_terminal _ fuel sched (decode_init ops)). Qed.
Print Assumptions c15_cross_thread_terminal.

(* The statement of C15 does NOT hold for a collector called inside a coroutine whose result is discarded and
   that is called again before the coroutine suspends (finding F-C15): listener 1 waits when 1 and is in the
   chain when 1 is emitted, yet the only value it ever receives is 3; the trace oracle rejects the run. *)
Theorem c15_discard_overrun_refuted :
  let ops := [OSpawn 1 0 false 0; OEmit 0 false 1; OEmit 0 false 2; OEmit 0 true 3; OPause] in
  let r := run_from (st0 true false) ops in
  cos (chain (snd (run_from (st0 true false) [OSpawn 1 0 false 0]))) = [1%nat] /\
  delivs (flat_map o_ev (fst r)) = [(1%nat, 3)] /\
  sg_oracle true false false [[0;1;0;0;0];[2;0;0;1];[2;0;0;2];[2;0;1;3];[5]]
            (sg_run true false [[0;1;0;0;0];[2;0;0;1];[2;0;0;2];[2;0;1;3];[5]]) = false.
Proof. vm_compute. repeat split. Qed.
Print Assumptions c15_discard_overrun_refuted.

(* non-vacuity: a reachable state with two callbacks and three coroutines in the chain meets the hypotheses of
   c15_broadcast (awaited call inside a coroutine), and a reachable state meets those of c15_disconnect *)
Example c15_nonvacuous :
  let s := snd (run_from (st0 true false)
             [OSpawn 1 0 false 0; OConnect 2 0; OSpawn 3 2 true 1; OConnect 4 1; OSpawn 5 0 false 0; OEmit 2 true 7]) in
  not_ready (queue s) /\ chain s = [(5%nat, false); (1%nat, false); (2%nat, true)] /\ queue s = [(3%nat, false)] /\
  o_st (snd (step s (OEmit 0 true 8))) = 0 /\
  delivs (o_ev (snd (step s (OEmit 0 true 8)))) = [(2%nat, 8); (1%nat, 8); (5%nat, 8)] /\
  strong s = 1%nat /\ freeds (o_ev (snd (step s ODrop))) = [2%nat].
Proof. vm_compute. repeat split; try reflexivity. intros it [H|[]]. subst it. reflexivity. Qed.

(* hook_up_emitter (first op of a case): with the collector kept, listener 1 is subscribed to a state whose only handle is
   the driver's and receives what is emitted; with the collector dropped the state dies inside the first await and the
   listener is cancelled (at once from ordinary code, at the driver's next suspension in a coroutine) *)
Example c15_hook_up :
  flat_map o_ev (fst (run_from (st0 false false) [OHookUp 1 0 false 1 true 0; OEmit 0 false 5; ODrop]))
    = [EAwait 1; ERecv 1 5; EAwait 1; ECancel 1 1; EAwait 1; ECancel 1 0; EFin 1] /\
  flat_map o_ev (fst (run_from (st0 false false) [OHookUp 1 0 false 0 false 0])) = [EAwait 1; ECancel 1 0; EFin 1] /\
  map o_ev (fst (run_from (st0 true false) [OHookUp 1 0 false 0 false 0; OPause])) = [[EAwait 1]; [ECancel 1 0; EFin 1]].
Proof. vm_compute. repeat split. Qed.

(* non-vacuity of c15_reawait_misses_none: the initial state meets its hypotheses (both driver modes) *)
Example c15_reawait_nonvacuous : forall coro vd,
  alive (st0 coro vd) = true /\ not_ready (queue (st0 coro vd)) /\ held (st0 coro vd) = [] /\ get (tab (st0 coro vd)) 7 = None /\
  Forall (disc_op (m_coro (st0 coro vd))) [OSpawn 2 1 true 0; OConnect 3 2; OEmit 0 coro 5; OEmit 2 coro 6; OCopy; ODrop; OEmit 1 coro 8].
Proof.
  intros coro vd. split; [reflexivity|]. split; [intros ? []|]. split; [reflexivity|]. split; [reflexivity|].
  destruct coro; (repeat (apply Forall_cons; [cbn; auto|])); apply Forall_nil.
Qed.
