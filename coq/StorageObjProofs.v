(* StorageObjProofs.v — invariants of the object-level storage model (StorageObjDefs.v), for every history of
   new / create / finish / move-assign / move-construct / drop over any number of storage objects:
   every live frame sits in memory that is still allocated (or in the area reserved for its object) and that is large enough
   for the frame and the policy's trailer, and nothing is ever deleted that is not a live block. *)
From Cocls Require Import Base BaseProofs StorageDefs StorageProofs StorageObjDefs.
Require Import ZifyBool.
Local Open Scope Z_scope.

Lemma aget_adel {A} (l : list (nat * A)) i k : aget (adel l i) k = if Nat.eqb k i then None else aget l k.
Proof.
  induction l as [|[k' x] l IH]; cbn [adel aget]; [destruct (Nat.eqb k i); reflexivity|].
  destruct (Nat.eqb_spec i k') as [E|E]; cbn [aget]; rewrite IH; destruct (Nat.eqb_spec k i), (Nat.eqb_spec k k'); congruence.
Qed.
Lemma aget_adel_Some {A} (l : list (nat * A)) i k x : aget (adel l i) k = Some x -> k <> i /\ aget l k = Some x.
Proof. rewrite aget_adel. destruct (Nat.eqb_spec k i); [discriminate|auto]. Qed.
Lemma aget_adel_other {A} (l : list (nat * A)) i k : k <> i -> aget (adel l i) k = aget l k.
Proof. intros N. rewrite aget_adel. destruct (Nat.eqb_spec k i); [contradiction|reflexivity]. Qed.
Lemma aget_aput {A} (l : list (nat * A)) i x k : aget (aput l i x) k = if Nat.eqb k i then Some x else aget l k.
Proof.
  unfold aput. cbn [aget]. destruct (Nat.eqb_spec k i) as [E|E]; [reflexivity|]. apply aget_adel_other. exact E.
Qed.
Lemma aget_cons {A} (l : list (nat * A)) i x k : aget ((i, x) :: l) k = if Nat.eqb k i then Some x else aget l k.
Proof. reflexivity. Qed.
Lemma aget_In {A} (l : list (nat * A)) i x : aget l i = Some x -> In (i, x) l.
Proof.
  induction l as [|[k y] l IH]; cbn [aget]; [discriminate|].
  destruct (Nat.eqb_spec i k) as [E|E]; intros H; [inversion H; subst; left; reflexivity|right; exact (IH H)].
Qed.
Lemma uses_false j l slot f : uses j l = false -> aget l slot = Some f -> of_obj f <> j.
Proof.
  intros U G. apply aget_In in G. induction l as [|[k g] l IH]; [contradiction|].
  cbn [uses] in U. apply orb_false_iff in U. destruct U as [U1 U2]. destruct G as [G|G].
  - inversion G; subst. apply Nat.eqb_neq in U1. congruence.
  - exact (IH U2 G).
Qed.

Lemma run2_inv stk (P : ost2 -> Prop) : (forall s o, P s -> P (fst (step2 stk s o))) ->
  forall l s, P s -> P (snd (run2 stk s l)).
Proof.
  intros ST. induction l as [|o l IH]; intros s H; cbn [run2]; [exact H|].
  specialize (ST s o H). destruct (step2 stk s o) as [s1 ob]. cbn [fst] in ST. specialize (IH _ ST). destruct (run2 stk s1 l) as [obs s2]. exact IH.
Qed.

(* what the theorems say about one live frame *)
Definition frame_valid (stk : bool) (s : ost2) (f : ofr) : Prop :=
  0 < of_sz f /\ of_sz f + (if stk then 1 else 0) <= of_room f /\
  match of_blk f with
  | BHeap b => In (b, of_room f) (h_live (o2_hp s))
  | BOwn a => stk = true /\ exists ob, aget (o2_objs s) (of_obj f) = Some ob /\ ob_area ob = a /\ ob_asz ob = of_room f
  | BNull => False
  end.

(* stack_storage objects sharing one learned-size state *)
Record StkInv (s : ost2) : Prop := {
  js_heap : heap_ok (o2_hp s);
  js_fr : forall slot f, aget (o2_frs s) slot = Some f ->
          0 < of_sz f /\
          if of_del f then exists b, of_blk f = BHeap b /\ In (b, of_room f) (h_live (o2_hp s)) /\ of_sz f + 1 <= of_room f
          else exists ob, aget (o2_objs s) (of_obj f) = Some ob /\ of_blk f = BOwn (ob_area ob) /\ of_room f = ob_asz ob /\
                          of_sz f + 1 <= ob_asz ob;
  js_dist : forall s1 s2 f1 f2, aget (o2_frs s) s1 = Some f1 -> aget (o2_frs s) s2 = Some f2 ->
            of_del f1 = true -> of_del f2 = true -> of_blk f1 = of_blk f2 -> s1 = s2
}.

Lemma StkInv_step s o : StkInv s -> StkInv (fst (step2 true s o)).
Proof.
  intros [H F D]. unfold step2. destruct (ok2 true s o) eqn:OK; [|cbn [fst]; constructor; assumption].
  destruct o as [a|j|slot j sz|slot|j i|j i|j|]; cbn [ok2 negb andb] in OK; try discriminate; cbn [exec2].
  - (* Init *) cbn [fst]. constructor; cbn [o2_hp o2_frs o2_objs]; assumption.
  - (* New *)
    apply andb_prop in OK. destruct OK as [_ OK]. destruct (aget (o2_objs s) j) eqn:GJ; [discriminate|].
    cbn [fst]. constructor; cbn [o2_hp o2_frs o2_objs]; try assumption.
    intros slot f G. destruct (F _ _ G) as [P R]. split; [exact P|]. destruct (of_del f); [exact R|].
    destruct R as (ob & G1 & R). exists ob. split; [|exact R]. rewrite aget_aput.
    destruct (Nat.eqb_spec (of_obj f) j) as [E|E]; [congruence|exact G1].
  - (* Create *)
    repeat (apply andb_prop in OK; destruct OK as [OK ?]).
    destruct (aget (o2_frs s) slot) eqn:GS; [discriminate|].
    destruct (aget (o2_objs s) j) as [ob|] eqn:GJ; [|discriminate].
    destruct (sz + 1 <=? ob_asz ob) eqn:FIT.
    + cbn [fst]. constructor; cbn [o2_hp o2_frs o2_objs]; try assumption.
      * intros k f. rewrite aget_cons. destruct (Nat.eqb_spec k slot) as [E|E]; [|apply F].
        intros X. inversion X; subst. cbn [of_sz of_del of_obj of_blk of_room]. split; [lia|]. exists ob. repeat split; auto. lia.
      * intros s1 s2 f1 f2. rewrite !aget_cons.
        destruct (Nat.eqb_spec s1 slot); destruct (Nat.eqb_spec s2 slot); intros G1 G2 D1 D2 E; try congruence.
        -- inversion G1; subst. discriminate.
        -- inversion G2; subst. discriminate.
        -- exact (D _ _ _ _ G1 G2 D1 D2 E).
    + unfold hnew. cbn [fst]. constructor; cbn [o2_hp o2_frs o2_objs].
      * exact (hnew_ok (o2_hp s) (sz + 1) H).
      * intros k f. rewrite aget_cons. destruct (Nat.eqb_spec k slot) as [E|E].
        -- intros X. inversion X; subst. cbn [of_sz of_del of_obj of_blk of_room h_live]. split; [lia|].
           exists (h_next (o2_hp s)). repeat split; [apply in_eq|lia].
        -- intros G. destruct (F _ _ G) as [P R]. split; [exact P|]. destruct (of_del f); [|exact R].
           destruct R as (b & E1 & I & L). exists b. repeat split; auto. cbn [h_live]. right. exact I.
      * intros s1 s2 f1 f2. rewrite !aget_cons.
        destruct (Nat.eqb_spec s1 slot); destruct (Nat.eqb_spec s2 slot); intros G1 G2 D1 D2 E; try congruence.
        -- inversion G1; subst. cbn [of_blk] in E. destruct (F _ _ G2) as [_ R]. rewrite D2 in R.
           destruct R as (b & E1 & I & _). rewrite E1 in E. inversion E; subst. pose proof (hk_lt _ H _ _ I). lia.
        -- inversion G2; subst. cbn [of_blk] in E. destruct (F _ _ G1) as [_ R]. rewrite D1 in R.
           destruct R as (b & E1 & I & _). rewrite E1 in E. inversion E; subst. pose proof (hk_lt _ H _ _ I). lia.
        -- exact (D _ _ _ _ G1 G2 D1 D2 E).
  - (* Finish *)
    destruct (aget (o2_frs s) slot) as [f|] eqn:GS; [|discriminate].
    destruct (F _ _ GS) as [P R].
    destruct (of_del f) eqn:DF.
    + destruct R as (b & E1 & I & L). rewrite E1. cbn [hdel_blk fst].
      constructor; cbn [o2_hp o2_frs o2_objs].
      * exact (hdel_ok _ _ _ H I).
      * intros k g G. apply aget_adel_Some in G. destruct G as [E G]. destruct (F _ _ G) as [P' R']. split; [exact P'|].
        destruct (of_del g) eqn:DG; [|exact R']. destruct R' as (b' & E2 & I' & L'). exists b'. repeat split; auto.
        rewrite (hdel_live _ _ _ I). apply hrem_In; [exact I'|]. intros X. subst b'. apply E. apply (D k slot g f G GS DG DF). congruence.
      * intros s1 s2 f1 f2 G1 G2. exact (D _ _ _ _ (proj2 (aget_adel_Some _ _ _ _ G1)) (proj2 (aget_adel_Some _ _ _ _ G2))).
    + cbn [fst]. constructor; cbn [o2_hp o2_frs o2_objs]; try assumption.
      * intros k g G. apply aget_adel_Some in G. destruct G as [E G]. exact (F _ _ G).
      * intros s1 s2 f1 f2 G1 G2. exact (D _ _ _ _ (proj2 (aget_adel_Some _ _ _ _ G1)) (proj2 (aget_adel_Some _ _ _ _ G2))).
  - (* Drop *)
    apply andb_prop in OK. destruct OK as [OK U]. apply negb_true_iff in U.
    destruct (aget (o2_objs s) j) as [ob|] eqn:GJ; [|discriminate].
    cbn [fst]. constructor; cbn [o2_hp o2_frs o2_objs]; try assumption.
    intros slot f G. destruct (F _ _ G) as [P R]. split; [exact P|]. destruct (of_del f); [exact R|].
    destruct R as (ob' & G1 & R). exists ob'. split; [|exact R].
    rewrite aget_adel_other; [exact G1|]. exact (uses_false _ _ _ _ U G).
Qed.

Lemma JS0 : StkInv s2_0.
Proof. constructor; cbn; [exact heap0_ok|intros ? ? X; discriminate|intros ? ? ? ? X; discriminate]. Qed.

Lemma stk_valid l slot f : aget (o2_frs (snd (run2 true s2_0 l))) slot = Some f ->
  frame_valid true (snd (run2 true s2_0 l)) f /\ h_bad (o2_hp (snd (run2 true s2_0 l))) = 0.
Proof.
  intros G. destruct (run2_inv true StkInv StkInv_step l s2_0 JS0) as [H F D]. split; [|exact (hk_bad _ H)].
  destruct (F _ _ G) as [P R]. unfold frame_valid. split; [exact P|].
  destruct (of_del f).
  - destruct R as (b & E & I & L). rewrite E. split; [lia|exact I].
  - destruct R as (ob & G1 & E & RM & L). rewrite E. split; [lia|]. split; [reflexivity|]. exists ob. auto.
Qed.

(* reusable_storage objects that are moved around *)
Definition obj_ok (h : heap) (ob : obj) : Prop :=
  0 <= ob_cap ob /\ match ob_ptr ob with Some b => In (b, ob_cap ob) (h_live h) | None => ob_cap ob = 0 end.
Definition objs_ok (h : heap) (objs : list (nat * obj)) : Prop :=
  (forall j ob, aget objs j = Some ob -> obj_ok h ob) /\
  (forall j1 j2 o1 o2 b, aget objs j1 = Some o1 -> aget objs j2 = Some o2 -> ob_ptr o1 = Some b -> ob_ptr o2 = Some b -> j1 = j2).
Definition fr_ok (objs : list (nat * obj)) (f : ofr) : Prop :=
  of_del f = false /\ 0 < of_sz f /\
  exists ob, aget objs (of_obj f) = Some ob /\ of_blk f = optblk (ob_ptr ob) /\ of_room f = ob_cap ob /\ of_sz f <= ob_cap ob.

Record ReuInv (s : ost2) : Prop := {
  jr_heap : heap_ok (o2_hp s);
  jr_objs : objs_ok (o2_hp s) (o2_objs s);
  jr_fr : forall slot f, aget (o2_frs s) slot = Some f -> fr_ok (o2_objs s) f
}.

Lemma obj_live h objs k ok b : objs_ok h objs -> aget objs k = Some ok -> ob_ptr ok = Some b -> In (b, ob_cap ok) (h_live h).
Proof. intros [O _] GK EK. destruct (O _ _ GK) as [_ PK]. rewrite EK in PK. exact PK. Qed.

Lemma objs_ok_aput h h1 objs j y : objs_ok h objs -> obj_ok h1 y ->
  (forall k ok b, k <> j -> aget objs k = Some ok -> ob_ptr ok = Some b -> In (b, ob_cap ok) (h_live h1) /\ ob_ptr y <> Some b) ->
  objs_ok h1 (aput objs j y).
Proof.
  intros [O D] Y SV. split.
  - intros k ok. rewrite aget_aput. destruct (Nat.eqb_spec k j) as [E|E]; [intros X; inversion X; subst; exact Y|].
    intros GK. destruct (O _ _ GK) as [C PK]. split; [exact C|].
    destruct (ob_ptr ok) as [b|] eqn:EK; [exact (proj1 (SV _ _ _ E GK EK))|exact PK].
  - intros j1 j2 o1 o2 b. rewrite !aget_aput.
    destruct (Nat.eqb_spec j1 j) as [E1|E1], (Nat.eqb_spec j2 j) as [E2|E2]; intros G1 G2 P1 P2; try congruence.
    + inversion G1; subst. destruct (proj2 (SV _ _ _ E2 G2 P2) P1).
    + inversion G2; subst. destruct (proj2 (SV _ _ _ E1 G1 P1) P2).
    + exact (D _ _ _ _ _ G1 G2 P1 P2).
Qed.

Lemma objs_ok_adel h h1 objs j : objs_ok h objs ->
  (forall k ok b, k <> j -> aget objs k = Some ok -> ob_ptr ok = Some b -> In (b, ob_cap ok) (h_live h1)) ->
  objs_ok h1 (adel objs j).
Proof.
  intros [O D] SV. split.
  - intros k ok GK. apply aget_adel_Some in GK. destruct GK as [E GK]. destruct (O _ _ GK) as [C PK]. split; [exact C|].
    destruct (ob_ptr ok) as [b|] eqn:EK; [exact (SV _ _ _ E GK EK)|exact PK].
  - intros j1 j2 o1 o2 b G1 G2. exact (D _ _ _ _ _ (proj2 (aget_adel_Some _ _ _ _ G1)) (proj2 (aget_adel_Some _ _ _ _ G2))).
Qed.

Lemma objs_ok_ext h l l' : (forall k, aget l k = aget l' k) -> objs_ok h l -> objs_ok h l'.
Proof. intros E [O D]. split; intros *; rewrite <- !E; [apply O|apply D]. Qed.

Lemma fr_ok_keep objs objs' f : aget objs' (of_obj f) = aget objs (of_obj f) -> fr_ok objs f -> fr_ok objs' f.
Proof. intros E (A & B & ob & G & R). rewrite <- E in G. exact (conj A (conj B (ex_intro _ ob (conj G R)))). Qed.

(* deleting the block of object j leaves the blocks of all other objects alone *)
Lemma others_survive s j oj : ReuInv s -> aget (o2_objs s) j = Some oj ->
  heap_ok (hdel_opt (o2_hp s) (ob_ptr oj)) /\ h_next (hdel_opt (o2_hp s) (ob_ptr oj)) = h_next (o2_hp s) /\
  forall k ok b, k <> j -> aget (o2_objs s) k = Some ok -> ob_ptr ok = Some b ->
    In (b, ob_cap ok) (h_live (hdel_opt (o2_hp s) (ob_ptr oj))).
Proof.
  intros [H OK F] GJ. pose proof OK as [O D]. destruct (O _ _ GJ) as [_ PJ].
  destruct (hdel_opt_ok (o2_hp s) (ob_ptr oj) (ob_cap oj) H) as (H1 & H2 & _ & H4).
  { intros b E. rewrite E in PJ. exact PJ. }
  refine (conj H1 (conj H2 _)). intros k ok b N GK EK.
  apply H4; [exact (obj_live _ _ _ _ _ OK GK EK)|]. intros EJ. apply N. exact (D _ _ _ _ _ GK GJ EK EJ).
Qed.

(* move assignment and move construction: i hands its block to j and is left empty *)
Lemma ReuInv_move s h1 j i oi :
  ReuInv s -> j <> i -> aget (o2_objs s) i = Some oi ->
  (forall slot f, aget (o2_frs s) slot = Some f -> of_obj f <> i) ->
  (forall slot f, aget (o2_frs s) slot = Some f -> of_obj f <> j) ->
  heap_ok h1 ->
  (forall k ok b, k <> j -> aget (o2_objs s) k = Some ok -> ob_ptr ok = Some b -> In (b, ob_cap ok) (h_live h1)) ->
  ReuInv (mkS2 h1 (o2_state s) (aput (aput (o2_objs s) j (mkObj (ob_ptr oi) (ob_cap oi) 0 0)) i (mkObj None 0 0 0))
           (o2_frs s) (o2_areas s)).
Proof.
  intros [H OK F] NE GI UI UJ H1 SV. pose proof OK as [O D]. constructor; cbn [o2_hp o2_frs o2_objs]; [exact H1| |].
  - (* as a table: i is emptied first, which changes nothing in the heap; then j receives what i owned *)
    apply (objs_ok_ext h1 (aput (aput (o2_objs s) i (mkObj None 0 0 0)) j (mkObj (ob_ptr oi) (ob_cap oi) 0 0))).
    { intros k. rewrite !aget_aput. destruct (Nat.eqb_spec k j), (Nat.eqb_spec k i); congruence. }
    apply (objs_ok_aput (o2_hp s)).
    + apply (objs_ok_aput (o2_hp s)); [exact OK|split; [cbn; lia|reflexivity]|].
      intros k ok b _ GK EK. split; [exact (obj_live _ _ _ _ _ OK GK EK)|discriminate].
    + destruct (O _ _ GI) as [C PI]. split; [exact C|]. cbn [ob_ptr ob_cap].
      destruct (ob_ptr oi) as [b|] eqn:EI; [exact (SV i oi b (not_eq_sym NE) GI EI)|exact PI].
    + intros k ok b N. rewrite aget_aput. destruct (Nat.eqb_spec k i) as [E|E]; [intros X; inversion X; subst; discriminate|].
      intros GK EK. split; [exact (SV _ _ _ N GK EK)|]. cbn [ob_ptr]. intros EI. apply E. exact (D _ _ _ _ _ GK GI EK EI).
  - intros slot f G. apply (fr_ok_keep (o2_objs s)); [|exact (F _ _ G)]. rewrite !aget_aput.
    destruct (Nat.eqb_spec (of_obj f) i) as [X|X]; [destruct (UI _ _ G X)|].
    destruct (Nat.eqb_spec (of_obj f) j) as [Y|Y]; [destruct (UJ _ _ G Y)|reflexivity].
Qed.

Lemma ReuInv_step s o : ReuInv s -> ReuInv (fst (step2 false s o)).
Proof.
  intros J. pose proof J as [H OKs F]. unfold step2. destruct (ok2 false s o) eqn:OK; [|cbn [fst]; exact J].
  destruct o as [a|j|slot j sz|slot|j i|j i|j|]; cbn [ok2 negb andb] in OK; try discriminate; cbn [exec2].
  - cbn [fst]. constructor; cbn [o2_hp o2_frs o2_objs]; assumption.
  - (* New *)
    apply andb_prop in OK. destruct OK as [_ OK]. destruct (aget (o2_objs s) j) eqn:GJ; [discriminate|].
    cbn [fst]. constructor; cbn [o2_hp o2_frs o2_objs]; [exact H| |].
    + apply (objs_ok_aput (o2_hp s)); [exact OKs|split; [cbn; lia|reflexivity]|].
      intros k ok b _ GK EK. split; [exact (obj_live _ _ _ _ _ OKs GK EK)|discriminate].
    + intros slot f G. apply (fr_ok_keep (o2_objs s)); [|exact (F _ _ G)]. destruct (F _ _ G) as (_ & _ & ob & G1 & _).
      rewrite aget_aput. destruct (Nat.eqb_spec (of_obj f) j); [congruence|reflexivity].
  - (* Create *)
    repeat (apply andb_prop in OK; destruct OK as [OK ?]).
    destruct (aget (o2_frs s) slot) eqn:GS; [discriminate|].
    destruct (aget (o2_objs s) j) as [ob|] eqn:GJ; [|discriminate].
    match goal with U : negb (uses j (o2_frs s)) = true |- _ => apply negb_true_iff in U; rename U into UJ end.
    destruct (sz >? ob_cap ob) eqn:GR.
    + destruct (others_survive s j ob J GJ) as (HH & NN & SV).
      unfold hnew. rewrite NN. cbn [fst]. constructor; cbn [o2_hp o2_frs o2_objs].
      * pose proof (hnew_ok _ sz HH) as X. unfold hnew in X. cbn [fst] in X. rewrite NN in X. exact X.
      * apply (objs_ok_aput (o2_hp s)); [exact OKs|split; [cbn; lia|apply in_eq]|].
        intros k ok b N GK EK. split; [right; exact (SV _ _ _ N GK EK)|]. cbn [ob_ptr]. intros X. inversion X; subst.
        pose proof (hk_lt _ H _ _ (obj_live _ _ _ _ _ OKs GK EK)). lia.
      * intros k f. rewrite aget_cons. destruct (Nat.eqb_spec k slot) as [E|E].
        -- intros X. inversion X; subst. split; [reflexivity|split; [cbn; lia|]]. cbn [of_obj of_blk of_room of_sz].
           eexists. rewrite aget_aput, Nat.eqb_refl. split; [reflexivity|]. cbn [ob_ptr ob_cap optblk]. repeat split; lia.
        -- intros G. apply (fr_ok_keep (o2_objs s)); [|exact (F _ _ G)]. rewrite aget_aput.
           destruct (Nat.eqb_spec (of_obj f) j) as [X|X]; [destruct (uses_false _ _ _ _ UJ G X)|reflexivity].
    + cbn [fst]. constructor; cbn [o2_hp o2_frs o2_objs]; try assumption.
      intros k f. rewrite aget_cons. destruct (Nat.eqb_spec k slot) as [E|E]; [|apply F].
      intros X. inversion X; subst. split; [reflexivity|split; [cbn; lia|]]. cbn [of_obj of_blk of_room of_sz].
      exists ob. repeat split; auto. lia.
  - (* Finish *)
    destruct (aget (o2_frs s) slot) as [f|] eqn:GS; [|discriminate].
    destruct (F _ _ GS) as (A & _). rewrite A. cbn [fst]. constructor; cbn [o2_hp o2_frs o2_objs]; try assumption.
    intros k g G. apply aget_adel_Some in G. exact (F _ _ (proj2 G)).
  - (* MoveAssign j <- i *)
    repeat (apply andb_prop in OK; destruct OK as [OK ?]).
    destruct (aget (o2_objs s) j) as [oj|] eqn:GJ; [|discriminate].
    destruct (aget (o2_objs s) i) as [oi|] eqn:GI; [|discriminate].
    apply negb_true_iff in OK. apply Nat.eqb_neq in OK.
    repeat match goal with U : negb (uses _ (o2_frs s)) = true |- _ => apply negb_true_iff in U end.
    destruct (others_survive s j oj J GJ) as (HH & _ & SV).
    cbn [fst]. apply (ReuInv_move s _ j i oi J OK GI); eauto using uses_false.
  - (* MoveCtor j <- i, j new *)
    repeat (apply andb_prop in OK; destruct OK as [OK ?]).
    destruct (aget (o2_objs s) j) as [oj|] eqn:GJ; [discriminate|].
    destruct (aget (o2_objs s) i) as [oi|] eqn:GI; [|discriminate].
    repeat match goal with U : negb (uses _ (o2_frs s)) = true |- _ => apply negb_true_iff in U end.
    cbn [fst]. apply (ReuInv_move s _ j i oi J ltac:(congruence) GI); eauto using uses_false.
    + intros slot f G. destruct (F _ _ G) as (_ & _ & ob' & G1 & _). congruence.
    + intros k ok b _. exact (obj_live _ _ _ _ _ OKs).
  - (* Drop *)
    apply andb_prop in OK. destruct OK as [OK U]. apply negb_true_iff in U.
    destruct (aget (o2_objs s) j) as [ob|] eqn:GJ; [|discriminate].
    destruct (others_survive s j ob J GJ) as (HH & NN & SV).
    cbn [fst]. constructor; cbn [o2_hp o2_frs o2_objs]; [exact HH|exact (objs_ok_adel _ _ _ _ OKs SV)|].
    intros slot f G. apply (fr_ok_keep (o2_objs s)); [|exact (F _ _ G)].
    apply aget_adel_other. exact (uses_false _ _ _ _ U G).
Qed.

Lemma JR0 : ReuInv s2_0.
Proof.
  constructor; cbn; [exact heap0_ok|split; [intros ? ? X|intros ? ? ? ? ? X]; discriminate|intros ? ? X; discriminate].
Qed.

Lemma reu_valid l slot f : aget (o2_frs (snd (run2 false s2_0 l))) slot = Some f ->
  frame_valid false (snd (run2 false s2_0 l)) f /\ h_bad (o2_hp (snd (run2 false s2_0 l))) = 0.
Proof.
  intros G. destruct (run2_inv false ReuInv ReuInv_step l s2_0 JR0) as [H [O D] F]. split; [|exact (hk_bad _ H)].
  destruct (F _ _ G) as (A & P & ob & G1 & E & RM & L). unfold frame_valid. split; [exact P|]. split; [lia|].
  destruct (O _ _ G1) as [C PK]. rewrite E. destruct (ob_ptr ob) as [b|]; cbn [optblk]; [rewrite RM; exact PK|lia].
Qed.
