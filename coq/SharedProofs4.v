(* SharedProofs4.v — the decidable property (the oracle that is run on the implementation's traces) accepts the model's
   own run whenever the runner stops in a state where nothing is enabled *)
From Cocls Require Import Base BaseProofs SharedDefs SharedProofs SharedProofs2 SharedProofs3.
Local Open Scope nat_scope.

Definition kinds (s : st) : list ukind := map ukd (users s).

Lemma list_eqb_refl l : list_eqb l l = true.
Proof.
  unfold list_eqb. rewrite Nat.eqb_refl. cbn [andb]. induction l as [|x l IH]; cbn [combine forallb fst snd]; [reflexivity|].
  rewrite Z.eqb_refl. exact IH.
Qed.

Lemma filter_all {A} (f : A -> bool) l : forallb f l = true -> filter f l = l.
Proof.
  induction l as [|x l IH]; cbn [forallb filter]; [reflexivity|]. intros H. apply andb_prop in H. destruct H as (H1 & H2).
  rewrite H1, (IH H2). reflexivity.
Qed.

Lemma filter_none {A} (f : A -> bool) l : forallb (fun x => negb (f x)) l = true -> filter f l = [].
Proof.
  induction l as [|x l IH]; cbn [forallb filter]; [reflexivity|]. intros H. apply andb_prop in H. destruct H as (H1 & H2).
  destruct (f x); [discriminate|]. exact (IH H2).
Qed.

Definition keep (l : list Z) : bool := negb (is_trace_line l).

Lemma okind_two isvoid o : exists a b, okind isvoid o = [a; b].
Proof. destruct o as [[| | |]|]; cbn; eauto. Qed.

Lemma user_obs_keep isvoid i u : keep (user_obs isvoid i u) = true.
Proof.
  unfold user_obs. destruct (okind_two isvoid (useen u)) as (a & b & ->). reflexivity.
Qed.

Lemma user_obs_all_keep isvoid l : forall i, forallb keep (user_obs_all isvoid l i) = true.
Proof.
  induction l as [|u l IH]; intros i; cbn [user_obs_all forallb]; [reflexivity|].
  rewrite user_obs_keep, IH. reflexivity.
Qed.

Lemma stuck_users_done l : forall i, (forall j u, nth_error l j = Some u -> upcf u = UDone) -> stuck_users l i = [].
Proof.
  induction l as [|u l IH]; intros i H; cbn [stuck_users]; [reflexivity|].
  unfold unfinished. rewrite (H 0 u eq_refl). cbn [app]. apply IH. intros j u0 Q. apply (H (S j) u0 Q).
Qed.

Lemma user_ok_done isvoid e u0 u i : ukd u0 = ukd u -> upcf u = UDone -> seen_ok e u ->
  user_ok (okind isvoid (Some e)) u0 (user_obs isvoid i u) = true.
Proof.
  intros K PC SK. unfold user_ok, user_obs, seen_ok in *. rewrite K, PC in *.
  destruct (ukd u); cbn [picked] in SK.
  - destruct SK as (-> & ->). reflexivity.
  - destruct SK as (-> & [-> | (_ & ->)]).
    + destruct (okind_two isvoid (Some e)) as (a & b & Q). rewrite Q. cbn [app Z.of_nat Pos.of_succ_nat].
      rewrite list_eqb_refl. reflexivity.
    + cbn. apply orb_true_r.
  - destruct SK as (-> & [-> | (Q & _)]); [|discriminate].
    destruct (okind_two isvoid (Some e)) as (a & b & Q). rewrite Q. cbn [app Z.of_nat Pos.of_succ_nat].
    apply list_eqb_refl.
Qed.

Lemma lines_ok_final isvoid e us0 : forall us i, map ukd us0 = map ukd us ->
  (forall j u, nth_error us j = Some u -> upcf u = UDone /\ seen_ok e u) ->
  lines_ok (okind isvoid (Some e)) us0 i (user_obs_all isvoid us i ++ [[10; 0; 0]%Z]) = true.
Proof.
  induction us0 as [|u0 us0 IH]; intros [|u us] i M H; cbn [map] in M; try discriminate.
  - reflexivity.
  - inversion M as [[K M']]. cbn [user_obs_all app lines_ok].
    destruct (H 0 u eq_refl) as (PC & SK).
    rewrite (user_ok_done isvoid e u0 u i K PC SK).
    rewrite (IH us (S i) M'); [|intros j u1 Q; apply (H (S j) u1 Q)].
    unfold user_obs. rewrite Z.eqb_refl. reflexivity.
Qed.

Lemma final_all_done ops : let s := fst (final_state ops) in all_enabled s = [] ->
  (forall j u, nth_error (users s) j = Some u -> upcf u = UDone) /\ freed s = 1 /\ pdtor s = pctor s /\
  cpcf s = CDone /\ (exists b, rpcf s = RDone b) /\ stuck_list s = [].
Proof.
  intros s AE. pose proof (final_state_reachable ops) as R. fold s in R.
  destruct (terminal_all_done s (inv_reachable ops s R) (all_enabled_nil_terminal s AE))
    as (C & RD & UD & FR & PD & _).
  unfold rdone in RD. destruct (rpcf s) as [| | | | |b| | |] eqn:RP; try discriminate.
  repeat split; eauto. unfold stuck_list. rewrite C, RP. apply stuck_users_done. exact UD.
Qed.

Lemma expected_eq isvoid ops : expected isvoid ops = okind isvoid (Some (result_of_ops ops)).
Proof. unfold expected, result_of_ops. destruct (mode_of ops); reflexivity. Qed.

(* whenever the runner stops because nothing is enabled (and not because the fuel ran out) the decidable property
   accepts the model's own observation block *)
Theorem oracle_accepts_terminal isvoid ops :
  all_enabled (fst (final_state ops)) = [] -> sf_oracle isvoid ops (sf_run isvoid ops) = true.
Proof.
  intros AE. pose proof (final_state_reachable ops) as R. destruct (final_all_done ops AE) as (UD & _ & PD & C & (b & RP) & ST).
  unfold sf_run. destruct (final_state ops) as [s tr] eqn:FS. cbn [fst] in *.
  destruct (decl_const ops s R) as (M & K & KI).
  pose proof (res_ok s (proj1 (inv_reachable ops s R))) as RB.
  rewrite ST. cbn [app].
  unfold sf_oracle. rewrite filter_app.
  change (fun l : list Z => negb (is_trace_line l)) with keep. rewrite (filter_none keep).
  2: { clear. induction tr as [|p tr IHt]; [reflexivity|]. cbn [map forallb]. rewrite IHt. reflexivity. }
  assert (FK : filter keep (thr_obs_all isvoid s ++ [final_obs s]) = thr_obs_all isvoid s ++ [final_obs s]).
  { apply filter_all. rewrite forallb_app. unfold thr_obs_all. cbn [forallb]. rewrite user_obs_all_keep. reflexivity. }
  replace (filter (fun l => negb (is_trace_line l))) with (filter keep) by reflexivity.
  cbn [app]. rewrite FK. unfold thr_obs_all. rewrite C, RP. cbn [app].
  rewrite ?RP, M in RB.
  assert (MI : mode (init ops) = mode_of ops) by reflexivity. rewrite MI.
  assert (BZ : Z.eqb (b2z b) (match mode_of ops with MPre _ => 0 | _ => 1 end)%Z = true).
  { destruct (mode_of ops); cbn in RB; destruct RB as (Q & _); try inversion Q; subst; reflexivity. }
  rewrite BZ. cbn [andb].
  assert (FO : final_obs s = [10; 0; 0]%Z).
  { unfold final_obs. rewrite PD. rewrite Z.sub_diag. reflexivity. }
  rewrite FO, expected_eq.
  apply lines_ok_final.
  - cbn [init users]. symmetry. exact KI.
  - intros j u H. split; [eapply UD; exact H|exact (seen_reachable ops s j u R H)].
Qed.

Theorem stress_round_prediction l : stress_valid l = true ->
  all_enabled (fst (final_state (stress_ops l))) = [] -> stress_round l = [[7; 1; 0; 0]%Z].
Proof.
  intros V AE. unfold stress_round. rewrite V. destruct (final_all_done _ AE) as (_ & FR & PD & _ & _ & ST). cbn zeta in *.
  rewrite ST, FR, PD, Z.sub_diag. reflexivity.
Qed.
