(* Properties_C04.v — C04: an async coroutine runs once, delivers to its bound party, frees once.
   Statements only; each proved in a line or two from the lemmas of CoroVMProofs, CoroVMLife and CoroVMRuns.  The machine
   state s is arbitrary in the step-level theorems (any number of coroutines, any scripts, any nesting depth of co_await
   chains, any start mode that led to s). *)
From Cocls Require Import Base CoroVMDefs CoroVMProofs CoroVMOnce CoroVMLife CoroVMRuns.
Local Open Scope nat_scope.

(* delivery + frame: when the body of c ends with r (value or exception), r is stored in exactly the cell c was bound to
   (the future of start()/start(promise), the co_awaiting parent's awaiter, nothing when detached), no other future or
   coroutine changes, the frame is destroyed (status Done, empty script: it can never execute again), and control goes to
   the last waiter of that cell / the parent / back to the resumer when detached *)
Theorem c04_delivery : forall s c r,
  let s' := finish s c r in
  stat (cs s' c) = Done /\ result (cs s' c) = r /\ script (cs s' c) = [] /\
  (forall k, k <> c -> cs s' k = cs s k) /\
  match bound (cs s c) with
  | BNone => fs s' = fs s /\ queue s' = queue s /\ cur s' = CRet /\ log s' = EFree c :: EFin c r :: log s
  | BFut f =>
      fstt (fs s' f) = FReady r /\ (forall g, g <> f -> fs s' g = fs s g) /\
      queue s' = queue s ++ removelast (chain_of (fs s f)) /\
      cur s' = match chain_of (fs s f) with [] => CRet | ch => CRun (last ch 0) end
  | BParent p =>
      fs s' = fs s /\ queue s' = queue s /\ cur s' = CRun p /\ log s' = ERun p :: EFree c :: EFin c r :: log s
  end.
Proof. exact finish_delivery. Qed.
Print Assumptions c04_delivery.

(* the co_awaiting parent reads exactly what its child finished with *)
Theorem c04_coawait_delivery : forall s p c rest,
  cur s = CRun p -> script (cs s p) = IGotC c :: rest ->
  log (step s) = EGot p (2 * c + 1) (result (cs s c)) :: log s /\ cur (step s) = CRun p.
Proof. exact coawait_delivery. Qed.
Print Assumptions c04_coawait_delivery.

(* start(promise) on an already claimed promise returns false and leaves the coroutine unstarted: nothing bound, nothing
   queued, nothing run, the handle stays in the async<T> object *)
Theorem c04_start_claimed_promise : forall s me c f aw,
  is_created s c = true -> fstt (fs s f) <> FNone -> claimed (fs s f) = true -> (aw && Nat.eqb me 0 = false) ->
  let s' := exec s me (IStartP c f aw) in
  log s' = ERetB me false :: log s /\ cs s' = cs s /\ fs s' = fs s /\ queue s' = queue s /\ cur s' = cur s /\
  stack s' = stack s /\ is_created s' c = true.
Proof. exact start_claimed_promise. Qed.
Print Assumptions c04_start_claimed_promise.

(* a never-started coroutine object that is destroyed frees its frame (and with it the captured arguments) exactly then,
   and nothing runs *)
Theorem c04_unstarted : forall s me c,
  is_created s c = true ->
  let s' := exec s me (IDrop c) in
  log s' = EFree c :: log s /\ stat (cs s' c) = Done /\ cur s' = cur s /\ queue s' = queue s /\ fs s' = fs s /\
  is_created s' c = false.
Proof. exact drop_unstarted. Qed.
Print Assumptions c04_unstarted.

(* start(promise) on a free promise claims it and binds the coroutine to exactly that future *)
Theorem c04_start_free_promise : forall s me c f,
  is_created s c = true -> fstt (fs s f) <> FNone -> claimed (fs s f) = false -> active s = true ->
  let s' := exec s me (IStartP c f false) in
  bound (cs s' c) = BFut f /\ stat (cs s' c) = Started /\ claimed (fs s' f) = true /\ fstt (fs s' f) = fstt (fs s f) /\
  queue s' = queue s ++ [c] /\ cur s' = cur s /\
  log s' = EEnq c me why_discard :: ERetB me true :: EBind c (BFut f) :: log s.
Proof. exact start_free_promise. Qed.
Print Assumptions c04_start_free_promise.

(* ---------- run level: any main script, any coroutine scripts, any run prefix ---------- *)
(* frame_once: a frame is allocated at most once and freed at most once, never freed without having been allocated, and it has
   been freed exactly when the coroutine is Done *)
Theorem c04_frame_once : forall p m n c,
  let s := steps n (init p m) in
  nev (is_mk c) (log s) <= 1 /\ nev (is_free c) (log s) <= nev (is_mk c) (log s) /\
  (nev (is_mk c) (log s) = 1 <-> stat (cs s c) <> Unmade) /\
  (nev (is_free c) (log s) = 1 <-> stat (cs s c) = Done).
Proof. exact frame_once. Qed.
Print Assumptions c04_frame_once.

(* body_once: the body finishes at most once, only if the coroutine was started (bound) exactly once, and then its frame is
   freed; a started unfinished coroutine is not freed; a created-but-unstarted one has no Bind, no Fin, no Free *)
Theorem c04_body_once : forall p m n c,
  let s := steps n (init p m) in
  nev (is_fin c) (log s) <= 1 /\ nev (is_bind c) (log s) <= 1 /\
  nev (is_fin c) (log s) <= nev (is_bind c) (log s) /\ nev (is_fin c) (log s) <= nev (is_free c) (log s) /\
  (stat (cs s c) = Started -> nev (is_bind c) (log s) = 1 /\ nev (is_fin c) (log s) = 0 /\ nev (is_free c) (log s) = 0) /\
  (stat (cs s c) = Created -> nev (is_bind c) (log s) = 0 /\ nev (is_fin c) (log s) = 0 /\ nev (is_free c) (log s) = 0).
Proof. exact body_once. Qed.
Print Assumptions c04_body_once.

(* the body never executes before the coroutine is started nor after it finished, and is never re-entered while running *)
Theorem c04_body_not_reentered : forall p m n later c earlier,
  log (steps n (init p m)) = later ++ ERun c :: earlier ->
  rlc c earlier = 0 /\ nev (is_fin c) earlier = 0.
Proof. intros p m n later c earlier E. apply (wf_runs_run later). rewrite <- E. apply runs_reach. Qed.
Print Assumptions c04_body_not_reentered.

(* terminal states (main script over, nobody stuck, nothing left unstarted = `EEnd 0 0`): every frame ever allocated was
   freed exactly once and every started coroutine finished its body exactly once *)
Theorem c04_terminal_all_freed : forall p m n c,
  let s := steps n (init p m) in
  count_stat s true = 0 -> count_stat s false = 0 ->
  nev (is_free c) (log s) = nev (is_mk c) (log s) /\ nev (is_fin c) (log s) = nev (is_bind c) (log s).
Proof. exact terminal_all_freed. Qed.
Print Assumptions c04_terminal_all_freed.

(* non-vacuity: a co_await chain of depth 2 ending in a throw, started to a future from normal code: the exception reaches
   each parent and finally the future; all three frames are freed; the trace satisfies the decidable form of C04 *)
Example c04_nonvacuous :
  let ops := [[0;6;1;9]; [1;8;2]; [2;8;3]; [3;13;77]; [0;9;0]; [0;5;4;0]; [4;11;9]]%Z in
  let s := steps (fuel_of ops) (load ops) in
  fstt (fs s 9) = FReady (RVal 0) /\ result (cs s 3) = RExc 77 /\
  stat (cs s 1) = Done /\ stat (cs s 2) = Done /\ stat (cs s 3) = Done /\ stat (cs s 4) = Done /\
  c04_ok (trace s) = true /\ cur s = CEnd.
Proof. vm_compute. repeat split; reflexivity. Qed.
