(* Properties_C02.v — C02: no lost, early or duplicate wake-up of a future's waiters.
   Each proved in a line or two from the lemmas of Cell2Proofs, AwProofs and PromProofs.  `reachable ops s` ranges over every schedule of
   any number of waiter threads of every kind (coroutine co_await f / thread in sync()+value() / callback awaiter /
   thread in has_value() / coroutine co_await f.has_value()), any number of resolver threads of every kind
   (value / exception / drop / move-then-destroy / completion of an async coroutine by value or exception) and the
   final destructor of the shared promise.
   Vocabulary (Cell2Proofs): chain s = nodes hanging off the future's slot, walk s = the walker's detached list,
   acc s = coroutine handles collected in the suspend point, rel s = waiters released so far (map fst (wlog s)),
   wlog s = (waiter, payload visible at the release), sublog s = successful subscriptions,
   elog s = access log of the awaiter nodes (ENext/EClear = the walker reads/clears _next, EResume = resume(),
   EFree = the awaiter's storage is gone, EFrame r = async frame destroyed while ready = r). *)
From Cocls Require Import Base BaseProofs CellDefs CellProofs Cell2Proofs AwDefs AwProofs PromDefs PromProofs.
Local Open Scope Z_scope.

(* at most once: a waiter occurs at most once in slot ∪ walk list ∪ suspend point ∪ released; its release count is <= 1
   and a released waiter is no longer held anywhere *)
Theorem c02_at_most_once : forall ops s,
  reachable ops s ->
  NoDup (chain s ++ walk s ++ acc s ++ rel s) /\
  forall w, (count_occ Nat.eq_dec (rel s) w <= 1)%nat /\
            (In w (rel s) -> ~ In w (chain s ++ walk s ++ acc s)).
Proof. intros ops s R. exact (at_most_once s (inv2_reachable _ _ R)). Qed.
Print Assumptions c02_at_most_once.

(* exactly the successfully subscribed waiters are held or released: nobody else is ever woken *)
Theorem c02_only_subscribers : forall ops s w,
  reachable ops s -> (In w (sublog s) <-> In w (chain s ++ walk s ++ acc s ++ rel s)).
Proof. intros ops s w R. apply (l_sub (j_lists s (inv2_reachable _ _ R))). Qed.
Print Assumptions c02_only_subscribers.

(* not early: at every release the slot is Ready (the exchange has happened, which is after the payload was set) and
   the payload visible at that instant is the winner's, i.e. the final one (stable by c01_result_stable) *)
Theorem c02_not_early : forall ops s w o,
  reachable ops s -> In (w, o) (wlog s) ->
  slot s = SReady /\ o = payload s /\
  exists i k pc, winner s = Some i /\ T s i = Some (TR k pc) /\ o = payload_of k ONone.
Proof.
  intros ops s w o R H. destruct (l_wlog (j_lists s (inv2_reachable _ _ R)) _ _ H) as (SR & E). apply ready_slot in SR.
  refine (conj SR (conj E _)). destruct (result_is_winners s (inv1_reachable _ _ R) SR) as (i & k & pc & A & B & C).
  exists i, k, pc. rewrite E. auto.
Qed.
Print Assumptions c02_not_early.

(* the walker owns detached nodes / collected handles only after the exchange *)
Theorem c02_walk_only_when_ready : forall ops s,
  reachable ops s -> walk s <> [] \/ acc s <> [] -> slot s = SReady.
Proof. intros ops s R H. apply ready_slot. apply (l_busy (j_lists s (inv2_reachable _ _ R)) H). Qed.
Print Assumptions c02_walk_only_when_ready.

(* every waiter that went on (released / refused by the CAS / found ready) observed Ready and read the final payload;
   if it had subscribed it was released, otherwise it never is *)
Theorem c02_done_sees_result : forall ops s w k o f,
  reachable ops s -> T s w = Some (TW k (WDone o) f) ->
  slot s = SReady /\ o = payload s /\
  (exists i kr pc, winner s = Some i /\ T s i = Some (TR kr pc) /\ o = payload_of kr ONone) /\
  (In w (sublog s) -> In w (rel s)) /\ (~ In w (sublog s) -> ~ In w (rel s)).
Proof. intros ops s w k o f R. exact (done_sees_result s w k o f (inv1_reachable _ _ R) (inv2_reachable _ _ R)). Qed.
Print Assumptions c02_done_sees_result.

(* refused-sees-result: a waiter whose CAS meets the Ready marker goes on unsubscribed and reads the winner's payload *)
Theorem c02_refused_sees_result : forall ops s w k r e f,
  reachable ops s -> T s w = Some (TW k (WSub r e) f) -> slot s = SReady ->
  T (fst (tstep s w)) w = Some (TW k (WDone (payload s)) f) /\ ~ In w (sublog (fst (tstep s w))) /\
  exists i kr pc, winner s = Some i /\ T s i = Some (TR kr pc) /\ payload s = payload_of kr ONone.
Proof. intros ops s w k r e f R. exact (refused_sees_result s w k r e f (inv1_reachable _ _ R) (inv2_reachable _ _ R)). Qed.
Print Assumptions c02_refused_sees_result.

(* no lost wake-up: in every terminal state (no thread can take a step) the future is ready, slot / walk list /
   suspend point are empty and every waiter has gone on with the final payload, released exactly once if it had
   subscribed and never otherwise *)
Theorem c02_no_lost_wakeup : forall ops s,
  reachable ops s -> all_enabled s = [] ->
  slot s = SReady /\ chain s = [] /\ walk s = [] /\ acc s = [] /\
  (exists i k, winner s = Some i /\ T s i = Some (TR k (RDone true)) /\ payload s = payload_of k ONone) /\
  forall w k pc f, T s w = Some (TW k pc f) ->
    pc = WDone (payload s) /\
    count_occ Nat.eq_dec (rel s) w = (if in_dec Nat.eq_dec w (sublog s) then 1 else 0)%nat.
Proof. intros ops s R. exact (no_lost_wakeup s (inv1_reachable _ _ R) (inv2_reachable _ _ R)). Qed.
Print Assumptions c02_no_lost_wakeup.

(* next-read-before-resume: after resume() of a node the walker neither reads nor writes that node, nor resumes it again *)
Theorem c02_next_read_before_resume : forall ops s l1 w l2,
  reachable ops s -> elog s = l1 ++ EResume w :: l2 ->
  ~ In (ENext w) l2 /\ ~ In (EClear w) l2 /\ ~ In (EResume w) l2.
Proof.
  intros ops s l1 w l2 R E. pose proof (l_log (j_lists s (inv2_reachable _ _ R))) as WF.
  repeat split; intros H; destruct (wf_log_later _ _ _ _ _ WF E H) as (m & A & B); cbn [ok_after] in B; tauto.
Qed.
Print Assumptions c02_next_read_before_resume.

(* a waiter's awaiter storage is released only after its resume(), and nothing touches it afterwards
   (this is what makes the stack-allocated sync_awaiter of sync()/wait() safe) *)
Theorem c02_no_touch_after_free : forall ops s l1 w l2,
  reachable ops s -> elog s = l1 ++ EFree w :: l2 ->
  In (EResume w) l1 /\ ~ In (ENext w) l2 /\ ~ In (EClear w) l2 /\ ~ In (EResume w) l2 /\ ~ In (EFree w) l2.
Proof.
  intros ops s l1 w l2 R E. pose proof (l_log (j_lists s (inv2_reachable _ _ R))) as WF.
  split; [apply (wf_log_prefix _ WF _ _ _ E)|].
  repeat split; intros H; destruct (wf_log_later _ _ _ _ _ WF E H) as (m & A & B); cbn [ok_after] in B; tauto.
Qed.
Print Assumptions c02_no_touch_after_free.

(* completion of an async coroutine: its frame is destroyed only after the bound future became ready *)
Theorem c02_async_frame_after_ready : forall ops s b,
  reachable ops s -> In (EFrame b) (elog s) -> b = true /\ slot s = SReady.
Proof.
  intros ops s b R H. destruct (l_frame (j_lists s (inv2_reachable _ _ R)) _ H) as (B & SR).
  split; [exact B|apply ready_slot, SR].
Qed.
Print Assumptions c02_async_frame_after_ready.

(* the executable scheduler (what the correspondence check runs) only visits reachable states *)
Theorem c02_run_reachable : forall ops fuel sched, reachable ops (fst (run_sched fuel (init ops) sched [])).
Proof. intros ops fuel sched. apply run_sched_reachable. apply r_init. Qed.
Print Assumptions c02_run_reachable.

(* ---------- RE-USED awaiter objects (AwDefs.v: hand-written awaiters and call_fn_future_awaiter performing several
   waits in sequence on several futures, already resolved or pending; every op sequence) ---------- *)

(* the entry assert of subscribe_check_ready never fires and no CAS ever matches the ready marker *)
Theorem c02_reuse_never_errs : forall isvoid ops, a_err (fst (arun isvoid ainit ops)) = false.
Proof. intros isvoid ops. apply (v_err _ (ainv_run isvoid ops ainit ainv_init)). Qed.
Print Assumptions c02_reuse_never_errs.

(* a re-used awaiter's link field is reset before each subscription attempt: whenever the object is not linked
   (fresh, refused earlier, released earlier) its _next is null *)
Theorem c02_link_reset_before_subscription : forall isvoid ops a w,
  nth_error (aws (fst (arun isvoid ainit ops))) a = Some w -> aw_cell w = None -> aw_next w = LNull.
Proof.
  intros isvoid ops a w H U. pose proof (v_aw _ (ainv_run isvoid ops ainit ainv_init) a w H) as Q. rewrite U in Q. tauto.
Qed.
Print Assumptions c02_link_reset_before_subscription.

(* hence a wait on an already resolved future is refused, the callback runs exactly once with the future's payload,
   the link field is null again and the future is untouched *)
Theorem c02_wait_on_resolved_is_refused : forall isvoid s a c w cl,
  AInv s -> nth_error (aws s) a = Some w -> aw_cell w = None -> nth_error (acells s) c = Some cl -> ac_slot cl = None ->
  let r := do_wait isvoid s a c in
  snd r = 0 :: Z.of_nat a :: okind isvoid (ac_pay cl) /\ acells (fst r) = acells s /\
  nth_error (aws (fst r)) a = Some (mkAw LNull None (S (aw_waits w)) (S (aw_runs w))).
Proof. exact wait_on_resolved_is_refused. Qed.
Print Assumptions c02_wait_on_resolved_is_refused.

(* each wait of a re-used awaiter is released exactly once: callbacks run = waits started, except for the one wait
   that is still parked, exactly once, in a pending future whose promise is still armed *)
Theorem c02_each_wait_released_exactly_once : forall isvoid ops a w,
  let s := fst (arun isvoid ainit ops) in
  nth_error (aws s) a = Some w ->
  match aw_cell w with
  | None => aw_runs w = aw_waits w
  | Some c => aw_waits w = S (aw_runs w) /\
              exists cl l, nth_error (acells s) c = Some cl /\ ac_slot cl = Some l /\ ac_prom cl = true /\
                           count_occ Nat.eq_dec l a = 1%nat
  end.
Proof. intros isvoid ops a w s. apply each_wait_released_exactly_once. apply (ainv_run isvoid ops ainit ainv_init). Qed.
Print Assumptions c02_each_wait_released_exactly_once.

(* once every future is resolved no wait is open *)
Theorem c02_reuse_all_resolved_all_answered : forall isvoid ops,
  let s := fst (arun isvoid ainit ops) in
  (forall c cl, nth_error (acells s) c = Some cl -> ac_slot cl = None) ->
  forall a w, nth_error (aws s) a = Some w -> aw_cell w = None /\ aw_next w = LNull /\ aw_runs w = aw_waits w.
Proof.
  intros isvoid ops s R a w H. pose proof (v_aw s (ainv_run isvoid ops ainit ainv_init) a w H) as Q.
  destruct (aw_cell w) as [c|]; [|tauto]. destruct Q as (_ & cl & l & A & B & _). rewrite (R c cl A) in B. discriminate.
Qed.
Print Assumptions c02_reuse_all_resolved_all_answered.

(* non-vacuity: the scenario of seeded change C02-3 (refused, re-used on a resolved future, then on a pending one) *)
Example c02_reuse_nonvacuous :
  aw_run false [[22;0;0;10]; [20;0;0]; [22;1;0;20]; [20;0;1]; [20;0;2]; [22;2;0;30]; [21;0;1;5]; [21;0;1;6]; [21;0;0;0]; [22;3;0;7]]
  = [[1]; [0;0;1;10]; [1]; [0;0;1;20]; [1]; [1;0;1;30]; [0;2;1;5]; [0;2;1;6]; [1]; [1;2;1;7];
     [0]; [0]; [0]; [0]; [0]; [1;1;10]; [1;1;20]; [1;1;30]; [10;0;0]].
Proof. vm_compute. reflexivity. Qed.

(* ---------- waiters of a future whose promise object is overwritten / destroyed / dropped (PromDefs.v) ---------- *)
(* move assignment onto a live promise releases the waiters parked on the overwritten future AT the assignment: every one
   of them, with the (no-value) result, callbacks in chain order and then the coroutines *)
Theorem c02_assign_releases_waiters : forall isvoid s p q cp oq cl l,
  nth_error (proms s) p = Some (Some (Some cp)) -> nth_error (proms s) q = Some (Some oq) -> p <> q ->
  nth_error (cells s) cp = Some cl -> c_slot cl = CChain l ->
  snd (pstep isvoid s (PAssign p q)) = 0 :: deliver isvoid (c_pay cl) l /\
  (forall w k, In (w, k) l -> In (Z.of_nat w) (deliver isvoid (c_pay cl) l)).
Proof. exact assign_releases_waiters. Qed.
Print Assumptions c02_assign_releases_waiters.

Theorem c02_drop_releases_waiters : forall isvoid s p cp cl l x,
  nth_error (proms s) p = Some (Some (Some cp)) -> nth_error (cells s) cp = Some cl -> c_slot cl = CChain l ->
  x = PDestroy p \/ x = PUnwind p \/ x = PDrop p ->
  exists r, snd (pstep isvoid s x) = r :: deliver isvoid (c_pay cl) l.
Proof.
  intros isvoid s p cp cl l x HP HC SL Hx. destruct (drop_fires isvoid s p _ x HP) as (_ & r & E); [destruct Hx as [-> |[-> | ->]]; cbn [In]; auto|].
  exists r. rewrite E. cbn [fire]. unfold resolve. rewrite HC, SL. reflexivity.
Qed.
Print Assumptions c02_drop_releases_waiters.

(* non-vacuity: 4 waiters of different kinds race with an async completion; two subscribe before the exchange,
   one is refused by the CAS, one finds the future ready; the run ends in a terminal state *)
Example c02_nonvacuous :
  let ops := [[2;0]; [2;1]; [1;4;42]; [2;2]; [2;3]; [9; 0;0;0;0;0;1;0;0;1;1;0;0;0;0;0;0;0]]%Z in
  let r := fst (run_sched 100 (init ops) (flat_map decode_sched ops) []) in
  all_enabled r = [] /\ slot r = SReady /\ payload r = OVal 42 /\
  sublog r = [0; 1]%nat /\ rel r = [1; 0]%nat /\
  T r 3 = Some (TW WCallback (WDone (OVal 42)) false) /\
  elog r = [ENext 1; EClear 1; EResume 1; EFree 1; ENext 0; EClear 0; EResume 0; EFrame true; EFree 0]%nat.
Proof. vm_compute. repeat split. Qed.
