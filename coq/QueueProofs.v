(* QueueProofs.v — invariants, refinement and conservation/order theorems for the sequential queue models of
   QueueDefs.v: queue<T>, queue<void>, limited_queue<T>, and queue<T> with callback consumers.  Everything is for op
   sequences of any length, any number of parked / blocked parties, any limit >= 1. *)
From Cocls Require Import Base BaseProofs QueueDefs.
Require Import ZifyBool.
Local Open Scope Z_scope.

Lemma zlen_zero {A} (l : list A) : zlen l = 0 -> l = [].
Proof. exact (zlen_nil_inv l). Qed.
Lemma zlen_repeat {A} (x : A) n : zlen (repeat x n) = Z.of_nat n.
Proof. unfold zlen. rewrite repeat_length. reflexivity. Qed.

Lemma set_nth_app_here {A} (a : list A) y b x : set_nth (a ++ y :: b) (length a) x = a ++ x :: b.
Proof. induction a as [|z a IH]; cbn [app length set_nth]; [reflexivity|]. rewrite IH. reflexivity. Qed.

Lemma set_nth_app_left {A} (a b : list A) p x : (p < length a)%nat -> set_nth (a ++ b) p x = set_nth a p x ++ b.
Proof.
  revert p; induction a as [|z a IH]; intros [|p] H; cbn [length] in H; try lia; cbn [app set_nth]; [reflexivity|].
  rewrite IH by lia. reflexivity.
Qed.

Lemma set_nth_length {A} (l : list A) p x : length (set_nth l p x) = length l.
Proof. exact (BaseProofs.set_nth_length l p x). Qed.

Lemma fget_app_left a b i : (i < length a)%nat -> fget (a ++ b) i = fget a i.
Proof. intros H. unfold fget. apply app_nth1. exact H. Qed.
Lemma fget_app_right a b i : (length a <= i)%nat -> fget (a ++ b) i = fget b (i - length a).
Proof. intros H. unfold fget. apply app_nth2. lia. Qed.
Lemma fget_app_here a x b : fget (a ++ x :: b) (length a) = x.
Proof. rewrite fget_app_right, Nat.sub_diag by lia. reflexivity. Qed.
Lemma fget_set_same l p x : (p < length l)%nat -> fget (set_nth l p x) p = x.
Proof. apply nth_set_nth_same. Qed.
Lemma fget_set_other l p q x : p <> q -> fget (set_nth l p x) q = fget l q.
Proof. apply nth_set_nth_other. Qed.
Lemma fget_repeat x n j : (j < n)%nat -> fget (repeat x n) j = x.
Proof. intros H. unfold fget. rewrite (nth_indep _ FCanceled x) by (rewrite repeat_length; exact H). apply nth_repeat. Qed.
Lemma fget_beyond l i : (length l <= i)%nat -> fget l i = FCanceled.
Proof. intros H. unfold fget. apply nth_overflow. exact H. Qed.
Lemma fget_pending_lt l i : fget l i = FPending -> (i < length l)%nat.
Proof. intros H. destruct (Nat.lt_ge_cases i (length l)) as [L|L]; [exact L|]. rewrite fget_beyond in H by exact L. discriminate. Qed.

(* values held by pop futures, in creation (= pop arrival) order *)
Definition val_of (f : fstate) : list Z := match f with FValue v => [v] | _ => [] end.
Definition delivered (fs : list fstate) : list Z := flat_map val_of fs.

Lemma delivered_app a b : delivered (a ++ b) = delivered a ++ delivered b.
Proof. unfold delivered. apply flat_map_app. Qed.
Lemma delivered_snoc fs x : delivered (fs ++ [x]) = delivered fs ++ val_of x.
Proof. rewrite delivered_app. cbn. rewrite app_nil_r. reflexivity. Qed.
Lemma delivered_repeat_pending m : delivered (repeat FPending m) = [].
Proof. induction m as [|m IH]; cbn; [reflexivity|exact IH]. Qed.
Lemma delivered_repeat_canceled m : delivered (repeat FCanceled m) = [].
Proof. induction m as [|m IH]; cbn; [reflexivity|exact IH]. Qed.
Lemma delivered_nopend_tail done n : delivered (done ++ repeat FPending n) = delivered done.
Proof. rewrite delivered_app, delivered_repeat_pending, app_nil_r. reflexivity. Qed.

Definition nopend (l : list fstate) : Prop := Forall (fun f => f <> FPending) l.

Lemma nopend_snoc done x : nopend done -> x <> FPending -> nopend (done ++ [x]).
Proof. intros N H. apply Forall_app. split; [exact N|]. constructor; [exact H|constructor]. Qed.
Lemma nopend_fget done i : nopend done -> (i < length done)%nat -> fget done i <> FPending.
Proof. intros N H. exact (proj1 (Forall_forall _ _) N _ (nth_In _ _ H)). Qed.

(* the i-th pop is the oldest one still waiting *)
Definition oldest_pending (fs : list fstate) (i : nat) : Prop :=
  fget fs i = FPending /\ forall j, (j < i)%nat -> fget fs j <> FPending.

Lemma oldest_unique fs i j : oldest_pending fs i -> oldest_pending fs j -> i = j.
Proof.
  intros [A1 A2] [B1 B2]. destruct (Nat.lt_trichotomy i j) as [L|[L|L]]; [|exact L|].
  - exfalso. exact (B2 i L A1).
  - exfalso. exact (A2 j L B1).
Qed.

(* The parked pops are always the newest futures, all still pending, in creation order:
   futs = done ++ [Pending; ..; Pending],  waiters = [|done|; |done|+1; ..]. *)
Definition shape (fs : list fstate) (ws : list nat) (done : list fstate) : Prop :=
  fs = done ++ repeat FPending (length ws) /\ ws = seq (length done) (length ws).

Lemma shape_nil_done fs done : shape fs [] done -> fs = done.
Proof. intros [F _]. rewrite F. apply app_nil_r. Qed.
Lemma shape_done fs : shape fs [] fs.
Proof. split; [symmetry; apply app_nil_r|reflexivity]. Qed.
Lemma shape_delivered fs ws done : shape fs ws done -> delivered fs = delivered done.
Proof. intros [-> _]. apply delivered_nopend_tail. Qed.

Lemma shape_park fs ws done : shape fs ws done -> shape (fs ++ [FPending]) (ws ++ [length fs]) done.
Proof.
  intros [F W]. split; rewrite (app_length ws), Nat.add_1_r.
  - cbn [repeat]. rewrite repeat_cons, app_assoc, <- F. reflexivity.
  - rewrite seq_S, <- W. rewrite F at 1. rewrite app_length, repeat_length. reflexivity.
Qed.

(* the oldest waiter is the first pending slot; resolving it moves it into the `done` part *)
Lemma shape_take fs p w done x : shape fs (p :: w) done -> p = length done /\ shape (set_nth fs p x) w (done ++ [x]).
Proof.
  intros [F W]. cbn [length repeat seq] in *. injection W as Wp Ww. split; [exact Wp|]. split.
  - rewrite F, Wp, set_nth_app_here, <- app_assoc. reflexivity.
  - rewrite app_length, Nat.add_1_r. exact Ww.
Qed.
Lemma delivered_take fs p w done x : shape fs (p :: w) done -> delivered (set_nth fs p x) = delivered fs ++ val_of x.
Proof.
  intros Sh. rewrite (shape_delivered _ _ _ (proj2 (shape_take _ _ _ _ x Sh))), (shape_delivered _ _ _ Sh). apply delivered_snoc.
Qed.

Lemma cancel_all_seq done m : cancel_all (done ++ repeat FPending m) (seq (length done) m) = done ++ repeat FCanceled m.
Proof.
  revert done; induction m as [|m IH]; intros done; cbn [repeat seq cancel_all]; [reflexivity|].
  rewrite set_nth_app_here.
  change (done ++ FCanceled :: repeat FPending m) with (done ++ [FCanceled] ++ repeat FPending m).
  rewrite app_assoc. specialize (IH (done ++ [FCanceled])).
  rewrite app_length in IH. cbn [length] in IH. rewrite Nat.add_1_r in IH. rewrite IH.
  rewrite <- app_assoc. reflexivity.
Qed.

Lemma shape_cancel fs ws done : shape fs ws done ->
  cancel_all fs ws = done ++ repeat FCanceled (length ws) /\
  shape (cancel_all fs ws) [] (done ++ repeat FCanceled (length ws)).
Proof.
  intros [F W]. assert (cancel_all fs ws = done ++ repeat FCanceled (length ws)) as ->.
  { rewrite F at 1. rewrite W at 2. apply cancel_all_seq. }
  split; [reflexivity|apply shape_done].
Qed.

Lemma shape_pending fs ws done i : shape fs ws done -> nopend done -> fget fs i = FPending <-> In i ws.
Proof.
  intros [F W] N. rewrite W, F, in_seq. split.
  - intros H. pose proof (fget_pending_lt _ _ H) as L. rewrite app_length, repeat_length in L. split; [|exact L].
    destruct (Nat.lt_ge_cases i (length done)) as [L1|L1]; [|exact L1].
    rewrite fget_app_left in H by exact L1. exfalso. exact (nopend_fget done i N L1 H).
  - intros H. rewrite fget_app_right by lia. apply fget_repeat. lia.
Qed.
Lemma shape_oldest fs p w done : shape fs (p :: w) done -> nopend done -> oldest_pending fs p.
Proof.
  intros Sh N. split; [apply (shape_pending _ _ _ p Sh N); left; reflexivity|].
  intros j L. rewrite (proj1 (shape_take _ _ _ _ FPending Sh)) in L. rewrite (proj1 Sh), fget_app_left by exact L.
  exact (nopend_fget done j N L).
Qed.
Lemma shape_cancel_get fs ws done i : shape fs ws done -> nopend done ->
  fget (cancel_all fs ws) i = if fstate_eqb (fget fs i) FPending then FCanceled else fget fs i.
Proof.
  intros Sh N. rewrite (proj1 (shape_cancel _ _ _ Sh)). destruct Sh as [-> _].
  destruct (Nat.lt_ge_cases i (length done)) as [L|L].
  - rewrite !fget_app_left by exact L. pose proof (nopend_fget done i N L) as H.
    destruct (fget done i); cbn [fstate_eqb]; try reflexivity. congruence.
  - rewrite !fget_app_right by exact L. destruct (Nat.lt_ge_cases (i - length done) (length ws)) as [L2|L2].
    + rewrite !fget_repeat by exact L2. reflexivity.
    + rewrite !fget_beyond by (rewrite repeat_length; exact L2). reflexivity.
Qed.
Lemma shape_set_head fs p w done x i : shape fs (p :: w) done -> nopend done ->
  fget (set_nth fs p x) i <> fget fs i -> oldest_pending fs i /\ fget (set_nth fs p x) i = x.
Proof.
  intros Sh N H. destruct (Nat.eq_dec p i) as [<-|NE]; [|exfalso; apply H; apply fget_set_other; exact NE].
  pose proof (shape_oldest _ _ _ _ Sh N) as O. split; [exact O|].
  apply fget_set_same. apply fget_pending_lt. exact (proj1 O).
Qed.

Lemma zlist_eqb_refl l : zlist_eqb l l = true.
Proof. induction l as [|x l IH]; cbn [zlist_eqb]; [reflexivity|]. rewrite Z.eqb_refl, IH. reflexivity. Qed.
Lemma trace_eqb_refl l : trace_eqb l l = true.
Proof. induction l as [|x l IH]; cbn [trace_eqb]; [reflexivity|]. rewrite zlist_eqb_refl, IH. reflexivity. Qed.
Lemma zlist_eqb_eq a : forall b, zlist_eqb a b = true -> a = b.
Proof.
  induction a as [|x a IH]; intros [|y b] H; cbn [zlist_eqb] in H; try discriminate; [reflexivity|].
  apply andb_true_iff in H as [E H]. apply Z.eqb_eq in E. f_equal; auto.
Qed.
Lemma trace_eqb_eq a : forall b, trace_eqb a b = true -> a = b.
Proof.
  induction a as [|x a IH]; intros [|y b] H; cbn [trace_eqb] in H; try discriminate; [reflexivity|].
  apply andb_true_iff in H as [E H]. apply zlist_eqb_eq in E. f_equal; auto.
Qed.

Definition qrel (q : queue) (s : qspec) : Prop :=
  s_futs s = futs q /\ s_alive s = alive q /\
  match bal s with
  | BItems l => items q = l /\ waiters q = []
  | BWait w => waiters q = w /\ items q = []
  end.

Lemma q_refines_step q s x : qrel q s ->
  qrel (fst (q_step q x)) (fst (qs_step s x)) /\ snd (q_step q x) = snd (qs_step s x).
Proof.
  intros (F & A & B). unfold q_step, qs_step. rewrite A.
  destruct q as [it ws fs al]; destruct s as [b sf sa]; cbn [items waiters futs alive bal s_futs s_alive] in *.
  subst sf sa.
  destruct al; cbn [negb]; [|split; [repeat split; assumption|reflexivity]].
  destruct x as [v| |e| | |k v|k| ];
    try (split; [repeat split; assumption|reflexivity]);
    destruct b as [l|w]; destruct B as [B1 B2]; subst;
    unfold q_push, q_push_lock, q_resolve, q_pop, q_unblock_pop, q_destroy, q_obs, qs_obs, qrel;
    cbn [items waiters futs alive bal s_futs s_alive fst snd bal_size].
  - (* push, items *) split; [repeat split|reflexivity].
  - (* push, waiters *) destruct w as [|p w]; cbn [fst snd items waiters futs alive app];
      (split; [repeat split|reflexivity]).
  - (* pop, items *) destruct l as [|x t]; cbn [fst snd items waiters futs alive app];
      (split; [repeat split|reflexivity]).
  - (* pop, waiters *) cbn [fst snd]. split; [repeat split|reflexivity].
  - (* unblock, items *) cbn [fst snd]. split; [repeat split|reflexivity].
  - (* unblock, waiters *) destruct w as [|p w]; cbn [fst snd items waiters futs alive];
      (split; [repeat split|reflexivity]).
  - (* size *) split; [repeat split|reflexivity].
  - split; [repeat split|reflexivity].
  - (* destroy *) split; [repeat split|]. cbn [cancel_all]. reflexivity.
  - split; [repeat split|reflexivity].
Qed.

Lemma q_refines_run ops : forall q s, qrel q s ->
  fst (q_run_from q ops) = fst (qs_run_from s ops) /\ qrel (snd (q_run_from q ops)) (snd (qs_run_from s ops)).
Proof.
  induction ops as [|x ops IH]; intros q s R; cbn [q_run_from qs_run_from]; [split; [reflexivity|exact R]|].
  pose proof (q_refines_step q s x R) as [R1 O].
  destruct (q_step q x) as [q1 o]. destruct (qs_step s x) as [s1 o']. cbn [fst snd] in *. subst o'.
  specialize (IH q1 s1 R1). destruct (q_run_from q1 ops) as [os q2]. destruct (qs_run_from s1 ops) as [os' s2].
  cbn [fst snd] in *. destruct IH as [E R2]. subst os'. split; [reflexivity|exact R2].
Qed.

Lemma qrel0 : qrel q0 qs0.
Proof. repeat split. Qed.

(* conservation, order and completion of pops are proved once on the FIFO specification and transported to queue<T>
   (qrel) and queue<void> (vrel) *)
Definition itemlist (b : balance) : list Z := match b with BItems l => l | BWait _ => [] end.
Definition waitlist (b : balance) : list nat := match b with BItems _ => [] | BWait w => w end.
Definition is_destroy (x : qop) : bool := match x with QDestroy => true | _ => false end.
Definition push_val (x : qop) : list Z := match x with QPush v => [v] | _ => [] end.
Definition pushed_vals (l : list qop) : list Z := flat_map push_val l.
Definition no_destroy (l : list qop) : Prop := Forall (fun x => is_destroy x = false) l.

Record sinv (pv : list Z) (s : qspec) (done : list fstate) : Prop := mkSinv {
  si_alive : s_alive s = true;
  si_shape : shape (s_futs s) (waitlist (bal s)) done;
  si_nopend : nopend done;
  si_cons : pv = delivered (s_futs s) ++ itemlist (bal s)
}.

Lemma sinv0 : sinv [] qs0 [].
Proof. split; cbn; try reflexivity; [apply shape_done|constructor]. Qed.

Lemma sinv_step pv s done x : sinv pv s done -> is_destroy x = false ->
  exists done', sinv (pv ++ push_val x) (fst (qs_step s x)) done'.
Proof.
  intros [A Sh N C] ND. unfold qs_step. rewrite A. cbn [negb].
  destruct s as [b sf sa]; cbn [bal s_futs s_alive] in *. subst sa.
  destruct x as [v| |e| | |k v|k| ]; cbn [push_val is_destroy] in *; try discriminate;
    try (exists done; rewrite app_nil_r; split; cbn [fst bal s_futs s_alive]; (assumption || reflexivity)).
  - (* push: queued behind the items, or handed to the oldest waiter *)
    destruct b as [l|[|p w]]; cbn [waitlist itemlist fst bal s_futs s_alive] in *.
    + exists done. split; cbn [bal s_futs s_alive waitlist itemlist]; try assumption; try reflexivity.
      rewrite C. rewrite app_assoc. reflexivity.
    + exists done. split; cbn [bal s_futs s_alive waitlist itemlist]; try assumption; try reflexivity.
      rewrite C. rewrite app_nil_r. reflexivity.
    + exists (done ++ [FValue v]). split; cbn [bal s_futs s_alive waitlist itemlist]; try reflexivity.
      * exact (proj2 (shape_take _ _ _ _ _ Sh)).
      * apply nopend_snoc; [exact N|discriminate].
      * rewrite (delivered_take _ _ _ _ _ Sh), C, !app_nil_r. reflexivity.
  - (* pop: parked, or served with the front item *)
    rewrite app_nil_r.
    destruct b as [[|y t]|w]; cbn [waitlist itemlist fst bal s_futs s_alive] in *.
    + exists done. split; cbn [bal s_futs s_alive waitlist itemlist]; try assumption; try reflexivity.
      * apply (shape_park sf [] done Sh).
      * rewrite delivered_snoc, C, !app_nil_r. reflexivity.
    + rewrite <- (shape_nil_done _ _ Sh) in N.
      exists (sf ++ [FValue y]). split; cbn [bal s_futs s_alive waitlist itemlist]; try reflexivity.
      * apply shape_done.
      * apply nopend_snoc; [exact N|discriminate].
      * rewrite delivered_snoc, C, <- app_assoc. reflexivity.
    + exists done. split; cbn [bal s_futs s_alive waitlist itemlist]; try assumption; try reflexivity.
      * apply (shape_park sf w done Sh).
      * rewrite delivered_snoc, C, !app_nil_r. reflexivity.
  - (* unblock_pop: the oldest waiter, if any, gets the exception *)
    rewrite app_nil_r.
    destruct b as [l|[|p w]]; cbn [waitlist itemlist fst bal s_futs s_alive] in *;
      try (exists done; split; cbn [bal s_futs s_alive waitlist itemlist]; (assumption || reflexivity)).
    exists (done ++ [FExc e]). split; cbn [bal s_futs s_alive waitlist itemlist]; try reflexivity.
    + exact (proj2 (shape_take _ _ _ _ _ Sh)).
    + apply nopend_snoc; [exact N|discriminate].
    + rewrite (delivered_take _ _ _ _ _ Sh), C, !app_nil_r. reflexivity.
Qed.

Lemma sinv_run ops : forall pv s done, sinv pv s done -> no_destroy ops ->
  exists done', sinv (pv ++ pushed_vals ops) (snd (qs_run_from s ops)) done'.
Proof.
  induction ops as [|x ops IH]; intros pv s done I ND; cbn [qs_run_from pushed_vals flat_map].
  - exists done. rewrite app_nil_r. exact I.
  - inversion ND as [|x' l' Hx Hl]; subst.
    destruct (sinv_step pv s done x I Hx) as [d1 I1].
    destruct (qs_step s x) as [s1 o] eqn:E. cbn [fst] in I1.
    destruct (IH _ _ _ I1 Hl) as [d2 I2].
    destruct (qs_run_from s1 ops) as [os s2]. cbn [snd] in *.
    exists d2. rewrite app_assoc. exact I2.
Qed.

Definition q_final (ops : list qop) : queue := snd (q_run_from q0 ops).
Definition q_exec (q : queue) (l : list qop) : queue := snd (q_run_from q l).

Lemma qrel_items q s : qrel q s -> items q = itemlist (bal s) /\ waiters q = waitlist (bal s).
Proof. intros (_ & _ & B). destruct (bal s); cbn; destruct B; split; congruence. Qed.

Lemma qrel_excl q s : qrel q s -> items q = [] \/ waiters q = [].
Proof. intros (_ & _ & B). destruct (bal s); destruct B; [right|left]; assumption. Qed.

Theorem q_not_both_nonempty ops : items (q_final ops) = [] \/ waiters (q_final ops) = [].
Proof. exact (qrel_excl _ _ (proj2 (q_refines_run ops q0 qs0 qrel0))). Qed.

(* the state reached by a history without destruction *)
Record q_good (pv : list Z) (q : queue) (done : list fstate) : Prop := mkQGood {
  qg_alive : alive q = true;
  qg_futs : futs q = done ++ repeat FPending (length (waiters q));
  qg_waiters : waiters q = seq (length done) (length (waiters q));
  qg_nopend : nopend done;
  qg_excl : items q = [] \/ waiters q = [];
  qg_cons : pv = delivered (futs q) ++ items q
}.

Lemma q_good_shape pv q done : q_good pv q done -> shape (futs q) (waiters q) done.
Proof. intros G. split; [exact (qg_futs _ _ _ G)|exact (qg_waiters _ _ _ G)]. Qed.

(* a state with the invariant is related to a state of the FIFO specification, where the invariant was proved *)
Definition spec_of (q : queue) : qspec :=
  mkQS (match waiters q with [] => BItems (items q) | w => BWait w end) (futs q) (alive q).

Lemma qrel_spec_of q : items q = [] \/ waiters q = [] -> qrel q (spec_of q).
Proof.
  intros X. unfold qrel, spec_of. cbn [bal s_futs s_alive]. repeat split.
  destruct (waiters q); [split; reflexivity|]. split; [reflexivity|]. destruct X as [X|X]; [exact X|discriminate].
Qed.

Lemma q_good_exec ops pv q done : q_good pv q done -> no_destroy ops ->
  exists done', q_good (pv ++ pushed_vals ops) (q_exec q ops) done'.
Proof.
  intros G ND. pose proof (qrel_spec_of q (qg_excl _ _ _ G)) as R. pose proof (qrel_items _ _ R) as [EI EW].
  assert (sinv pv (spec_of q) done) as I.
  { split; cbn [spec_of s_alive s_futs]; [exact (qg_alive _ _ _ G)|rewrite <- EW; exact (q_good_shape _ _ _ G)
                                           |exact (qg_nopend _ _ _ G)|rewrite <- EI; exact (qg_cons _ _ _ G)]. }
  destruct (sinv_run ops _ _ _ I ND) as [done' [A Sh N C]].
  destruct (q_refines_run ops q (spec_of q) R) as [_ R']. fold (q_exec q ops) in R'.
  pose proof (qrel_items _ _ R') as [EI' EW']. pose proof (qrel_excl _ _ R') as X. destruct R' as (F & AL & B).
  exists done'. destruct Sh as [S1 S2]. rewrite <- EW' in S1, S2. rewrite F in S1. split; try assumption.
  - congruence.
  - rewrite C, F, EI'. reflexivity.
Qed.

Lemma q_good_run ops : no_destroy ops -> exists done, q_good (pushed_vals ops) (q_final ops) done.
Proof. apply (q_good_exec ops [] q0 []). split; try reflexivity; [constructor|left; reflexivity]. Qed.

(* conservation + order: the values pushed, in push order, are exactly the values held by the pop futures read
   in pop-arrival order, followed by the items still queued.  (List equality: no loss, no duplicate, no swap.) *)
Theorem q_conservation_order ops : no_destroy ops ->
  pushed_vals ops = delivered (futs (q_final ops)) ++ items (q_final ops).
Proof. intros ND. destruct (q_good_run ops ND) as [done G]. exact (qg_cons _ _ _ G). Qed.

(* a pending pop changes state only in three ways; in the first two it is the OLDEST pending pop *)
Theorem q_pop_completes_only_by pv q done x i :
  q_good pv q done -> fget (futs q) i = FPending -> fget (futs (fst (q_step q x))) i <> FPending ->
  (exists v, x = QPush v /\ oldest_pending (futs q) i /\ fget (futs (fst (q_step q x))) i = FValue v) \/
  (exists e, x = QUnblockPop e /\ oldest_pending (futs q) i /\ fget (futs (fst (q_step q x))) i = FExc e) \/
  (x = QDestroy /\ fget (futs (fst (q_step q x))) i = FCanceled).
Proof.
  intros G P. pose proof (q_good_shape _ _ _ G) as Sh. pose proof (qg_nopend _ _ _ G) as N.
  unfold q_step. rewrite (qg_alive _ _ _ G). cbn [negb].
  destruct x as [v| |e| | |k v|k| ]; cbn [fst futs]; try (intros H; exfalso; exact (H P)).
  - unfold q_push, q_push_lock. destruct (waiters q) as [|p w]; cbn [fst futs q_resolve]; intros H; [exfalso; exact (H P)|].
    left. exists v. split; [reflexivity|]. apply (shape_set_head _ _ _ _ _ _ Sh N). congruence.
  - unfold q_pop. destruct (items q); cbn [fst futs]; intros H; exfalso; apply H;
      rewrite fget_app_left by (apply fget_pending_lt; exact P); exact P.
  - unfold q_unblock_pop. destruct (waiters q) as [|p w]; cbn [fst futs]; intros H; [exfalso; exact (H P)|].
    right; left. exists e. split; [reflexivity|]. apply (shape_set_head _ _ _ _ _ _ Sh N). congruence.
  - intros _. right; right. split; [reflexivity|]. unfold q_destroy. cbn [futs].
    rewrite (shape_cancel_get _ _ _ i Sh N), P. reflexivity.
Qed.

Lemma q_good_oldest pv q done i : q_good pv q done -> oldest_pending (futs q) i -> exists w, waiters q = i :: w /\ items q = [].
Proof.
  intros G O. pose proof (q_good_shape _ _ _ G) as Sh. pose proof (qg_nopend _ _ _ G) as N.
  destruct (waiters q) as [|p w] eqn:W; [destruct (proj1 (shape_pending _ _ _ i Sh N) (proj1 O))|].
  exists w. rewrite (oldest_unique _ _ _ O (shape_oldest _ _ _ _ Sh N)). split; [reflexivity|].
  destruct (qg_excl _ _ _ G) as [X|X]; [exact X|rewrite W in X; discriminate].
Qed.

Definition vrel (q : vqueue) (s : qspec) : Prop :=
  s_futs s = vfuts q /\ s_alive s = valive q /\ 0 <= vcnt q /\
  match bal s with
  | BItems l => l = repeat 0 (Z.to_nat (vcnt q)) /\ vwaiters q = []
  | BWait w => vwaiters q = w /\ vcnt q = 0
  end.

(* queue<void>::push carries no value: the wire decoder produces QPush 0 only *)
Definition voidop (x : qop) : Prop := match x with QPush v => v = 0 | _ => True end.
Lemma voidop_decode l : voidop (vq_decode l).
Proof.
  unfold vq_decode. repeat (match goal with |- voidop (match ?x with _ => _ end) => destruct x end; try exact I); reflexivity.
Qed.

Lemma ok_obs_eq r a b d : a = b -> ok_obs r a d = ok_obs r b d.
Proof. intros ->. reflexivity. Qed.
Ltac obs_eq := apply ok_obs_eq; rewrite ?zlen_app, ?zlen_repeat, ?zlen_cons, ?zlen_nil; lia.

Lemma vq_refines_step q s x : vrel q s -> voidop x ->
  vrel (fst (vq_step q x)) (fst (qs_step s x)) /\ snd (vq_step q x) = snd (qs_step s x).
Proof.
  intros (F & A & NN & B) VO. unfold vq_step, qs_step. rewrite A.
  destruct q as [c ws fs al]; destruct s as [b sf sa]; cbn [vcnt vwaiters vfuts valive bal s_futs s_alive] in *.
  subst sf sa.
  destruct al; cbn [negb]; [|split; [repeat split; assumption|reflexivity]].
  destruct x as [v| |e| | |k v|k| ];
    try (split; [repeat split; assumption|reflexivity]);
    destruct b as [l|w]; destruct B as [B1 B2]; cbn [voidop] in VO; subst;
    unfold vq_obs, qs_obs, vrel; cbn [vcnt vwaiters vfuts valive bal s_futs s_alive fst snd bal_size].
  - (* push, items *)
    split; [repeat split; try lia|].
    + replace (Z.to_nat (c + 1)) with (S (Z.to_nat c)) by lia. symmetry. apply repeat_cons.
    + obs_eq.
  - (* push, waiters *)
    destruct w as [|p w]; cbn [fst snd vcnt vwaiters vfuts valive bal s_futs s_alive bal_size].
    + split; [repeat split; lia|reflexivity].
    + split; [repeat split; lia|reflexivity].
  - (* pop, items *)
    destruct (c =? 0) eqn:E.
    + assert (c = 0) as -> by lia. cbn [Z.to_nat repeat]. cbn [fst snd vcnt vwaiters vfuts valive bal s_futs s_alive bal_size app].
      split; [repeat split; lia|reflexivity].
    + assert (Z.to_nat c = S (Z.to_nat (c - 1))) as EQ by lia. rewrite EQ. cbn [repeat].
      cbn [fst snd vcnt vwaiters vfuts valive bal s_futs s_alive bal_size].
      replace (Z.max 1 c - 1) with (c - 1) by lia.
      split; [repeat split; lia|]. obs_eq.
  - (* pop, waiters *)
    rewrite Z.eqb_refl. cbn [fst snd vcnt vwaiters vfuts valive bal s_futs s_alive bal_size].
    split; [repeat split; lia|reflexivity].
  - (* unblock, items *) cbn [fst snd]. split; [repeat split; try lia|]. obs_eq.
  - (* unblock, waiters *)
    destruct w as [|p w]; cbn [fst snd vcnt vwaiters vfuts valive bal s_futs s_alive bal_size];
      (split; [repeat split; lia|reflexivity]).
  - (* size *) split; [repeat split; try lia|]. obs_eq.
  - split; [repeat split; lia|reflexivity].
  - (* destroy *) split; [repeat split; lia|]. cbn [cancel_all]. reflexivity.
  - split; [repeat split; lia|reflexivity].
Qed.

Lemma vq_refines_run ops : forall q s, vrel q s -> Forall voidop ops ->
  fst (vq_run_from q ops) = fst (qs_run_from s ops) /\ vrel (snd (vq_run_from q ops)) (snd (qs_run_from s ops)).
Proof.
  induction ops as [|x ops IH]; intros q s R VO; cbn [vq_run_from qs_run_from]; [split; [reflexivity|exact R]|].
  inversion VO as [|x' l' Vx Vl]; subst.
  pose proof (vq_refines_step q s x R Vx) as [R1 O].
  destruct (vq_step q x) as [q1 o]. destruct (qs_step s x) as [s1 o']. cbn [fst snd] in *. subst o'.
  specialize (IH q1 s1 R1 Vl). destruct (vq_run_from q1 ops) as [os q2]. destruct (qs_run_from s1 ops) as [os' s2].
  cbn [fst snd] in *. destruct IH as [E R2]. subst os'. split; [reflexivity|exact R2].
Qed.

Lemma vrel0 : vrel vq0 qs0.
Proof. repeat split; cbn; lia. Qed.

Definition vq_final (ops : list qop) : vqueue := snd (vq_run_from vq0 ops).

(* counting semaphore: the counter is the number of pushes minus the number of pops that completed with a value,
   it is never negative, and pops wait only at zero *)
Definition completed (fs : list fstate) : Z := zlen (delivered fs).
Definition is_push (x : qop) : bool := match x with QPush _ => true | _ => false end.
Definition pushes (l : list qop) : Z := zlen (filter is_push l).

Lemma pushed_vals_length l : zlen (pushed_vals l) = pushes l.
Proof.
  unfold pushes, pushed_vals. induction l as [|x l IH]; [reflexivity|].
  cbn [flat_map filter]. destruct x; cbn [push_val is_push app]; try exact IH. rewrite !zlen_cons. lia.
Qed.

Theorem vq_semaphore ops : no_destroy ops -> Forall voidop ops ->
  vcnt (vq_final ops) = pushes ops - completed (vfuts (vq_final ops)) /\ 0 <= vcnt (vq_final ops) /\
  (vwaiters (vq_final ops) <> [] -> vcnt (vq_final ops) = 0).
Proof.
  intros ND. destruct (sinv_run ops [] qs0 [] sinv0 ND) as [done [A Sh N C]].
  intros VO. pose proof (vq_refines_run ops vq0 qs0 vrel0 VO) as [_ (F & AL & NN & B)].
  fold (vq_final ops) in *. cbn [app] in C. unfold completed.
  pose proof (pushed_vals_length ops) as PL. rewrite C in PL. rewrite zlen_app in PL. rewrite F in PL.
  destruct (bal (snd (qs_run_from qs0 ops))) as [l|w]; cbn [itemlist] in PL; destruct B as [B1 B2].
  - subst l. rewrite zlen_repeat in PL. split; [lia|]. split; [lia|]. intros H; contradiction.
  - rewrite zlen_nil in PL. split; [lia|]. split; [lia|]. intros _; exact B2.
Qed.

(* limited_queue<T>: an entry of the bounded FIFO is an admitted item or the item of a blocked push *)
Definition adm (v : Z) : Z * option nat := (v, None).
Definition blk (e : Z * nat) : Z * option nat := (fst e, Some (snd e)).

Definition lrel (q : lqueue) (s : lspec) : Prop :=
  ls_futs s = l_futs q /\ ls_pfuts s = l_pfuts q /\ ls_alive s = l_alive q /\ ls_limit s = l_limit q /\
  ls_pend s = l_waiters q /\ ls_fifo s = map adm (l_items q) ++ map blk (l_blocked q).

(* size facts of a live limited_queue with limit >= 1 *)
Record lsz (q : lqueue) : Prop := mkLsz {
  lz_limit : 1 <= l_limit q;
  lz_size : zlen (l_items q) <= l_limit q;
  lz_full : l_blocked q <> [] -> zlen (l_items q) = l_limit q;
  lz_wait : l_waiters q <> [] -> l_items q = []
}.

Ltac lf := cbn [l_items l_waiters l_blocked l_limit l_futs l_pfuts l_alive] in *.

Lemma filter_admitted its bs : filter admitted (map adm its ++ map blk bs) = map adm its.
Proof.
  induction its as [|x t IH]; cbn [map app filter].
  - induction bs as [|[y f] b IHb]; cbn [map filter]; [reflexivity|exact IHb].
  - cbn [admitted adm snd]. rewrite IH. reflexivity.
Qed.
Lemma ls_size_rel q s : lrel q s -> ls_size s = zlen (l_items q).
Proof. intros (_ & _ & _ & _ & _ & F). unfold ls_size. rewrite F, filter_admitted. unfold zlen. rewrite map_length. reflexivity. Qed.
Lemma lrel_obs q s q' s' r : lrel q s -> lrel q' s' -> lq_obs q q' r = ls_obs s s' r.
Proof.
  intros R R'. unfold lq_obs, ls_obs. rewrite (ls_size_rel _ _ R').
  destruct R as (F & P & _). destruct R' as (F' & P' & _). rewrite F, P, F', P'. reflexivity.
Qed.
Lemma admit_first_blocked t y bp b :
  admit_first (map adm t ++ map blk ((y, bp) :: b)) = (map adm (t ++ [y]) ++ map blk b, Some bp).
Proof.
  induction t as [|x t IH]; cbn [map app admit_first blk adm fst snd]; [reflexivity|].
  cbn [map app blk fst snd] in IH. rewrite IH. reflexivity.
Qed.
Lemma admit_first_none t : admit_first (map adm t) = (map adm t, None).
Proof. induction t as [|x t IH]; cbn [map]; [reflexivity|]. unfold adm at 1. cbn [admit_first]. rewrite IH. reflexivity. Qed.
Lemma drop_first_blocked t y bp b :
  drop_first (map adm t ++ map blk ((y, bp) :: b)) = (map adm t ++ map blk b, Some bp).
Proof.
  induction t as [|x t IH]; cbn [map app drop_first blk adm fst snd]; [reflexivity|].
  cbn [map app blk fst snd] in IH. rewrite IH. reflexivity.
Qed.
Lemma drop_first_none t : drop_first (map adm t) = (map adm t, None).
Proof. induction t as [|x t IH]; cbn [map]; [reflexivity|]. unfold adm at 1. cbn [drop_first]. rewrite IH. reflexivity. Qed.
Lemma pending_pushes_rel its bs : pending_pushes (map adm its ++ map blk bs) = map snd bs.
Proof.
  induction its as [|x t IH]; cbn [map app pending_pushes adm].
  - induction bs as [|[y f] b IHb]; cbn [map pending_pushes blk fst snd]; [reflexivity|]. rewrite IHb. reflexivity.
  - exact IH.
Qed.

(* one field of lsz after a step: known, arithmetic on the lengths, or its premise is absurd *)
Ltac lsz_fin :=
  cbn [l_items l_waiters l_blocked l_limit]; rewrite ?zlen_app, ?zlen_cons, ?zlen_nil in *;
  first [ assumption | lia | reflexivity
        | let H' := fresh "H'" in intros H'; first [ contradiction | discriminate | reflexivity | lia | tauto ] ].

Lemma lsz_step q x : lsz q -> lsz (fst (lq_step_on q x)).
Proof.
  intros Z. pose proof Z as [L S F W]. unfold lq_step_on. destruct (l_alive q); cbn [negb]; [|exact Z].
  destruct q as [it ws bl lim fs pf al]; lf.
  destruct x as [l|v| |e| | |e| ]; cbn [fst]; try exact Z.
  - (* push *)
    unfold lq_push; lf.
    destruct ws as [|p w]; cbn [fst].
    + destruct (zlen it >=? lim) eqn:E; cbn [fst].
      * split; lsz_fin.
      * assert (bl = []) as -> by (destruct bl; [reflexivity|]; exfalso; assert (zlen it = lim) by (apply F; discriminate); lia).
        split; lsz_fin.
    + assert (it = []) as -> by (apply W; discriminate).
      split; lsz_fin.
  - (* pop *)
    unfold lq_pop; lf.
    destruct it as [|y t]; cbn [fst].
    + split; lsz_fin.
    + assert (ws = []) as -> by (destruct ws; [reflexivity|]; exfalso; assert (y :: t = []) by (apply W; discriminate); discriminate).
      destruct bl as [|[z bp] b]; cbn [fst].
      * split; lsz_fin.
      * assert (zlen (y :: t) = lim) as E by (apply F; discriminate).
        split; lsz_fin.
  - (* unblock_pop *)
    unfold lq_unblock_pop; lf.
    destruct ws as [|p w]; cbn [fst]; [exact Z|].
    assert (it = []) as -> by (apply W; discriminate). split; lsz_fin.
  - (* destroy *) unfold lq_destroy. split; lsz_fin.
  - (* unblock_push *)
    unfold lq_unblock_push; lf.
    destruct bl as [|[z bp] b]; cbn [fst]; [exact Z|].
    assert (zlen it = lim) as E by (apply F; discriminate). split; lsz_fin.
Qed.

Lemma lq_refines_step q s x : lrel q s -> lsz q ->
  lrel (fst (lq_step_on q x)) (fst (ls_step_on s x)) /\ snd (lq_step_on q x) = snd (ls_step_on s x).
Proof.
  intros R Z. pose proof R as (F & P & A & L & W & Q).
  assert (forall q' s' r, lrel q' s' -> lrel (fst (q', lq_obs q q' r)) (fst (s', ls_obs s s' r)) /\
                          snd (q', lq_obs q q' r) = snd (s', ls_obs s s' r)) as K.
  { intros q' s' r R'. cbn [fst snd]. split; [exact R'|apply lrel_obs; assumption]. }
  unfold lq_step_on, ls_step_on. rewrite A.
  destruct (l_alive q) eqn:AL; cbn [negb]; [|split; [exact R|reflexivity]].
  destruct Z as [ZL ZS ZF ZW].
  destruct q as [it ws bl lim fs pf al]; destruct s as [ff pd sl sf spf sa];
    cbn [l_items l_waiters l_blocked l_limit l_futs l_pfuts l_alive ls_fifo ls_pend ls_limit ls_futs ls_pfuts ls_alive] in *.
  subst sf spf sa sl pd ff al.
  destruct x as [l|v| |e| | |e| ]; try (split; [exact R|reflexivity]).
  - (* push *)
    unfold lq_push; lf.
    destruct ws as [|p w].
    + rewrite zlen_app, !zlen_map.
      destruct (zlen it >=? lim) eqn:E.
      * assert (zlen it + zlen bl <? lim = false) as -> by (pose proof (zlen_nonneg bl); lia).
        apply K. repeat split; cbn [l_items l_waiters l_blocked l_limit l_futs l_pfuts l_alive ls_fifo ls_pend ls_limit ls_futs ls_pfuts ls_alive].
        rewrite (map_app blk). cbn [map blk fst snd]. rewrite <- app_assoc. reflexivity.
      * assert (bl = []) as -> by (destruct bl; [reflexivity|]; exfalso; assert (zlen it = lim) by (apply ZF; discriminate); lia).
        assert (zlen (@nil (Z * nat)) = 0) as EZ by reflexivity. rewrite EZ. assert (zlen it + 0 <? lim = true) as -> by lia.
        apply K. repeat split; cbn [l_items l_waiters l_blocked l_limit l_futs l_pfuts l_alive ls_fifo ls_pend ls_limit ls_futs ls_pfuts ls_alive].
        cbn [map]. rewrite !app_nil_r. rewrite (map_app adm). reflexivity.
    + apply K. repeat split.
  - (* pop *)
    unfold lq_pop; lf.
    destruct it as [|y t].
    + assert (bl = []) as -> by (destruct bl; [reflexivity|]; exfalso; assert (zlen (@nil Z) = lim) by (apply ZF; discriminate); rewrite zlen_nil in *; lia).
      cbn [map app]. apply K. repeat split.
    + cbn [map app adm]. destruct bl as [|[z bp] b].
      * cbn [map]. rewrite app_nil_r. fold adm. rewrite admit_first_none.
        apply K. repeat split; cbn [l_items l_blocked ls_fifo map]. rewrite app_nil_r. reflexivity.
      * fold adm. rewrite admit_first_blocked. apply K. repeat split.
  - (* unblock_pop *)
    unfold lq_unblock_pop; lf.
    destruct ws as [|p w]; apply K; [exact R|repeat split].
  - (* size *) apply K. exact R.
  - (* destroy *)
    apply K. unfold lq_destroy. repeat split; cbn [l_items l_waiters l_blocked l_limit l_futs l_pfuts l_alive ls_fifo ls_pend ls_limit ls_futs ls_pfuts ls_alive].
    rewrite pending_pushes_rel. reflexivity.
  - (* unblock_push *)
    unfold lq_unblock_push; lf.
    destruct bl as [|[z bp] b].
    + cbn [map]. rewrite app_nil_r. rewrite drop_first_none. apply K. repeat split. cbn [ls_fifo l_items l_blocked map]. rewrite app_nil_r. reflexivity.
    + rewrite drop_first_blocked. apply K. repeat split.
Qed.

Lemma lq_refines_run_on ops : forall q s, lrel q s -> lsz q ->
  fst (lq_run_from (Some q) ops) = fst (ls_run_from (Some s) ops).
Proof.
  induction ops as [|x ops IH]; intros q s R Z; cbn [lq_run_from ls_run_from lq_step ls_step]; [reflexivity|].
  pose proof (lq_refines_step q s x R Z) as [R1 O]. pose proof (lsz_step q x Z) as Z1.
  destruct (lq_step_on q x) as [q1 o]. destruct (ls_step_on s x) as [s1 o']. cbn [fst snd] in *. subst o'.
  specialize (IH q1 s1 R1 Z1). destruct (lq_run_from (Some q1) ops) as [os q2]. destruct (ls_run_from (Some s1) ops) as [os' s2].
  cbn [fst] in *. subst os'. reflexivity.
Qed.

Lemma lsz_new limit : 1 <= limit -> lsz (lq_new limit).
Proof. intros H. split; cbn; try lia; intros; congruence. Qed.
Lemma lrel_new limit : lrel (lq_new limit) (ls_new limit).
Proof. repeat split. Qed.

(* every create op of the history asks for a limit >= 1 *)
Definition limits_ok (l : list lop) : Prop := Forall (fun x => match x with LCreate n => 1 <= n | _ => True end) l.

Lemma lq_refines_run_none ops : limits_ok ops -> fst (lq_run_from None ops) = fst (ls_run_from None ops).
Proof.
  induction ops as [|x ops IH]; intros LO; cbn [lq_run_from ls_run_from lq_step ls_step]; [reflexivity|].
  inversion LO as [|x' l' Hx Hl]; subst.
  destruct x as [n|v| |e| | |e| ];
    try (specialize (IH Hl); destruct (lq_run_from None ops); destruct (ls_run_from None ops); cbn [fst] in *; congruence).
  assert (0 <=? n = true) as -> by lia.
  pose proof (lq_refines_run_on ops (lq_new n) (ls_new n) (lrel_new n) (lsz_new n Hx)) as E.
  destruct (lq_run_from (Some (lq_new n)) ops); destruct (ls_run_from (Some (ls_new n)) ops); cbn [fst] in *. subst. reflexivity.
Qed.

Definition l_is_destroy (x : lop) : bool := match x with LDestroy => true | LCreate _ => true | _ => false end.
Definition l_push_val (x : lop) : list Z := match x with LPush v => [v] | _ => [] end.
Definition l_pushed_vals (l : list lop) : list Z := flat_map l_push_val l.
Definition l_no_destroy (l : list lop) : Prop := Forall (fun x => l_is_destroy x = false) l.

(* the items of the pushes that were not withdrawn: the i-th push is dropped iff its push future failed (unblock_push) *)
Fixpoint kept (pv : list Z) (fs : list fstate) : list Z :=
  match pv, fs with
  | v :: p, f :: t => (match f with FExc _ => [] | _ => [v] end) ++ kept p t
  | _, _ => []
  end.

Lemma kept_app a : forall fa b fb, length a = length fa -> kept (a ++ b) (fa ++ fb) = kept a fa ++ kept b fb.
Proof.
  induction a as [|v a IH]; intros [|f fa] b fb H; cbn [length] in H; try discriminate; cbn [app kept]; [reflexivity|].
  rewrite IH by lia. rewrite app_assoc. reflexivity.
Qed.
Lemma kept_pending l : kept l (repeat FPending (length l)) = l.
Proof. induction l as [|v l IH]; cbn [length repeat kept app]; [reflexivity|]. rewrite IH. reflexivity. Qed.
Lemma kept_nil_r l : kept l [] = [].
Proof. destruct l; reflexivity. Qed.

Record lgood (pv : list Z) (q : lqueue) (done pdone : list fstate) (pva : list Z) : Prop := mkLGood {
  lg_alive : l_alive q = true;
  lg_sz : lsz q;
  lg_shape : shape (l_futs q) (l_waiters q) done;
  lg_nopend : nopend done;
  lg_pshape : shape (l_pfuts q) (map snd (l_blocked q)) pdone;
  lg_pnopend : nopend pdone;
  lg_pv : pv = pva ++ map fst (l_blocked q);
  lg_len : length pva = length pdone;
  lg_kept : kept pva pdone = delivered (l_futs q) ++ l_items q
}.

Lemma lgood_new limit : 1 <= limit -> lgood [] (lq_new limit) [] [] [].
Proof. intros H. split; cbn; try reflexivity; try (apply lsz_new; exact H); try apply shape_done; constructor. Qed.

Lemma lgood_step pv q done pdone pva x : lgood pv q done pdone pva -> l_is_destroy x = false ->
  exists done' pdone' pva', lgood (pv ++ l_push_val x) (fst (lq_step_on q x)) done' pdone' pva'.
Proof.
  intros G ND. pose proof G as [A Z Sh N PSh PN PV LE KE].
  pose proof (lsz_step q x Z) as Z'.
  revert Z'. unfold lq_step_on. rewrite A. cbn [negb].
  destruct Z as [ZL ZS ZF ZW].
  destruct q as [it ws bl lim fs pf al]; lf. subst al.
  destruct x as [l|v| |e| | |e| ]; cbn [l_is_destroy l_push_val] in *; try discriminate; cbn [fst]; intros Z';
    try (exists done, pdone, pva; rewrite app_nil_r; exact G).
  - (* push *)
    revert Z'. unfold lq_push; lf.
    destruct ws as [|p w]; cbn [fst].
    + destruct (zlen it >=? lim) eqn:E; cbn [fst]; intros Z'.
      * (* blocks *)
        exists done, pdone, pva. split; lf; try assumption; try reflexivity.
        -- rewrite map_app. cbn [map snd]. apply shape_park. exact PSh.
        -- rewrite PV. rewrite (map_app fst). cbn [map fst]. rewrite app_assoc. reflexivity.
      * (* enqueues: nobody is blocked *)
        assert (bl = []) as -> by (destruct bl; [reflexivity|]; exfalso; assert (zlen it = lim) by (apply ZF; discriminate); lia).
        cbn [map] in *. pose proof (shape_nil_done _ _ PSh) as EP. subst pf.
        exists done, (pdone ++ [FValue 0]), (pva ++ [v]).
        split; cbn [l_items l_waiters l_blocked l_limit l_futs l_pfuts l_alive map]; try assumption; try reflexivity.
        -- apply shape_done.
        -- apply nopend_snoc; [exact PN|discriminate].
        -- rewrite PV. rewrite !app_nil_r. reflexivity.
        -- rewrite !app_length. cbn [length]. lia.
        -- rewrite kept_app by exact LE. rewrite KE. cbn [kept app]. rewrite <- app_assoc. reflexivity.
    + (* hand-over to the oldest waiting pop *)
      intros Z'. assert (it = []) as -> by (apply ZW; discriminate).
      assert (bl = []) as -> by (destruct bl; [reflexivity|]; exfalso; assert (zlen (@nil Z) = lim) by (apply ZF; discriminate); rewrite zlen_nil in *; lia).
      cbn [map] in *. pose proof (shape_nil_done _ _ PSh) as EP. subst pf.
      pose proof (proj2 (shape_take _ _ _ _ (FValue v) Sh)) as Hsh.
      exists (done ++ [FValue v]), (pdone ++ [FValue 0]), (pva ++ [v]).
      split; cbn [l_items l_waiters l_blocked l_limit l_futs l_pfuts l_alive map]; try assumption; try reflexivity.
      * apply nopend_snoc; [exact N|discriminate].
      * apply shape_done.
      * apply nopend_snoc; [exact PN|discriminate].
      * rewrite PV. rewrite !app_nil_r. reflexivity.
      * rewrite !app_length. cbn [length]. lia.
      * rewrite kept_app by exact LE. rewrite KE. cbn [kept app]. rewrite (delivered_take _ _ _ _ _ Sh), !app_nil_r. reflexivity.
  - (* pop *)
    rewrite app_nil_r. revert Z'. unfold lq_pop; lf.
    destruct it as [|y t]; cbn [fst]; intros Z'.
    + exists done, pdone, pva. split; lf; try assumption; try reflexivity.
      * apply shape_park. exact Sh.
      * rewrite KE. rewrite delivered_app. cbn. rewrite !app_nil_r. reflexivity.
    + assert (ws = []) as -> by (destruct ws; [reflexivity|]; exfalso; assert (y :: t = []) by (apply ZW; discriminate); discriminate).
      pose proof (shape_nil_done _ _ Sh) as ED. pose proof (shape_done (fs ++ [FValue y])) as Sh'.
      destruct bl as [|[z bp] b]; cbn [fst] in *.
      * exists (fs ++ [FValue y]), pdone, pva.
        split; lf; try assumption; try reflexivity.
        -- apply nopend_snoc; [rewrite ED; exact N|discriminate].
        -- rewrite KE. rewrite delivered_app. cbn [delivered flat_map val_of app]. rewrite <- app_assoc. reflexivity.
      * cbn [map snd fst] in *.
        pose proof (proj2 (shape_take _ _ _ _ (FValue 0) PSh)) as Hsh.
        exists (fs ++ [FValue y]), (pdone ++ [FValue 0]), (pva ++ [z]).
        split; lf; try assumption; try reflexivity.
        -- apply nopend_snoc; [rewrite ED; exact N|discriminate].
        -- apply nopend_snoc; [exact PN|discriminate].
        -- rewrite PV. rewrite <- app_assoc. reflexivity.
        -- rewrite !app_length. cbn [length]. lia.
        -- rewrite kept_app by exact LE. rewrite KE. cbn [kept app]. rewrite delivered_app.
           cbn [delivered flat_map val_of app]. rewrite <- !app_assoc. reflexivity.
  - (* unblock_pop *)
    rewrite app_nil_r. revert Z'. unfold lq_unblock_pop; lf.
    destruct ws as [|p w]; cbn [fst]; intros Z'; [exists done, pdone, pva; exact G|].
    assert (it = []) as -> by (apply ZW; discriminate).
    pose proof (proj2 (shape_take _ _ _ _ (FExc e) Sh)) as Hsh.
    exists (done ++ [FExc e]), pdone, pva.
    split; lf; try assumption; try reflexivity.
    + apply nopend_snoc; [exact N|discriminate].
    + rewrite KE, (delivered_take _ _ _ _ _ Sh), !app_nil_r. reflexivity.
  - (* unblock_push *)
    rewrite app_nil_r. revert Z'. unfold lq_unblock_push; lf.
    destruct bl as [|[z bp] b]; cbn [fst]; intros Z'; [exists done, pdone, pva; exact G|].
    cbn [map snd fst] in *.
    pose proof (proj2 (shape_take _ _ _ _ (FExc e) PSh)) as Hsh.
    exists done, (pdone ++ [FExc e]), (pva ++ [z]).
    split; lf; try assumption; try reflexivity.
    + apply nopend_snoc; [exact PN|discriminate].
    + rewrite PV. rewrite <- app_assoc. reflexivity.
    + rewrite !app_length. cbn [length]. lia.
    + rewrite kept_app by exact LE. rewrite KE. cbn [kept app]. rewrite !app_nil_r. reflexivity.
Qed.

Fixpoint lq_exec (q : lqueue) (l : list lop) : lqueue :=
  match l with [] => q | x :: t => lq_exec (fst (lq_step_on q x)) t end.

Lemma lq_exec_run q ops : snd (lq_run_from (Some q) ops) = Some (lq_exec q ops).
Proof.
  revert q; induction ops as [|x ops IH]; intros q; cbn [lq_run_from lq_exec lq_step]; [reflexivity|].
  destruct (lq_step_on q x) as [q1 o]. cbn [fst]. specialize (IH q1). destruct (lq_run_from (Some q1) ops). exact IH.
Qed.

Lemma lq_step_limit q x : l_limit (fst (lq_step_on q x)) = l_limit q.
Proof.
  unfold lq_step_on. destruct (l_alive q); cbn [negb fst]; [|reflexivity]. destruct x; cbn [fst]; try reflexivity.
  - unfold lq_push. destruct (l_waiters q); [destruct (zlen (l_items q) >=? l_limit q)|]; reflexivity.
  - unfold lq_pop. destruct (l_items q); [|destruct (l_blocked q) as [|[? ?] ?]]; reflexivity.
  - unfold lq_unblock_pop. destruct (l_waiters q); reflexivity.
  - unfold lq_unblock_push. destruct (l_blocked q) as [|[? ?] ?]; reflexivity.
Qed.
Lemma lq_exec_limit ops : forall q, l_limit (lq_exec q ops) = l_limit q.
Proof. induction ops as [|x ops IH]; intros q; cbn [lq_exec]; [reflexivity|]. rewrite IH. apply lq_step_limit. Qed.

Lemma lgood_run ops : forall pv q done pdone pva, lgood pv q done pdone pva -> l_no_destroy ops ->
  exists done' pdone' pva', lgood (pv ++ l_pushed_vals ops) (lq_exec q ops) done' pdone' pva'.
Proof.
  induction ops as [|x ops IH]; intros pv q done pdone pva G ND; cbn [lq_exec l_pushed_vals flat_map].
  - exists done, pdone, pva. rewrite app_nil_r. exact G.
  - inversion ND as [|x' l' Hx Hl]; subst.
    destruct (lgood_step _ _ _ _ _ x G Hx) as (d1 & p1 & a1 & G1).
    destruct (IH _ _ _ _ _ G1 Hl) as (d2 & p2 & a2 & G2).
    exists d2, p2, a2. rewrite app_assoc. exact G2.
Qed.

Definition lq_reach (limit : Z) (ops : list lop) : lqueue := lq_exec (lq_new limit) ops.

Lemma lgood_reach limit ops : 1 <= limit -> l_no_destroy ops ->
  exists done pdone pva, lgood (l_pushed_vals ops) (lq_reach limit ops) done pdone pva.
Proof. intros L ND. exact (lgood_run ops [] _ _ _ _ (lgood_new limit L) ND). Qed.

(* conservation + order: the pushed items minus the withdrawn ones (push future failed by unblock_push), in push order,
   are exactly: the values held by the pop futures in pop-arrival order, then the queued items, then the items
   held by the blocked pushes.  List equality: nothing lost, nothing duplicated, nothing reordered. *)
Theorem lq_conservation_order limit ops : 1 <= limit -> l_no_destroy ops ->
  let q := lq_reach limit ops in
  kept (l_pushed_vals ops) (l_pfuts q) = delivered (l_futs q) ++ l_items q ++ map fst (l_blocked q).
Proof.
  intros L ND q. destruct (lgood_reach limit ops L ND) as (done & pdone & pva & [A Z Sh N PSh PN PV LE KE]).
  fold q in A, Z, Sh, PSh, PV, KE. rewrite PV. destruct PSh as [PF PW]. rewrite PF.
  rewrite kept_app by exact LE. rewrite KE. rewrite map_length.
  rewrite <- (map_length fst (l_blocked q)). rewrite kept_pending. rewrite app_assoc. reflexivity.
Qed.

(* the blocked pushes are exactly the pending push futures, oldest first, each holding the item of its own push;
   nobody is blocked unless the queue is full; nobody waits unless it is empty *)
Theorem lq_blocked_fifo limit ops : 1 <= limit -> l_no_destroy ops ->
  let q := lq_reach limit ops in
  exists pdone, l_pfuts q = pdone ++ repeat FPending (length (l_blocked q)) /\ nopend pdone /\
    map snd (l_blocked q) = seq (length pdone) (length (l_blocked q)) /\
    map fst (l_blocked q) = skipn (length pdone) (l_pushed_vals ops) /\
    (l_blocked q <> [] -> zlen (l_items q) = limit) /\ zlen (l_items q) <= limit /\
    (l_waiters q <> [] -> l_items q = [] /\ l_blocked q = []).
Proof.
  intros L ND q. destruct (lgood_reach limit ops L ND) as (done & pdone & pva & [A Z Sh N PSh PN PV LE KE]).
  fold q in A, Z, Sh, PSh, PV, KE. destruct PSh as [PF PW]. rewrite map_length in PF, PW.
  assert (l_limit q = limit) as EL by apply (lq_exec_limit ops (lq_new limit)).
  destruct Z as [ZL ZS ZF ZW]. rewrite EL in *.
  exists pdone. repeat split; try assumption.
  - rewrite PV. rewrite <- LE. rewrite skipn_app, Nat.sub_diag, skipn_all. reflexivity.
  - apply ZW; assumption.
  - destruct (l_blocked q) eqn:B; [reflexivity|]. exfalso.
    assert (l_items q = []) as E by (apply ZW; assumption). assert (zlen (l_items q) = limit) as E2 by (apply ZF; discriminate).
    rewrite E, zlen_nil in E2. lia.
Qed.

(* a push completes immediately exactly while fewer than `limit` items are waiting; otherwise its future is pending *)
Theorem lq_push_immediate_iff pv q done pdone pva v : lgood pv q done pdone pva ->
  let q' := fst (lq_push q v) in let f := snd (lq_push q v) in
  f = length (l_pfuts q) /\ l_pfuts q' = l_pfuts q ++ [if zlen (l_items q) <? l_limit q then FValue 0 else FPending] /\
  (zlen (l_items q) <? l_limit q = false -> l_blocked q' = l_blocked q ++ [(v, f)] /\ l_items q' = l_items q /\ l_futs q' = l_futs q).
Proof.
  intros [A [ZL ZS ZF ZW] Sh N PSh PN PV LE KE]. unfold lq_push.
  destruct (l_waiters q) as [|p w] eqn:W; cbn [fst snd l_pfuts l_blocked l_items l_futs].
  - destruct (zlen (l_items q) >=? l_limit q) eqn:E; cbn [fst snd l_pfuts l_blocked l_items l_futs].
    + assert (zlen (l_items q) <? l_limit q = false) as -> by lia. repeat split.
    + assert (zlen (l_items q) <? l_limit q = true) as -> by lia. repeat split; discriminate.
  - assert (l_items q = []) as E by (apply ZW; discriminate).
    replace (zlen (l_items q)) with 0 by (rewrite E; reflexivity).
    assert (0 <? l_limit q = true) as -> by lia. repeat split; discriminate.
Qed.

(* push futures change only at the OLDEST pending push, only by pop (completed) or unblock_push (failed with e),
   or all at once by destruction (canceled) *)
Theorem lq_push_completes_only_by pv q done pdone pva x j : lgood pv q done pdone pva ->
  fget (l_pfuts (fst (lq_step_on q x))) j <> fget (l_pfuts q) j -> (j < length (l_pfuts q))%nat ->
  (x = LPop /\ l_items q <> [] /\ oldest_pending (l_pfuts q) j /\ fget (l_pfuts (fst (lq_step_on q x))) j = FValue 0) \/
  (exists e, x = LUnblockPush e /\ oldest_pending (l_pfuts q) j /\ fget (l_pfuts (fst (lq_step_on q x))) j = FExc e) \/
  (x = LDestroy /\ fget (l_pfuts q) j = FPending /\ fget (l_pfuts (fst (lq_step_on q x))) j = FCanceled).
Proof.
  intros G. pose proof (lg_pshape _ _ _ _ _ G) as PSh. pose proof (lg_pnopend _ _ _ _ _ G) as PN.
  unfold lq_step_on. rewrite (lg_alive _ _ _ _ _ G). cbn [negb].
  destruct x as [l|v| |e| | |e| ]; cbn [fst l_pfuts]; try (intros H; exfalso; apply H; reflexivity).
  - (* push: only appends *)
    unfold lq_push. destruct (l_waiters q); [destruct (zlen (l_items q) >=? l_limit q)|]; cbn [fst l_pfuts];
      intros H LT; exfalso; apply H; apply fget_app_left; exact LT.
  - (* pop: the head of the blocked pushes is admitted *)
    unfold lq_pop. destruct (l_items q) as [|y t]; cbn [fst l_pfuts]; [intros H; exfalso; apply H; reflexivity|].
    destruct (l_blocked q) as [|[z bp] b]; cbn [fst l_pfuts]; [intros H; exfalso; apply H; reflexivity|].
    intros H _. left. split; [reflexivity|]. split; [discriminate|]. exact (shape_set_head _ _ _ _ _ _ PSh PN H).
  - unfold lq_unblock_pop. destruct (l_waiters q); cbn [fst l_pfuts]; intros H; exfalso; apply H; reflexivity.
  - (* destroy *)
    intros H _. right; right. split; [reflexivity|]. unfold lq_destroy in *. cbn [l_pfuts] in *.
    rewrite (shape_cancel_get _ _ _ j PSh PN) in *.
    destruct (fget (l_pfuts q) j); cbn [fstate_eqb] in *; try (exfalso; apply H; reflexivity). split; reflexivity.
  - (* unblock_push: the head of the blocked pushes is failed *)
    unfold lq_unblock_push. destruct (l_blocked q) as [|[z bp] b]; cbn [fst l_pfuts]; [intros H; exfalso; apply H; reflexivity|].
    intros H _. right; left. exists e. split; [reflexivity|]. exact (shape_set_head _ _ _ _ _ _ PSh PN H).
Qed.

(* one per pop: a pop changes at most one push future *)
Theorem lq_one_per_pop pv q done pdone pva j k : lgood pv q done pdone pva ->
  (j < length (l_pfuts q))%nat -> (k < length (l_pfuts q))%nat ->
  fget (l_pfuts (fst (lq_step_on q LPop))) j <> fget (l_pfuts q) j ->
  fget (l_pfuts (fst (lq_step_on q LPop))) k <> fget (l_pfuts q) k -> j = k.
Proof.
  intros G Lj Lk Hj Hk.
  destruct (lq_push_completes_only_by _ _ _ _ _ LPop j G Hj Lj) as [(_ & _ & Oj & _)|[(e & X & _)|(X & _)]]; try discriminate.
  destruct (lq_push_completes_only_by _ _ _ _ _ LPop k G Hk Lk) as [(_ & _ & Ok & _)|[(e & X & _)|(X & _)]]; try discriminate.
  exact (oldest_unique _ _ _ Oj Ok).
Qed.

(* unblock_push is exact: it fails the oldest blocked push with e, withdraws that push's own item, nothing else moves *)
Theorem lq_unblock_push_exact pv q done pdone pva e : lgood pv q done pdone pva ->
  let q' := fst (lq_step_on q (LUnblockPush e)) in
  match l_blocked q with
  | [] => q' = q
  | (y, j) :: b =>
      oldest_pending (l_pfuts q) j /\ y = nth j pv 0 /\
      l_pfuts q' = set_nth (l_pfuts q) j (FExc e) /\ l_blocked q' = b /\
      l_items q' = l_items q /\ l_futs q' = l_futs q /\ l_waiters q' = l_waiters q /\ l_limit q' = l_limit q /\ l_alive q' = true
  end.
Proof.
  intros [A _ _ _ PSh PN PV LE _]. unfold lq_step_on. rewrite A. cbn [negb fst]. unfold lq_unblock_push.
  destruct (l_blocked q) as [|[y j] b]; cbn [fst]; [reflexivity|]. cbn [map snd fst] in PSh, PV.
  split; [exact (shape_oldest _ _ _ _ PSh PN)|]. split.
  - rewrite PV, (proj1 (shape_take _ _ _ _ FPending PSh)), <- LE, app_nth2, Nat.sub_diag by lia. reflexivity.
  - cbn [l_pfuts l_blocked l_items l_futs l_waiters l_limit l_alive]. repeat split. exact A.
Qed.

(* the pop side of limited_queue behaves as in queue<T>: a waiting pop is completed only by a push (the oldest one,
   with the pushed value), by the base class' unblock_pop (the oldest, with e) or by destruction *)
Theorem lq_pop_completes_only_by pv q done pdone pva x i : lgood pv q done pdone pva ->
  fget (l_futs q) i = FPending -> fget (l_futs (fst (lq_step_on q x))) i <> FPending ->
  (exists v, x = LPush v /\ oldest_pending (l_futs q) i /\ fget (l_futs (fst (lq_step_on q x))) i = FValue v) \/
  (exists e, x = LUnblockPop e /\ oldest_pending (l_futs q) i /\ fget (l_futs (fst (lq_step_on q x))) i = FExc e) \/
  (x = LDestroy /\ fget (l_futs (fst (lq_step_on q x))) i = FCanceled).
Proof.
  intros G P. pose proof (lg_shape _ _ _ _ _ G) as Sh. pose proof (lg_nopend _ _ _ _ _ G) as N.
  unfold lq_step_on. rewrite (lg_alive _ _ _ _ _ G). cbn [negb].
  destruct x as [l|v| |e| | |e| ]; cbn [fst l_futs]; try (intros H; exfalso; exact (H P)).
  - unfold lq_push. destruct (l_waiters q) as [|p w]; [destruct (zlen (l_items q) >=? l_limit q)|]; cbn [fst l_futs];
      intros H; try (exfalso; exact (H P)).
    left. exists v. split; [reflexivity|]. apply (shape_set_head _ _ _ _ _ _ Sh N). congruence.
  - unfold lq_pop. destruct (l_items q); [|destruct (l_blocked q) as [|[z0 bp] b]]; cbn [fst l_futs];
      intros H; exfalso; apply H; rewrite fget_app_left by (apply fget_pending_lt; exact P); exact P.
  - unfold lq_unblock_pop. destruct (l_waiters q) as [|p w]; cbn [fst l_futs]; intros H; [exfalso; exact (H P)|].
    right; left. exists e. split; [reflexivity|]. apply (shape_set_head _ _ _ _ _ _ Sh N). congruence.
  - intros _. right; right. split; [reflexivity|]. unfold lq_destroy. cbn [l_futs].
    rewrite (shape_cancel_get _ _ _ i Sh N), P. reflexivity.
  - unfold lq_unblock_push. destruct (l_blocked q) as [|[z bp] b]; cbn [fst l_futs]; intros H; exfalso; exact (H P).
Qed.

Theorem lq_dead_rejects q x : l_alive q = false -> lq_step_on q x = (q, rejected).
Proof. intros H. unfold lq_step_on. rewrite H. reflexivity. Qed.

(* Callback consumers (engine qcb): a completion callback that re-enters pop() is an ordinary pop issued in the middle
   of the push / unblock_pop that resolved it.  Every destruction-free callback history therefore reaches a state that a
   plain history reaches too, with the same pushes; the theorems about queue<T> apply to it. *)
Lemma q_exec_app l1 : forall q l2, q_exec q (l1 ++ l2) = q_exec (q_exec q l1) l2.
Proof.
  unfold q_exec. induction l1 as [|x l1 IH]; intros q l2; cbn [app q_run_from snd]; [reflexivity|].
  destruct (q_step q x) as [q1 o]. specialize (IH q1 l2).
  destruct (q_run_from q1 (l1 ++ l2)) as [os q2]. destruct (q_run_from q1 l1) as [os1 q3]. cbn [snd] in *. exact IH.
Qed.
Lemma q_exec_one q x : q_exec q [x] = fst (q_step q x).
Proof. unfold q_exec. cbn [q_run_from]. destruct (q_step q x). reflexivity. Qed.
Lemma q_final_exec ops : q_final ops = q_exec q0 ops.
Proof. reflexivity. Qed.

Lemma q_pop_step q : alive q = true -> fst (q_step q QPop) = fst (q_pop q).
Proof. intros A. unfold q_step. rewrite A. cbn [negb]. destruct (q_pop q). reflexivity. Qed.
Lemma q_push_step q v : alive q = true -> fst (q_step q (QPush v)) = fst (q_push q v).
Proof. intros A. unfold q_step. rewrite A. cbn [negb]. destruct (q_push q v). reflexivity. Qed.
Lemma q_unblock_step q e : alive q = true -> fst (q_step q (QUnblockPop e)) = fst (q_unblock_pop q e).
Proof. intros A. unfold q_step. rewrite A. cbn [negb]. destruct (q_unblock_pop q e). reflexivity. Qed.

Lemma q_step_alive q x : is_destroy x = false -> alive (fst (q_step q x)) = alive q.
Proof.
  intros ND. unfold q_step. destruct (alive q) eqn:A; cbn [negb]; [|exact A].
  destruct x; try discriminate; cbn [fst]; try exact A.
  - unfold q_push, q_push_lock. destruct (waiters q); exact A.
  - unfold q_pop. destruct (items q); exact A.
  - unfold q_unblock_pop. destruct (waiters q); exact A.
Qed.
Lemma q_exec_alive l : forall q, no_destroy l -> alive (q_exec q l) = alive q.
Proof.
  induction l as [|x l IH]; intros q ND; [reflexivity|]. inversion ND; subst.
  change (x :: l) with ([x] ++ l). rewrite q_exec_app, q_exec_one, IH, q_step_alive; auto.
Qed.

Definition c_push_val (x : cop) : list Z := match x with COp (QPush v) => [v] | _ => [] end.
Definition c_pushed_vals (l : list cop) : list Z := flat_map c_push_val l.
Definition c_no_destroy (l : list cop) : Prop := Forall (fun x => x <> COp QDestroy) l.

Lemma pushed_vals_pops m : pushed_vals (repeat QPop m) = [].
Proof. induction m as [|m IH]; [reflexivity|exact IH]. Qed.
Lemma no_destroy_pops m : no_destroy (repeat QPop m).
Proof. induction m as [|m IH]; constructor; [reflexivity|exact IH]. Qed.
Lemma pushed_vals_app a b : pushed_vals (a ++ b) = pushed_vals a ++ pushed_vals b.
Proof. apply flat_map_app. Qed.

Lemma q_step_pops q x m : is_destroy x = false ->
  q_exec q (x :: repeat QPop m) = q_exec (fst (q_step q x)) (repeat QPop m) /\
  no_destroy (x :: repeat QPop m) /\ pushed_vals (x :: repeat QPop m) = push_val x.
Proof.
  intros ND. split; [|split].
  - change (x :: repeat QPop m) with ([x] ++ repeat QPop m). rewrite q_exec_app, q_exec_one. reflexivity.
  - constructor; [exact ND|apply no_destroy_pops].
  - cbn [pushed_vals flat_map]. fold (pushed_vals (repeat QPop m)). rewrite pushed_vals_pops. apply app_nil_r.
Qed.

(* the chain of re-pops is a sequence of plain pops *)
Lemma cb_chain_plain k : forall q cb, alive q = true -> exists m, fst (cb_chain k q cb) = q_exec q (repeat QPop m).
Proof.
  induction k as [|k IH]; intros q cb A; cbn [cb_chain]; [exists 0%nat; reflexivity|].
  pose proof (q_pop_step q A) as E. destruct (q_pop q) as [q1 id]. cbn [fst] in E.
  destruct (is_pending (fget (futs q1) id)).
  - exists 1%nat. cbn [fst repeat]. rewrite q_exec_one. symmetry. exact E.
  - destruct (IH q1 cb) as (m & EM); [rewrite <- E, q_step_alive; auto|].
    exists (S m). rewrite EM, <- E. symmetry. apply (q_step_pops q QPop m eq_refl).
Qed.

(* one callback step = a plain op followed by the re-pops of the callback it completes *)
Lemma cq_step_plain s x : alive (cbase s) = true -> x <> COp QDestroy ->
  exists l, cbase (fst (cq_step s x)) = q_exec (cbase s) l /\ no_destroy l /\ pushed_vals l = c_push_val x.
Proof.
  intros A ND. unfold cq_step. rewrite A. cbn [negb].
  assert (forall y q1 q2, is_destroy y = false -> fst (q_step (cbase s) y) = q1 -> (exists m, q2 = q_exec q1 (repeat QPop m)) ->
                          exists l, q2 = q_exec (cbase s) l /\ no_destroy l /\ pushed_vals l = push_val y) as K.
  { intros y q1 q2 Hy <- (m & ->). destruct (q_step_pops (cbase s) y m Hy) as (EX & NDm & PVm).
    exists (y :: repeat QPop m). rewrite EX. repeat split; assumption. }
  assert (forall q1 (r : bool), alive q1 = true ->
            exists m, fst (if r then cq_after_resolve (cbase s) q1 (cbud s) else (q1, cbud s)) = q_exec q1 (repeat QPop m)) as AR.
  { intros q1 r A1. destruct r; [|exists 0%nat; reflexivity]. unfold cq_after_resolve.
    destruct (head_waiter (cbase s)) as [p|]; [|exists 0%nat; reflexivity].
    destruct (afind p (cbud s)) as [k|]; [|exists 0%nat; reflexivity]. apply cb_chain_plain. exact A1. }
  destruct x as [[v| |e| | |k v|k| ]|k|]; cbn [c_push_val]; try congruence;
    try (exists []; cbn [fst cbase]; repeat split; constructor).
  - (* push *)
    pose proof (q_push_step _ v A) as E. destruct (q_push (cbase s) v) as [q1 r]. cbn [fst] in E.
    destruct (AR q1 r) as (m & EM); [rewrite <- E, q_step_alive; auto|].
    destruct (if r then cq_after_resolve (cbase s) q1 (cbud s) else (q1, cbud s)) as [q2 cb]. cbn [fst cbase] in *.
    apply (K (QPush v) q1 q2 eq_refl E). exists m. exact EM.
  - (* pop *)
    destruct (q_step (cbase s) QPop) as [q1 o] eqn:E. cbn [fst cbase].
    apply (K QPop q1 q1 eq_refl); [rewrite E; reflexivity|exists 0%nat; reflexivity].
  - (* unblock_pop *)
    pose proof (q_unblock_step _ e A) as E. destruct (q_unblock_pop (cbase s) e) as [q1 r]. cbn [fst] in E.
    destruct (AR q1 r) as (m & EM); [rewrite <- E, q_step_alive; auto|].
    destruct (if r then cq_after_resolve (cbase s) q1 (cbud s) else (q1, cbud s)) as [q2 cb]. cbn [fst cbase] in *.
    apply (K (QUnblockPop e) q1 q2 eq_refl E). exists m. exact EM.
  - (* size *)
    destruct (q_step (cbase s) QSize) as [q1 o] eqn:E. cbn [fst cbase].
    apply (K QSize q1 q1 eq_refl); [rewrite E; reflexivity|exists 0%nat; reflexivity].
  - (* callback pop *)
    pose proof (q_pop_step _ A) as E. destruct (q_pop (cbase s)) as [q1 id]. cbn [fst] in E.
    destruct (is_pending (fget (futs q1) id)).
    + cbn [fst cbase]. apply (K QPop q1 q1 eq_refl E). exists 0%nat. reflexivity.
    + destruct (cb_chain_plain k q1 (cbud s)) as (m & EM); [rewrite <- E, q_step_alive; auto|].
      destruct (cb_chain k q1 (cbud s)) as [q2 cb]. cbn [fst cbase] in *.
      apply (K QPop q1 q2 eq_refl E). exists m. exact EM.
Qed.

Definition cq_final (l : list cop) : cqueue := snd (cq_run_from cq0 l).

Lemma cq_run_plain l : forall s, alive (cbase s) = true -> c_no_destroy l ->
  exists ops, cbase (snd (cq_run_from s l)) = q_exec (cbase s) ops /\ no_destroy ops /\ pushed_vals ops = c_pushed_vals l.
Proof.
  induction l as [|x l IH]; intros s A ND; cbn [cq_run_from c_pushed_vals flat_map].
  - exists []. repeat split. constructor.
  - inversion ND as [|x' l' Hx Hl]; subst.
    destruct (cq_step_plain s x A Hx) as (l1 & E1 & N1 & P1).
    assert (alive (cbase (fst (cq_step s x))) = true) as A1 by (rewrite E1, q_exec_alive; assumption).
    destruct (cq_step s x) as [s1 o]. cbn [fst] in *.
    destruct (IH s1 A1 Hl) as (l2 & E2 & N2 & P2).
    destruct (cq_run_from s1 l) as [os s2]. cbn [snd] in *.
    exists (l1 ++ l2). repeat split.
    + rewrite q_exec_app, <- E1. exact E2.
    + apply Forall_app. split; assumption.
    + rewrite pushed_vals_app, P1, P2. reflexivity.
Qed.
