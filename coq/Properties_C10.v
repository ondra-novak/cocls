(* Properties_C10.v — C10: bounded queue, back-pressure without losing or duplicating items.
   Statements only; each is proved in a line or two from the lemmas of QueueProofs / QueueConcProofs / QueueOrderProofs / QueueOracleProofs.
   Histories are lists of lop of ANY length, the limit is ANY integer >= 1, any number of blocked producers and waiting
   consumers.  `lq_reach limit ops` is the state of the transcription of limited_queue<T> (as repaired by fa14f83) after
   the history; `lgood` is the invariant every destruction-free history establishes (c10_invariant_reachable). *)
From Cocls Require Import Base BaseProofs QueueDefs QueueProofs QueueConcProofs QueueOrderProofs QueueOracleProofs.
Local Open Scope Z_scope.

(* refinement: for every history whose constructor calls ask for limit >= 1 the model's observations are those of the
   bounded-FIFO specification (one FIFO of entries; a push is admitted at once iff fewer than `limit` entries are in it;
   a pop takes the head and admits the oldest pending entry; unblock_push removes the oldest pending entry) *)
Theorem c10_refines_bounded_fifo : forall ops, limits_ok (map lq_decode ops) -> lq_run ops = ls_run ops.
Proof. intros ops H. apply lq_refines_run_none. exact H. Qed.
Print Assumptions c10_refines_bounded_fifo.

Theorem c10_invariant_reachable : forall limit ops, 1 <= limit -> l_no_destroy ops ->
  exists done pdone pva, lgood (l_pushed_vals ops) (lq_reach limit ops) done pdone pva.
Proof. exact lgood_reach. Qed.
Print Assumptions c10_invariant_reachable.

(* conservation + order: pushed items minus withdrawn ones (push future failed), in push order =
   delivered (pop-arrival order) ++ queued ++ held by blocked pushes.  List equality: multiplicity 1, FIFO. *)
Theorem c10_conservation_order : forall limit ops, 1 <= limit -> l_no_destroy ops ->
  let q := lq_reach limit ops in
  kept (l_pushed_vals ops) (l_pfuts q) = delivered (l_futs q) ++ l_items q ++ map fst (l_blocked q).
Proof. exact lq_conservation_order. Qed.
Print Assumptions c10_conservation_order.

(* blocked pushes are exactly the pending push futures, in arrival order, each holding its own item; somebody is
   blocked only when the queue is full; it never exceeds the limit; consumers wait only when nothing is queued or blocked *)
Theorem c10_blocked_fifo : forall limit ops, 1 <= limit -> l_no_destroy ops ->
  let q := lq_reach limit ops in
  exists pdone, l_pfuts q = pdone ++ repeat FPending (length (l_blocked q)) /\ nopend pdone /\
    map snd (l_blocked q) = seq (length pdone) (length (l_blocked q)) /\
    map fst (l_blocked q) = skipn (length pdone) (l_pushed_vals ops) /\
    (l_blocked q <> [] -> zlen (l_items q) = limit) /\ zlen (l_items q) <= limit /\
    (l_waiters q <> [] -> l_items q = [] /\ l_blocked q = []).
Proof. exact lq_blocked_fifo. Qed.
Print Assumptions c10_blocked_fifo.

(* a push completes immediately iff fewer than `limit` items are waiting; otherwise it stays pending, holding its item *)
Theorem c10_push_immediate_iff : forall pv q done pdone pva v, lgood pv q done pdone pva ->
  let q' := fst (lq_push q v) in let f := snd (lq_push q v) in
  f = length (l_pfuts q) /\ l_pfuts q' = l_pfuts q ++ [if zlen (l_items q) <? l_limit q then FValue 0 else FPending] /\
  (zlen (l_items q) <? l_limit q = false -> l_blocked q' = l_blocked q ++ [(v, f)] /\ l_items q' = l_items q /\ l_futs q' = l_futs q).
Proof. exact lq_push_immediate_iff. Qed.
Print Assumptions c10_push_immediate_iff.

(* a push future changes only when it is the OLDEST pending one and a pop makes room (completed) or unblock_push fails it
   with e; or by destruction *)
Theorem c10_push_completes_only_by : forall pv q done pdone pva x j, lgood pv q done pdone pva ->
  fget (l_pfuts (fst (lq_step_on q x))) j <> fget (l_pfuts q) j -> (j < length (l_pfuts q))%nat ->
  (x = LPop /\ l_items q <> [] /\ oldest_pending (l_pfuts q) j /\ fget (l_pfuts (fst (lq_step_on q x))) j = FValue 0) \/
  (exists e, x = LUnblockPush e /\ oldest_pending (l_pfuts q) j /\ fget (l_pfuts (fst (lq_step_on q x))) j = FExc e) \/
  (x = LDestroy /\ fget (l_pfuts q) j = FPending /\ fget (l_pfuts (fst (lq_step_on q x))) j = FCanceled).
Proof. exact lq_push_completes_only_by. Qed.
Print Assumptions c10_push_completes_only_by.

(* one per pop *)
Theorem c10_one_per_pop : forall pv q done pdone pva j k, lgood pv q done pdone pva ->
  (j < length (l_pfuts q))%nat -> (k < length (l_pfuts q))%nat ->
  fget (l_pfuts (fst (lq_step_on q LPop))) j <> fget (l_pfuts q) j ->
  fget (l_pfuts (fst (lq_step_on q LPop))) k <> fget (l_pfuts q) k -> j = k.
Proof. exact lq_one_per_pop. Qed.
Print Assumptions c10_one_per_pop.

(* unblock_push: fails exactly the oldest blocked push with e, withdraws exactly its own item (the j-th pushed value),
   every other field is unchanged; with nobody blocked it changes nothing *)
Theorem c10_unblock_push_exact : forall pv q done pdone pva e, lgood pv q done pdone pva ->
  let q' := fst (lq_step_on q (LUnblockPush e)) in
  match l_blocked q with
  | [] => q' = q
  | (y, j) :: b =>
      oldest_pending (l_pfuts q) j /\ y = nth j pv 0 /\
      l_pfuts q' = set_nth (l_pfuts q) j (FExc e) /\ l_blocked q' = b /\
      l_items q' = l_items q /\ l_futs q' = l_futs q /\ l_waiters q' = l_waiters q /\ l_limit q' = l_limit q /\ l_alive q' = true
  end.
Proof. exact lq_unblock_push_exact. Qed.
Print Assumptions c10_unblock_push_exact.

(* the consumer side behaves as in queue<T> *)
Theorem c10_pop_completes_only_by : forall pv q done pdone pva x i, lgood pv q done pdone pva ->
  fget (l_futs q) i = FPending -> fget (l_futs (fst (lq_step_on q x))) i <> FPending ->
  (exists v, x = LPush v /\ oldest_pending (l_futs q) i /\ fget (l_futs (fst (lq_step_on q x))) i = FValue v) \/
  (exists e, x = LUnblockPop e /\ oldest_pending (l_futs q) i /\ fget (l_futs (fst (lq_step_on q x))) i = FExc e) \/
  (x = LDestroy /\ fget (l_futs (fst (lq_step_on q x))) i = FCanceled).
Proof. exact lq_pop_completes_only_by. Qed.
Print Assumptions c10_pop_completes_only_by.

Theorem c10_oracle_accepts_model : forall ops, limits_ok (map lq_decode ops) -> lq_oracle ops (lq_run ops) = true.
Proof. intros ops H. unfold lq_oracle. rewrite c10_refines_bounded_fifo by exact H. apply trace_eqb_refl. Qed.
Print Assumptions c10_oracle_accepts_model.

(* ---- interleaving model (limited_queue<T>, any limit >= 1): ANY number of producer / consumer / unblock_pop / unblock_push / size threads and a destroyer thread, ANY schedule of ANY length.
   A push or pop is a critical section followed, after the unlock, by a separate step that resolves the promise taken
   inside (QueueDefs.tstep).  In every reachable state the items pushed so far (every producer's first k values, tagged
   with producer and index, hence pairwise distinct: NoDup) are exactly, as a multiset, the items received by pops + the
   items in flight between a critical section and its resolution + the queued items + the items held by blocked pushes +
   the items withdrawn by unblock_push + the items destroyed with the queue;
   and items / waiting consumers are never both non-empty. ---- *)
Theorem c10_conc_conservation : forall limit thrs s, 1 <= limit -> Forall t_fresh thrs -> t_reachable (Some limit) thrs s ->
  NoDup (t_plog s) /\
  Permutation (t_plog s)
    (map snd (ritems (t_rlog s)) ++ map snd (iitems (t_infl s)) ++ t_items s ++ map fst (t_blocked s) ++ t_wlog s ++ t_dlog s) /\
  (forall p, filter (of_p p) (t_plog s) = expected_plog p (nth_error (t_thr s) p)) /\
  (t_items s = [] \/ t_waiters s = []).
Proof. intros limit thrs s L. exact (tq_conservation (Some limit) thrs s L). Qed.
Print Assumptions c10_conc_conservation.

(* per-producer order at every consumer, for every schedule: among the items consumer c has received (got c s, in the
   order it received them), those pushed by producer p carry strictly increasing push indices *)
Theorem c10_conc_per_producer_order : forall limit thrs s c p, (1 <= limit)%Z -> Forall t_fresh thrs -> t_reachable (Some limit) thrs s ->
  Sorted.StronglySorted lt (map it_k (filter (of_p p) (got c s))).
Proof. intros limit thrs s c p L. exact (tq_per_producer_order (Some limit) thrs s c p L). Qed.
Print Assumptions c10_conc_per_producer_order.

(* items are matched to pops in critical-section order; matched ++ queued ++ held-by-blocked is, producer by producer, in
   push order (nothing overtakes, also not while producers are blocked); what a consumer has received plus what is in
   flight for it is exactly its share of the matching, in order (single consumer: FIFO) *)
Theorem c10_conc_assignment_in_push_order : forall limit thrs s, (1 <= limit)%Z -> Forall t_fresh thrs -> t_reachable (Some limit) thrs s ->
  (forall p, Sorted.StronglySorted lt (map it_k (filter (of_p p) (map snd (t_alog s) ++ t_items s ++ map fst (t_blocked s))))) /\
  forall c, map snd (filter (is_c c) (t_alog s)) = got c s ++ map snd (filter (is_c c) (iitems (t_infl s))).
Proof. intros limit thrs s L. exact (tq_assignment_in_push_order (Some limit) thrs s L). Qed.
Print Assumptions c10_conc_assignment_in_push_order.

(* the oracle that is run on the implementation's controlled-thread traces (replay of the critical sections on the atomic
   thread-level FIFO, QueueDefs.tq_oracle) accepts every trace the model itself produces: every case file, any threads
   (fewer than 777, the marker of the deadlock line), any schedule *)
Theorem c10_thread_oracle_accepts_model : forall ops,
  (length (flat_map (t_decode_thr true) ops) < 777)%nat -> tq_oracle true ops (tq_run true ops) = true.
Proof. exact (tq_oracle_accepts_model true). Qed.
Print Assumptions c10_thread_oracle_accepts_model.

Example c10_conc_nonvacuous :
  let thrs := flat_map (t_decode_thr true) [[1; 101; 102; 103]; [2; 3]]%Z in
  let s := fst (t_run_sched 5 (t_init (Some 1%Z) thrs) [0; 0; 0; 0; 0]%Z []) in
  Forall t_fresh thrs /\ t_reachable (Some 1%Z) thrs s /\
  map it_v (t_items s) = [101]%Z /\ map (fun b => it_v (fst b)) (t_blocked s) = [102]%Z.
Proof. split; [apply t_decode_fresh|]. split; [eexists; eexists; eexists; reflexivity|]. vm_compute. repeat split. Qed.

(* non-vacuity: limit 2, four pushes (two blocked), unblock_push withdraws 13, a pop delivers 11 and admits 14 *)
Example c10_nonvacuous :
  let ops := [LPush 11; LPush 12; LPush 13; LPush 14; LUnblockPush 5; LPop] in
  let q := lq_reach 2 ops in
  l_no_destroy ops /\ l_items q = [12; 14] /\ l_blocked q = [] /\ l_futs q = [FValue 11] /\
  l_pfuts q = [FValue 0; FValue 0; FExc 5; FValue 0] /\
  kept (l_pushed_vals ops) (l_pfuts q) = [11; 12; 14].
Proof. split; [repeat constructor|]. vm_compute. repeat split. Qed.
