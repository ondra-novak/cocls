(* StorageMtProofs.v — reusable_storage_mtsafe under every schedule of any number of threads: safety invariants of the
   interleaving model (steps at busy_x / busy_g / busy_n / busy_s and at the atomic operations a_x / a_st) and termination. *)
From Cocls Require Import Base BaseProofs StorageDefs StorageProofs.
Require Import ZifyBool.
Local Open Scope Z_scope.

Definition wonw (t : thread) : Z := match t_won t with Some _ => 1 | None => 0 end.
Definition groww (t : thread) : Z := match t_grow t with Some _ => 1 | None => 0 end.
Fixpoint tsum (w : thread -> Z) (l : list thread) : Z := match l with [] => 0 | t :: r => w t + tsum w r end.
Arguments tsum : simpl never.
Definition nwon := tsum wonw.
Definition ngrow := tsum groww.

Lemma tsum_cons w t r : tsum w (t :: r) = w t + tsum w r. Proof. reflexivity. Qed.
Lemma tsum_nil w : tsum w [] = 0. Proof. reflexivity. Qed.

Lemma tsum_nonneg w l : (forall t, 0 <= w t) -> 0 <= tsum w l.
Proof. intros W. induction l as [|t l IH]; [rewrite tsum_nil; lia|]. rewrite tsum_cons. specialize (W t). lia. Qed.

Lemma tsum_set_nth w l i t t' : nth_error l i = Some t -> tsum w (set_nth l i t') = tsum w l - w t + w t'.
Proof.
  revert i. induction l as [|x l IH]; intros [|i] H; cbn [nth_error set_nth] in *; try discriminate.
  - inversion H; subst. rewrite !tsum_cons. lia.
  - rewrite !tsum_cons, (IH _ H). lia.
Qed.

Lemma tsum_nth_le w l i t : (forall t, 0 <= w t) -> nth_error l i = Some t -> w t <= tsum w l.
Proof.
  intros W. revert i. induction l as [|x l IH]; intros [|i] H; cbn [nth_error] in H; try discriminate; rewrite tsum_cons.
  - inversion H; subst. pose proof (tsum_nonneg w l W). lia.
  - specialize (W x). specialize (IH i H). lia.
Qed.

Lemma groww_range t : 0 <= groww t <= 1. Proof. unfold groww. destruct (t_grow t); lia. Qed.

(* while the holder is between `delete _ptr` and `_ptr = new`, _ptr dangles and _capacity is stale; nobody but the
   holder reads them (the repaired dealloc does not), so for everybody else the storage is as good as empty *)
Definition norm (s : sto) : sto := mkSto None 0 (s_busy s) (s_state s) (s_bsize s) (s_bcap s) (s_ownc s).
Definition eff (l : list thread) (s : sto) : sto := if 0 <? ngrow l then norm s else s.

Definition act_pos (a : act) : Prop := match a with ACreate sz => 0 < sz | AFin _ => True end.
Definition thr_ok (t : thread) : Prop :=
  Forall act_pos (t_prog t) /\ match t_won t with Some sz => 0 < sz | None => t_grow t = None end.

Lemma thr_ok_gw t : thr_ok t -> groww t <= wonw t.
Proof. intros [_ H]. unfold groww, wonw. destruct (t_won t); [destruct (t_grow t); lia|rewrite H; lia]. Qed.

Lemma ngrow_le_nwon l : Forall thr_ok l -> 0 <= ngrow l <= nwon l.
Proof.
  unfold ngrow, nwon. induction 1 as [|t l Ht _ IH]; [rewrite !tsum_nil; lia|]. rewrite !tsum_cons.
  pose proof (thr_ok_gw t Ht). pose proof (groww_range t). lia.
Qed.

Lemma ngrow_le_nwon_but l i t : Forall thr_ok l -> nth_error l i = Some t -> 0 <= ngrow l - groww t <= nwon l - wonw t.
Proof.
  intros F. revert i. induction F as [|x l Hx Hl IH]; intros [|i] H; cbn [nth_error] in *; try discriminate;
    unfold ngrow, nwon in *; rewrite !tsum_cons.
  - inversion H; subst. pose proof (ngrow_le_nwon l Hl). unfold ngrow, nwon in *. lia.
  - specialize (IH _ H). pose proof (thr_ok_gw x Hx). pose proof (groww_range x). lia.
Qed.

(* InvT for as many holders as threads have won _busy, on the storage as all but a growing holder see it *)
Record CInv (s : cst) : Prop := {
  ci_inv : InvT pm (nwon (c_thr s)) (hp (c_core s)) (eff (c_thr s) (st (c_core s))) (frs (c_core s));
  ci_keys : forall k, In k (keys (frs (c_core s))) -> (k < c_nfid (c_core s))%nat;
  ci_thr : Forall thr_ok (c_thr s)
}.

Lemma sanitize_pos : forall l live, Forall act_pos (sanitize live l).
Proof.
  induction l as [|a l IH]; intros live; cbn [sanitize].
  - induction live; cbn [repeat]; constructor; cbn; auto.
  - destruct a as [sz|b].
    + destruct (0 <? sz) eqn:G; [constructor; [cbn; lia|apply IH]|apply IH].
    + destruct live; [apply IH|constructor; [exact Logic.I|apply IH]].
Qed.

Lemma decode_thread_cases o :
  decode_thread o = [] \/ exists r, decode_thread o = [mkTh (sanitize 0 (decode_prog r)) None [] 0 [] None false None].
Proof.
  unfold decode_thread. destruct o as [|z r]; [left; reflexivity|].
  destruct z as [|q|q]; try (left; reflexivity).
  repeat (destruct q as [q|q|]; try (left; reflexivity)). right. exists r. reflexivity.
Qed.

Lemma cinit_CInv ops : CInv (cinit ops).
Proof.
  unfold cinit.
  assert (W : forall l, nwon (flat_map decode_thread l) = 0 /\ ngrow (flat_map decode_thread l) = 0 /\
                        Forall thr_ok (flat_map decode_thread l)).
  { induction l as [|o l (IH1 & IH2 & IH3)]; cbn [flat_map].
    - unfold nwon, ngrow. rewrite !tsum_nil. repeat split; constructor.
    - destruct (decode_thread_cases o) as [->|[r ->]]; cbn [app]; [repeat split; assumption|].
      unfold nwon, ngrow in *. rewrite !tsum_cons. unfold wonw at 1, groww at 1. cbn [t_won t_grow].
      repeat split; try lia. constructor; [|exact IH3]. split; cbn [t_prog t_won t_grow]; [apply sanitize_pos|reflexivity]. }
  destruct (W ops) as (W1 & W2 & W3). constructor; cbn [c_core c_thr].
  - unfold eff. rewrite W1, W2. cbn [Z.ltb Z.compare]. destruct (init_inv pm) as [I _]; cbn; try lia; [discriminate|exact I].
  - cbn. intros k [].
  - exact W3.
Qed.

(* the winner's first half: the old block is deleted, for everybody else the storage is now empty *)
Lemma mts_g1_inv h s l : InvT pm 1 h s l -> InvT pm 1 (hdel_opt h (s_ptr s)) (norm s) l.
Proof.
  intros I. destruct (holder_alone pm h s l eq_refl I) as (BT & TZ & HF).
  destruct I as [IH IC IF IB IK IS IBZ ISG IX]. cbn [pm p_pol] in *.
  destruct (hdel_opt_ok h (s_ptr s) (s_cap s) IH) as (H1 & _ & H3 & H4).
  { intros b E. destruct IS as [_ IS]. rewrite E in IS. exact IS. }
  constructor; try assumption; cbn [pm p_pol].
  - rewrite H3, IC. cbn [nsown norm s_ptr]. lia.
  - intros i f A. destruct (HF _ _ A) as (T & b & E & NE & V). destruct (IF _ _ A) as [F1 F2 F3 _ _].
    constructor; auto; rewrite E; cbn [pm p_pol norm s_ptr]; [exact (H4 _ _ V NE)|].
    rewrite T. exists b. split; [reflexivity|discriminate].
  - split; [cbn; lia|reflexivity].
Qed.

(* the winner's second half is reusable_storage::alloc on the empty storage *)
Lemma g2_is_won h s sz : 0 < sz ->
  mts_won h (norm s) sz =
  (fst (hnew h (sz + ptr_sz)),
   mkSto (Some (snd (hnew h (sz + ptr_sz)))) (sz + ptr_sz) (s_busy s) (s_state s) (s_bsize s) (s_bcap s) (s_ownc s),
   mkGr (BHeap (snd (hnew h (sz + ptr_sz)))) (sz + ptr_sz) (sz + ptr_sz) true).
Proof.
  intros P. unfold mts_won, reu_alloc. cbn [norm s_cap s_ptr hdel_opt].
  assert (sz + ptr_sz >? 0 = true) as -> by (unfold ptr_sz; lia). reflexivity.
Qed.

Lemma bdealloc_norm h s b tr :
  bdealloc pm h (norm s) b tr = (fst (bdealloc pm h s b tr), norm (snd (bdealloc pm h s b tr))).
Proof. unfold bdealloc. cbn [pm p_pol]. destruct tr; reflexivity. Qed.

Lemma InvT_nwon_le1 k h s l : InvT pm k h s l -> k <= 1.
Proof.
  intros I. pose proof (i_busy _ _ _ _ _ I) as B. unfold busy_ok in B. cbn [pm p_pol] in B.
  pose proof (sumw_nonneg trw l trw_nonneg). destruct (s_busy s); cbn [b2z] in B; lia.
Qed.

(* kw, kg: the threads holding _busy and the threads inside the growth after the step *)
Lemma CInv_upd s c1 i t t' kw kg : CInv s -> nth_error (c_thr s) i = Some t -> thr_ok t' ->
  nwon (c_thr s) - wonw t + wonw t' = kw -> ngrow (c_thr s) - groww t + groww t' = kg ->
  (forall k, In k (keys (frs c1)) -> (k < c_nfid c1)%nat) ->
  InvT pm kw (hp c1) (if 0 <? kg then norm (st c1) else st c1) (frs c1) ->
  CInv (upd s c1 i t').
Proof.
  intros [_ _ P] ET PT <- <- K I. constructor; unfold upd; cbn [c_core c_thr]; [|exact K|exact (Forall_set_nth _ _ _ _ P PT)].
  unfold eff, nwon, ngrow. rewrite !(tsum_set_nth _ _ _ _ _ ET). exact I.
Qed.

Lemma tstep_CInv s i : CInv s -> CInv (fst (tstep s i)).
Proof.
  intros CI. pose proof CI as [I K P]. unfold tstep.
  destruct (nth_error (c_thr s) i) as [t|] eqn:ET; [|exact CI].
  pose proof (Forall_nth_error _ _ _ _ P ET) as [PP PW].
  pose proof (ngrow_le_nwon_but _ _ _ P ET) as GAP. pose proof (InvT_nwon_le1 _ _ _ _ I) as LE1.
  set (c := c_core s) in *.
  assert (FR : ~ In (c_nfid c) (keys (frs c))) by (intros A; specialize (K _ A); lia).
  assert (K1 : forall f k, In k (keys ((c_nfid c, f) :: frs c)) -> (k < S (c_nfid c))%nat).
  { intros f k. cbn [keys map fst In]. intros [<-|A]; [lia|]. specialize (K _ A). lia. }
  unfold eff in I.
  destruct (t_won t) as [sz|] eqn:EW.
  - (* t holds _busy, so it is the only holder *)
    assert (W1 : wonw t = 1) by (unfold wonw; rewrite EW; reflexivity).
    assert (NW : nwon (c_thr s) = 1) by lia. rewrite NW in I.
    destruct (t_grow t) as [fr|] eqn:EG.
    + (* busy_n *)
      assert (G1 : groww t = 1) by (unfold groww; rewrite EG; reflexivity).
      assert (NG : ngrow (c_thr s) = 1) by lia. rewrite NG in I.
      pose proof (mts_won_inv pm (hp c) (norm (st c)) (frs c) (c_nfid c) (c_nfid c) sz eq_refl I PW FR) as W.
      change (nreq pm sz) with sz in W. rewrite (g2_is_won _ _ _ PW) in W.
      unfold mk_frame, hnew in *. cbn [fst snd] in *.
      apply (CInv_upd s _ i t _ 0 0 CI ET); cbn [wonw groww t_won t_grow hp st frs c_nfid]; [|lia|lia|apply K1|exact W].
      split; cbn [t_prog t_won t_grow]; auto.
    + (* busy_g *)
      assert (G0 : groww t = 0) by (unfold groww; rewrite EG; reflexivity).
      assert (NG : ngrow (c_thr s) = 0) by lia. rewrite NG in I.
      destruct (sz + ptr_sz >? s_cap (st c)) eqn:GR; cbn [fst].
      * apply (CInv_upd s _ i t _ 1 1 CI ET); cbn [wonw groww t_won t_grow hp st frs c_nfid]; [|lia|lia|exact K|].
        -- split; cbn [t_prog t_won t_grow]; auto.
        -- exact (mts_g1_inv _ _ _ I).
      * pose proof (mts_won_inv pm (hp c) (st c) (frs c) (c_nfid c) (c_nfid c) sz eq_refl I PW FR) as W.
        change (nreq pm sz) with sz in W. unfold mk_frame. destruct (mts_won (hp c) (st c) sz) as [[h1 s1] g]. cbn [fst].
        apply (CInv_upd s _ i t _ 0 0 CI ET); cbn [wonw groww t_won t_grow hp st frs c_nfid]; [|lia|lia|apply K1|exact W].
        split; cbn [t_prog t_won t_grow]; auto.
  - assert (W0 : wonw t = 0) by (unfold wonw; rewrite EW; reflexivity).
    assert (TG : t_grow t = None) by exact PW.
    assert (G0 : groww t = 0) by (unfold groww; rewrite TG; reflexivity).
    (* a step that neither claims _busy nor touches the storage object *)
    assert (NOOP : forall c1 t', t_won t' = None -> t_grow t' = None -> Forall act_pos (t_prog t') ->
              (forall k, In k (keys (frs c1)) -> (k < c_nfid c1)%nat) ->
              InvT pm (nwon (c_thr s)) (hp c1) (if 0 <? ngrow (c_thr s) then norm (st c1) else st c1) (frs c1) ->
              CInv (upd s c1 i t')).
    { intros c1 t' E1 E2 E3 KK II. apply (CInv_upd s c1 i t t' (nwon (c_thr s)) (ngrow (c_thr s)) CI ET); [| | |exact KK|exact II].
      - split; [exact E3|]. rewrite E1. exact E2.
      - unfold wonw at 2. rewrite E1. lia.
      - unfold groww at 2. rewrite E2. lia. }
    assert (FIN : forall slot f t', fget (frs c) slot = Some f -> t_won t' = None -> t_grow t' = None ->
                  Forall act_pos (t_prog t') -> CInv (upd s (finish pm c slot f) i t')).
    { intros slot f t' GF E1 E2 E3. apply NOOP; auto; pose proof (finish_inv pm _ _ _ _ slot f I GF) as W; unfold finish.
      - destruct (bdealloc pm (hp c) (st c) (f_blk f) (f_tr f)). cbn [frs c_nfid].
        intros k A. apply (In_map_fdel fst) in A. exact (K _ A).
      - destruct (0 <? ngrow (c_thr s)); [rewrite bdealloc_norm in W|];
          destruct (bdealloc pm (hp c) (st c) (f_blk f) (f_tr f)) as [h1 s1]; exact W. }
    destruct (t_ats t) as [slot|] eqn:EA.
    { (* a_st *) destruct (fget (frs c) slot) as [f|] eqn:GF; cbn [fst]; [apply (FIN slot f); auto|apply NOOP; auto]. }
    destruct (t_prog t) as [|[sz|nw] r] eqn:EPg; [exact CI| |].
    + inversion PP as [|? ? PA PR]; subst. cbn [act_pos] in PA.
      destruct (t_atx t); [|cbn [fst]; apply NOOP; auto; cbn [t_prog]; rewrite EPg; exact PP].
      (* a_x: the exchange *)
      assert (BE : s_busy (if 0 <? ngrow (c_thr s) then norm (st c) else st c) = s_busy (st c))
        by (destruct (0 <? ngrow (c_thr s)); reflexivity).
      destruct (s_busy (st c)) eqn:B.
      * pose proof (mts_lost_inv pm (nwon (c_thr s)) (hp c) _ (frs c) (c_nfid c) (c_nfid c) sz eq_refl I PA FR) as W.
        change (nreq pm sz) with sz in W. unfold mk_frame, mts_lost, hnew in *. cbn [fst].
        apply NOOP; [reflexivity|reflexivity|exact PR|apply K1|]. destruct (0 <? ngrow (c_thr s)); exact W.
      * destruct (mts_claim_inv pm _ _ _ _ eq_refl I BE) as [Z0 I1].
        assert (NG : ngrow (c_thr s) = 0) by lia. rewrite NG in I1.
        cbn [fst]. apply (CInv_upd s _ i t _ 1 0 CI ET); cbn [wonw groww t_won t_grow with_busy hp st frs c_nfid];
          [|lia|lia|exact K|exact I1].
        split; cbn [t_prog t_won t_grow]; auto.
    + (* busy_s *)
      inversion PP as [|? ? PA PR]; subst.
      destruct (pick nw (t_own t)) as [[slot rest]|]; [|cbn [fst]; apply NOOP; auto].
      destruct (fget (frs c) slot) as [f|] eqn:GF; [|cbn [fst]; apply NOOP; auto].
      destruct (f_tr f); cbn [fst]; [apply NOOP; auto|apply (FIN slot f); auto].
Qed.

(* every state reachable by thread steps in any order *)
Inductive mt_reach (ops : list (list Z)) : cst -> Prop :=
| mr_init : mt_reach ops (cinit ops)
| mr_step s i : mt_reach ops s -> mt_reach ops (fst (tstep s i)).

Lemma reach_CInv ops s : mt_reach ops s -> CInv s.
Proof. induction 1; [apply cinit_CInv|apply tstep_CInv; assumption]. Qed.

(* the shared block: at most one holder (a live frame in it, or a thread that won _busy and has not finished its alloc);
   every other live frame sits in a heap block of its own, different from the storage's block unless a holder is inside the
   growth, where _ptr dangles *)
Lemma CInv_one_holder s : CInv s ->
  nwon (c_thr s) + sumw trw (frs (c_core s)) = b2z (s_busy (st (c_core s))) /\
  forall i f, In (i, f) (frs (c_core s)) ->
    if f_tr f then ngrow (c_thr s) = 0 /\ f_blk f = optblk (s_ptr (st (c_core s)))
    else exists b, f_blk f = BHeap b /\ (ngrow (c_thr s) = 0 -> s_ptr (st (c_core s)) <> Some b).
Proof.
  intros [I _ P]. pose proof (ngrow_le_nwon _ P) as [NG _]. unfold eff in I. split.
  - pose proof (proj2 (i_busy _ _ _ _ _ I)) as B. destruct (0 <? ngrow (c_thr s)); exact B.
  - intros i f A. destruct (i_frames _ _ _ _ _ I _ _ A) as [_ _ _ V F]. cbn [pm p_pol] in F.
    destruct (0 <? ngrow (c_thr s)) eqn:G; destruct (f_tr f).
    + cbn [norm s_ptr optblk] in F. rewrite F in V. contradiction.
    + destruct F as [b [E _]]. exists b. split; [exact E|]. intros Z0. lia.
    + split; [lia|exact F].
    + destruct F as [b [E N]]. exists b. split; [exact E|]. intros _. exact N.
Qed.

Lemma CInv_valid_sized s i f : CInv s -> In (i, f) (frs (c_core s)) ->
  0 < f_n f /\ f_n f + ptr_sz <= f_room f /\ exists b, f_blk f = BHeap b /\ In (b, f_room f) (h_live (hp (c_core s))).
Proof.
  intros [I _ _] A. destruct (InvT_frame_valid PMts pm _ _ _ _ i f eq_refl I A) as (F1 & F2 & V).
  refine (conj F1 (conj F2 _)). destruct (f_blk f) as [|b|j]; [contradiction|eauto|destruct V; discriminate].
Qed.

Lemma CInv_freed_once s : CInv s ->
  let h := hp (c_core s) in
  h_bad h = 0 /\ h_allocs h - h_frees h = zlen (h_live h) /\
  zlen (h_live h) = nsown PMts (eff (c_thr s) (st (c_core s))) + sumw (owns PMts) (frs (c_core s)) /\
  (frs (c_core s) = [] -> nwon (c_thr s) = 0 ->
   let h1 := hp (destroy pm (c_core s)) in h_live h1 = [] /\ h_allocs h1 = h_frees h1 /\ h_bad h1 = 0).
Proof.
  intros [I _ P] h. pose proof (i_heap _ _ _ _ _ I) as HK.
  refine (conj (hk_bad _ HK) (conj (hk_cnt _ HK) (conj (i_cnt _ _ _ _ _ I) _))).
  intros E NW. assert (NG : ngrow (c_thr s) = 0) by (pose proof (ngrow_le_nwon _ P); lia).
  unfold eff in I. rewrite NG, NW, E in I. destruct (destroy_inv pm (c_core s) I) as [D1 D2].
  split; [exact D2|]. pose proof (hk_cnt _ D1) as C1. rewrite D2, zlen_nil in C1. split; [lia|exact (hk_bad _ D1)].
Qed.

Lemma run_sched_reach ops : forall fuel s sched tr, mt_reach ops s -> mt_reach ops (fst (run_sched fuel s sched tr)).
Proof.
  induction fuel as [|fuel IH]; intros s sched tr R; cbn [run_sched]; [exact R|].
  destruct (all_enabled s) as [|e en]; [exact R|]. set (i := nth _ _ _).
  pose proof (mr_step ops s i R) as R1. destruct (tstep s i) as [s1 pt]. apply IH. exact R1.
Qed.

(* termination: no thread is ever stuck.
   A thread is enabled exactly when it has something left to do (nothing in this protocol waits), and every step of an
   enabled thread decreases the remaining work, so every schedule ends with all programs completed. *)
Definition work (t : thread) : Z :=
  4 * zlen (t_prog t) + match t_won t with Some _ => (match t_grow t with Some _ => 1 | None => 2 end) | None => 0 end
  + (match t_ats t with Some _ => 1 | None => 0 end) + (if t_atx t then 0 else 1).
Definition twork (s : cst) : Z := tsum work (c_thr s).

Lemma work_nonneg t : 0 <= work t.
Proof. unfold work, zlen. destruct (t_won t); [destruct (t_grow t)|]; destruct (t_ats t); destruct (t_atx t); lia. Qed.

Lemma enabled_work t : t_enabled t = true -> 0 < work t.
Proof.
  intros EN. unfold t_enabled in EN. unfold work, zlen.
  destruct (t_won t); [destruct (t_grow t)|]; destruct (t_ats t); destruct (t_atx t); destruct (t_prog t); cbn [length]; try discriminate; lia.
Qed.

Ltac less_work D := apply D; unfold work; cbn [t_prog t_won t_grow t_ats t_atx]; rewrite ?zlen_cons; lia.

Lemma tstep_work s i t : nth_error (c_thr s) i = Some t -> t_enabled t = true -> twork (fst (tstep s i)) < twork s.
Proof.
  intros ET EN. unfold tstep. rewrite ET. unfold twork.
  assert (D : forall c t' (pt : Z), work t' < work t -> tsum work (c_thr (fst (upd s c i t', pt))) < tsum work (c_thr s)).
  { intros c t' pt L. unfold upd. cbn [fst c_thr]. rewrite (tsum_set_nth work _ _ _ _ ET). lia. }
  destruct t as [pr w ow dn rs g x a]. unfold t_enabled in EN. cbn [t_prog t_won t_own t_done t_res t_grow t_atx t_ats] in *.
  destruct w as [sz|]; [destruct g as [fr|]|destruct a as [slot|]].
  - (* busy_n *) unfold mk_frame, hnew. destruct a, x; less_work D.
  - (* busy_g *) destruct (sz + ptr_sz >? s_cap (st (c_core s))).
    + destruct a, x; less_work D.
    + unfold mk_frame. destruct (mts_won _ _ _) as [[h1 s1] g1]. destruct a, x; less_work D.
  - (* a_st *) destruct (fget (frs (c_core s)) slot); destruct x; less_work D.
  - destruct pr as [|[sz|nw] r]; [discriminate| |].
    + destruct x; [destruct (s_busy (st (c_core s)))|].
      * (* a_x, exchange lost *) unfold mk_frame. destruct (mts_lost _ _ _) as [[h1 s1] g1]. less_work D.
      * (* a_x, exchange won *) less_work D.
      * (* busy_x *) less_work D.
    + (* busy_s *) destruct (pick nw ow) as [[slot rest]|]; [destruct (fget (frs (c_core s)) slot) as [f|]; [destruct (f_tr f)|]|];
        destruct x; less_work D.
Qed.

Lemma enabled_from_spec : forall l from i, In i (enabled_from l from) ->
  exists t, nth_error l (i - from) = Some t /\ t_enabled t = true /\ (from <= i)%nat.
Proof.
  induction l as [|t l IH]; intros from i H; cbn [enabled_from] in H; [contradiction|].
  apply in_app_or in H. destruct H as [H|H].
  - destruct (t_enabled t) eqn:E; [|contradiction]. destruct H as [<-|[]]. exists t. rewrite Nat.sub_diag. auto.
  - destruct (IH _ _ H) as (t' & N & E & L). exists t'. replace (i - from)%nat with (S (i - S from)) by lia. cbn [nth_error]. repeat split; auto. lia.
Qed.

Lemma enabled_from_nil : forall l from, enabled_from l from = [] -> Forall (fun t => t_enabled t = false) l.
Proof.
  induction l as [|t l IH]; intros from H; [constructor|]. cbn [enabled_from] in H.
  apply app_eq_nil in H. destruct H as [H1 H2]. constructor; [destruct (t_enabled t); [discriminate|reflexivity]|exact (IH _ H2)].
Qed.

Lemma run_sched_done : forall fuel s sched tr, twork s <= Z.of_nat fuel ->
  all_enabled (fst (run_sched fuel s sched tr)) = [].
Proof.
  induction fuel as [|fuel IH]; intros s sched tr L; cbn [run_sched].
  - cbn [fst]. destruct (all_enabled s) as [|e en] eqn:EA; [reflexivity|]. exfalso.
    assert (In e (all_enabled s)) as H by (rewrite EA; apply in_eq).
    destruct (enabled_from_spec _ _ _ H) as (t & N & E & _). apply enabled_work in E.
    pose proof (tsum_nth_le work _ _ _ work_nonneg N). unfold twork in L. lia.
  - destruct (all_enabled s) as [|e en] eqn:EA; [cbn [fst]; exact EA|].
    set (i := nth _ _ _).
    assert (IN : In i (all_enabled s)) by (rewrite EA; apply nth_mod_In; discriminate).
    unfold all_enabled in IN. destruct (enabled_from_spec _ _ _ IN) as (t & N & E & _). rewrite Nat.sub_0_r in N.
    pose proof (tstep_work s i t N E) as D. destruct (tstep s i) as [s1 pt]. cbn [fst] in D. apply IH. lia.
Qed.

Lemma twork_init ops : twork (cinit ops) = 4 * Z.of_nat (sumlen (c_thr (cinit ops))) + Z.of_nat (length (c_thr (cinit ops))).
Proof.
  unfold twork, cinit. cbn [c_thr]. induction ops as [|o l IH]; cbn [flat_map]; [reflexivity|].
  destruct (decode_thread_cases o) as [->|[r ->]]; cbn [app]; [exact IH|].
  rewrite tsum_cons. cbn [sumlen length]. unfold work at 1. cbn [t_prog t_won t_ats t_atx]. unfold zlen. rewrite IH. lia.
Qed.

(* C19 liveness of the thread-safe storage: under every schedule all threads complete their programs; nobody waits
   for _busy (a loser falls back to the heap), nobody is left inside alloc *)
Lemma run_sched_all_done fuel s sched tr : twork s <= Z.of_nat fuel ->
  Forall (fun t => t_prog t = [] /\ t_won t = None) (c_thr (fst (run_sched fuel s sched tr))).
Proof.
  intros L. pose proof (enabled_from_nil _ _ (run_sched_done fuel s sched tr L)) as D.
  rewrite Forall_forall in *. intros t IN. specialize (D t IN).
  unfold t_enabled in D. destruct (t_won t); [discriminate|]. destruct (t_ats t); [discriminate|]. destruct (t_prog t); [auto|discriminate].
Qed.
