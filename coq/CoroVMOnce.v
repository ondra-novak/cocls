(* CoroVMOnce.v — "each once": every started coroutine has exactly ONE handle in the whole machine
   (running | inside start() on the C++ stack | waiting to be resumed directly inside install_queue_and_call | ready queue |
    awaiter chain of one future | co_awaiting a child), a coroutine that is not started has none.
   CoroVMRuns.v draws the consequences for the log (never resumed while running, after it finished or before it was started). *)
From Cocls Require Import Base CoroVMDefs CoroVMProofs.
Local Open Scope nat_scope.

Definition cnt (c : nat) (l : list nat) : nat := count_occ Nat.eq_dec l c.
Arguments cnt : simpl never.

Lemma cnt_nil : forall c, cnt c [] = 0. Proof. reflexivity. Qed.
Lemma cnt_cons : forall c x l, cnt c (x :: l) = (if Nat.eqb x c then 1 else 0) + cnt c l.
Proof.
  intros. unfold cnt. cbn. destruct (Nat.eq_dec x c) as [E|E].
  - subst. rewrite Nat.eqb_refl. reflexivity.
  - destruct (Nat.eqb_neq x c) as (_&H). rewrite (H E). reflexivity.
Qed.
Lemma cnt_app : forall c a b, cnt c (a ++ b) = cnt c a + cnt c b.
Proof. intros. unfold cnt. apply count_occ_app. Qed.
Lemma cnt_in : forall c l, In c l <-> cnt c l > 0.
Proof. intros. unfold cnt. apply count_occ_In. Qed.
Lemma cnt_notin : forall c l, ~ In c l -> cnt c l = 0.
Proof. intros. unfold cnt. apply count_occ_not_In. auto. Qed.
Lemma cnt_removelast : forall c l, l <> [] -> cnt c (removelast l) + (if Nat.eqb (last l 0) c then 1 else 0) = cnt c l.
Proof.
  intros c l N. rewrite (app_removelast_last 0 N) at 3. rewrite cnt_app, cnt_cons, cnt_nil. lia.
Qed.
Lemma cnt_le1_nodup : forall l, (forall c, cnt c l <= 1) -> NoDup l.
Proof. intros. apply (NoDup_count_occ Nat.eq_dec). exact H. Qed.

Fixpoint nests (k : list kframe) : list nat :=
  match k with [] => [] | KNest r :: t => r :: nests t | KInst _ :: t => nests t end.
Fixpoint insts (k : list kframe) : list nat :=
  match k with [] => [] | KInst hs :: t => hs ++ insts t | KNest _ :: t => insts t end.
(* who is in control, as a list *)
Definition curlf (k : ctl) : list nat := match k with CRun c => [c] | _ => [] end.

(* handles held by the scheduler side *)
Definition hc (k : ctl) (stk : list kframe) (q : list nat) (c : nat) : nat :=
  cnt c (curlf k) + cnt c (nests stk) + cnt c (insts stk) + cnt c q.

(* is child x (started) bound to parent c ? *)
Definition pw (C : nat -> coro) (x c : nat) : nat :=
  match stat (C x), bound (C x) with Started, BParent p => if Nat.eqb p c then 1 else 0 | _, _ => 0 end.

(* handles held by awaiters: read off the waiting coroutine's own script head *)
Definition Wf (C : nat -> coro) (F : nat -> fut) (c : nat) : nat :=
  match script (C c) with
  | IGotF f :: _ => cnt c (chain_of (F f))
  | IGotC x :: _ => pw C x c
  | _ => 0
  end.

(* the number of handles c must have: one iff started *)
Definition st1f (C : nat -> coro) (c : nat) : nat := match stat (C c) with Started => 1 | _ => 0 end.

(* d c = handles of c "in flight" (taken out of a chain / just created, not yet placed) *)
Record onceP (d : nat -> nat) (k : ctl) (stk : list kframe) (q : list nat) (C : nat -> coro) (F : nat -> fut) : Prop := {
  o1 : forall c, hc k stk q c + Wf C F c + d c = st1f C c;
  o2 : forall f c, In c (chain_of (F f)) -> exists rest, script (C c) = IGotF f :: rest;
  o3 : forall x p, stat (C x) = Started -> bound (C x) = BParent p -> exists rest, script (C p) = IGotC x :: rest;
  o4 : forall c, stat (C c) = Unmade -> script (C c) = [] }.

Definition onceD (d : nat -> nat) (s : st) : Prop := onceP d (cur s) (stack s) (queue s) (cs s) (fs s).
Definition none_in_flight : nat -> nat := fun _ => 0.
Definition once (s : st) : Prop := onceD none_in_flight s.

Lemma once_init : forall p m, once (init p m).
Proof. intros. constructor; cbn; intros; auto; try contradiction; try discriminate. Qed.

Section Facts.
Variables (d : nat -> nat) (k : ctl) (stk : list kframe) (q : list nat) (C : nat -> coro) (F : nat -> fut).
Hypothesis O : onceP d k stk q C F.

Lemma st1f_le : forall c, st1f C c <= 1.
Proof. intros. unfold st1f. destruct (stat (C c)); lia. Qed.

Lemma held_started : forall c, hc k stk q c > 0 -> stat (C c) = Started /\ Wf C F c = 0 /\ d c = 0 /\ hc k stk q c = 1.
Proof.
  intros c H. pose proof (o1 _ _ _ _ _ _ O c) as E. pose proof (st1f_le c) as L.
  assert (S1 : st1f C c = 1) by lia. unfold st1f in S1. destruct (stat (C c)) eqn:S; try discriminate. repeat split; lia.
Qed.

Lemma cur_started : forall c, k = CRun c -> stat (C c) = Started /\ Wf C F c = 0 /\ d c = 0.
Proof.
  intros c E. assert (H : hc k stk q c > 0).
  { unfold hc. rewrite E. cbn [curlf]. rewrite cnt_cons, Nat.eqb_refl. lia. }
  destruct (held_started c H) as (A&B&D&_). auto.
Qed.

Lemma not_started_zero : forall c, stat (C c) <> Started -> hc k stk q c = 0 /\ Wf C F c = 0 /\ d c = 0.
Proof.
  intros c N. pose proof (o1 _ _ _ _ _ _ O c) as E. unfold st1f in E. destruct (stat (C c)); try congruence; lia.
Qed.

Lemma chain_member : forall f c, In c (chain_of (F f)) ->
  stat (C c) = Started /\ hc k stk q c = 0 /\ d c = 0 /\ cnt c (chain_of (F f)) = 1 /\ exists rest, script (C c) = IGotF f :: rest.
Proof.
  intros f c I. destruct (o2 _ _ _ _ _ _ O f c I) as (rest&S).
  pose proof (o1 _ _ _ _ _ _ O c) as E. unfold Wf in E. rewrite S in E.
  apply cnt_in in I. pose proof (st1f_le c) as L.
  assert (S1 : st1f C c = 1) by lia. unfold st1f in S1. destruct (stat (C c)) eqn:SS; try discriminate.
  repeat split; try lia. eauto.
Qed.

Lemma parent_waits : forall x p, stat (C x) = Started -> bound (C x) = BParent p ->
  stat (C p) = Started /\ hc k stk q p = 0 /\ d p = 0 /\ exists rest, script (C p) = IGotC x :: rest.
Proof.
  intros x p S B. destruct (o3 _ _ _ _ _ _ O x p S B) as (rest&SP).
  pose proof (o1 _ _ _ _ _ _ O p) as E. unfold Wf in E. rewrite SP in E. unfold pw in E. rewrite S, B, Nat.eqb_refl in E.
  pose proof (st1f_le p) as L. assert (S1 : st1f C p = 1) by lia. unfold st1f in S1.
  destruct (stat (C p)) eqn:SS; try discriminate. repeat split; try lia. eauto.
Qed.
Lemma waits_nothing : forall r, Wf C F r = 0 ->
  (forall f, ~ In r (chain_of (F f))) /\ (forall x, stat (C x) = Started -> bound (C x) = BParent r -> False).
Proof.
  intros r W. unfold Wf in W. split.
  - intros f I. destruct (o2 _ _ _ _ _ _ O f r I) as (rest&S). rewrite S in W. apply cnt_in in I. lia.
  - intros x S B. destruct (o3 _ _ _ _ _ _ O x r S B) as (rest&SR). rewrite SR in W. unfold pw in W.
    rewrite S, B, Nat.eqb_refl in W. discriminate.
Qed.
End Facts.

Lemma st1f_upd : forall C r new c, st1f (upd C r new) c = if Nat.eqb c r then (match stat new with Started => 1 | _ => 0 end) else st1f C c.
Proof. intros. unfold st1f, upd. destruct (Nat.eqb c r); reflexivity. Qed.

Definition reScript (k : coro) (l : list instr) : coro := mkCoro (stat k) l (bound k) (result k).

Lemma pw_one : forall C x p, pw C x p = 1 -> stat (C x) = Started /\ bound (C x) = BParent p.
Proof.
  intros C x p H. unfold pw in H. destruct (stat (C x)); try discriminate. destruct (bound (C x)) as [| |p']; try discriminate.
  destruct (Nat.eqb p' p) eqn:E; [|discriminate]. apply Nat.eqb_eq in E. subst p'. auto.
Qed.

Lemma once_ext_cs : forall d k stk q C C' F, onceP d k stk q C F -> (forall x, C' x = C x) -> onceP d k stk q C' F.
Proof.
  intros until F. intros O E. constructor.
  - intros c. replace (Wf C' F c) with (Wf C F c); [unfold st1f; rewrite E; apply (o1 _ _ _ _ _ _ O)|].
    unfold Wf, pw. rewrite E. destruct (script (C c)) as [|[] t]; try reflexivity. rewrite E. reflexivity.
  - intros f c I. rewrite E. eapply o2; eauto.
  - intros x p S B. rewrite E in *. eapply o3; eauto.
  - intros c S. rewrite E in *. eapply o4; eauto.
Qed.

(* The record of r changes, and with it possibly the scheduler-side places.  Before, r waits for nothing.  Whether r is a
   child awaited by y may change only for a y whose script stands at `IGotC r`: then y's own count changes with it, and the
   balance of y has to make up for that. *)
Lemma once_upd : forall d d' k k' stk q C F r new,
  onceP d k stk q C F -> Wf C F r = 0 -> ~ (stat new = Started /\ bound new = BParent r) ->
  (stat new = Unmade -> script new = []) ->
  (forall y, pw (upd C r new) r y = pw C r y \/ exists rest, script (C y) = IGotC r :: rest) ->
  (forall y, y <> r -> hc k' stk q y + pw (upd C r new) r y + d' y = hc k stk q y + pw C r y + d y) ->
  hc k' stk q r + d' r = (match stat new with Started => 1 | _ => 0 end) ->
  onceP d' k' stk q (upd C r new) F.
Proof.
  intros until new. intros O W NB U P E Er.
  destruct (waits_nothing _ _ _ _ _ _ O r W) as (NC&NP).
  assert (PW : forall x y, x <> r -> pw (upd C r new) x y = pw C x y).
  { intros x y N. unfold pw. rewrite upd_other by exact N. reflexivity. }
  constructor.
  - intros y. rewrite st1f_upd. destruct (Nat.eqb y r) eqn:YR.
    + apply Nat.eqb_eq in YR. subst y.
      assert (W1 : Wf (upd C r new) F r = 0).
      { unfold Wf. rewrite upd_same. destruct (script new) as [|[] t]; auto; [apply cnt_notin, NC|].
        destruct (Nat.eq_dec c r) as [->|N]; unfold pw; [rewrite upd_same|rewrite upd_other by exact N].
        - destruct (stat new) eqn:S; auto. destruct (bound new) as [| |p] eqn:B; auto.
          destruct (Nat.eqb p r) eqn:PR; auto. apply Nat.eqb_eq in PR. subst p. destruct NB. auto.
        - destruct (stat (C c)) eqn:S; auto. destruct (bound (C c)) as [| |p] eqn:B; auto.
          destruct (Nat.eqb p r) eqn:PR; auto. apply Nat.eqb_eq in PR. subst p. destruct (NP c S B). }
      rewrite W1. lia.
    + apply Nat.eqb_neq in YR. pose proof (o1 _ _ _ _ _ _ O y) as Oy. specialize (E y YR).
      assert (WW : Wf (upd C r new) F y + pw C r y = Wf C F y + pw (upd C r new) r y).
      { unfold Wf. rewrite upd_other by exact YR. destruct (P y) as [Q|(rest&S)]; [|rewrite S; lia].
        rewrite Q. destruct (script (C y)) as [|[] t]; try reflexivity.
        destruct (Nat.eq_dec c r) as [->|N]; [rewrite Q|rewrite PW by exact N]; reflexivity. }
      lia.
  - intros f y I. assert (y <> r) by (intros ->; apply (NC f I)). rewrite upd_other; auto. eapply o2; eauto.
  - intros x p S B. destruct (Nat.eq_dec x r) as [->|N].
    + rewrite upd_same in S, B. assert (p <> r) by (intros ->; apply NB; auto). rewrite upd_other by assumption.
      assert (Q : pw (upd C r new) r p = 1) by (unfold pw; rewrite upd_same, S, B, Nat.eqb_refl; reflexivity).
      destruct (P p) as [Q'|H']; [|exact H']. rewrite Q in Q'. symmetry in Q'.
      destruct (pw_one _ _ _ Q') as (S'&B'). eapply o3; eauto.
    + rewrite upd_other in S, B by exact N. assert (p <> r) by (intros ->; eapply NP; eauto).
      rewrite upd_other; auto. eapply o3; eauto.
  - intros y S. unfold upd in *. destruct (Nat.eqb y r); [auto|eapply o4; eauto].
Qed.

Lemma once_upd_same : forall d d' k k' stk q C F r new,
  onceP d k stk q C F -> Wf C F r = 0 ->
  (forall y, pw (upd C r new) r y = pw C r y) ->
  (stat new = Unmade -> script new = []) ->
  (forall y, y <> r -> hc k' stk q y + d' y = hc k stk q y + d y) ->
  hc k' stk q r + d' r = (match stat new with Started => 1 | _ => 0 end) ->
  onceP d' k' stk q (upd C r new) F.
Proof.
  intros until new. intros O W P U E Er. apply (once_upd d d' k k'); auto.
  - intros (S&B). destruct (waits_nothing _ _ _ _ _ _ O r W) as (_&NP). pose proof (P r) as Q. unfold pw in Q at 1.
    rewrite upd_same, S, B, Nat.eqb_refl in Q. symmetry in Q. destruct (pw_one _ _ _ Q) as (S'&B'). apply (NP r S' B').
  - intros y N. rewrite P. specialize (E y N). lia.
Qed.

(* the script of a coroutine that currently holds a scheduler-side handle (running, queued, ...) may change freely *)
Lemma once_set_script_held : forall d k stk q C F r l,
  onceP d k stk q C F -> hc k stk q r > 0 -> onceP d k stk q (upd C r (reScript (C r) l)) F.
Proof.
  intros d k stk q C F r l O H. destruct (held_started _ _ _ _ _ _ O r H) as (SR&WR&DR&HR).
  apply (once_upd_same d d k k); [exact O|exact WR| | |reflexivity|]; cbn [stat reScript].
  - intros y. unfold pw. rewrite upd_same. reflexivity.
  - congruence.
  - rewrite SR. lia.
Qed.

(* scheduler-side moves: only the balance matters *)
Lemma once_sched : forall d d' k k' stk stk' q q' C F,
  onceP d k stk q C F -> (forall c, hc k' stk' q' c + d' c = hc k stk q c + d c) -> onceP d' k' stk' q' C F.
Proof.
  intros until F. intros O E. constructor; [|eapply o2; eauto|eapply o3; eauto|eapply o4; eauto].
  intros c. pose proof (o1 _ _ _ _ _ _ O c). specialize (E c). lia.
Qed.

(* The record of future f changes.  Only coroutines whose script stands at `IGotF f` are in its chain, before and after, so
   only their counts change, and the balance has to make up for that. *)
Lemma once_upd_fut : forall d d' k k' stk q C F f new,
  onceP d k stk q C F ->
  (forall c, In c (chain_of new) -> exists rest, script (C c) = IGotF f :: rest) ->
  (forall c, hc k' stk q c + cnt c (chain_of new) + d' c = hc k stk q c + cnt c (chain_of (F f)) + d c) ->
  onceP d' k' stk q C (upd F f new).
Proof.
  intros until new. intros O N E.
  assert (CH : forall g, g <> f -> chain_of (upd F f new g) = chain_of (F g)) by (intros; rewrite upd_other; auto).
  assert (CHf : chain_of (upd F f new f) = chain_of new) by (rewrite upd_same; reflexivity).
  assert (Z : forall c, (forall t, script (C c) <> IGotF f :: t) -> cnt c (chain_of (F f)) = 0 /\ cnt c (chain_of new) = 0).
  { intros c H. split; apply cnt_notin; intros I; [destruct (o2 _ _ _ _ _ _ O f c I) as (t&S)|destruct (N c I) as (t&S)]; exact (H t S). }
  constructor; [| |eapply o3; eauto|eapply o4; eauto].
  - intros c. pose proof (o1 _ _ _ _ _ _ O c) as Oc. specialize (E c).
    assert (WW : Wf C (upd F f new) c + cnt c (chain_of (F f)) = Wf C F c + cnt c (chain_of new)).
    { unfold Wf. destruct (script (C c)) as [|[] t] eqn:S;
        try (destruct (Z c) as (Z1&Z2); [intros t' S'; congruence|rewrite Z1, Z2; reflexivity]).
      destruct (Nat.eq_dec f0 f) as [->|NF]; [rewrite CHf; lia|rewrite CH by exact NF].
      destruct (Z c) as (Z1&Z2); [intros t' S'; congruence|rewrite Z1, Z2; reflexivity]. }
    lia.
  - intros g c I. destruct (Nat.eq_dec g f) as [->|NG]; [rewrite CHf in I; apply N, I|rewrite CH in I by exact NG; eapply o2; eauto].
Qed.

(* a coroutine that is not started changes into another not-started one (make, ~async) *)
Lemma once_idle_change : forall d k stk q C F c new,
  onceP d k stk q C F -> stat (C c) <> Started -> stat new <> Started -> (stat new = Unmade -> script new = []) ->
  onceP d k stk q (upd C c new) F.
Proof.
  intros until new. intros O N N' U. destruct (not_started_zero _ _ _ _ _ _ O c N) as (H0&W0&D0).
  apply (once_upd_same d d k k); [exact O|exact W0| |exact U|reflexivity|].
  - intros y. unfold pw. rewrite upd_same. destruct (stat new); try congruence; destruct (stat (C c)); try congruence; reflexivity.
  - destruct (stat new); try congruence; lia.
Qed.

(* Created -> Started with a non-parent binding: one handle of c is now in flight *)
Definition one_more_in_flight (d : nat -> nat) (c : nat) : nat -> nat := fun x => d x + (if Nat.eqb c x then 1 else 0).

Lemma once_start : forall d k stk q C F c b,
  onceP d k stk q C F -> stat (C c) = Created -> (forall p, b <> BParent p) ->
  onceP (one_more_in_flight d c) k stk q (upd C c (mkCoro Started (script (C c)) b (result (C c)))) F.
Proof.
  intros until b. intros O SC NB. assert (N : stat (C c) <> Started) by congruence.
  destruct (not_started_zero _ _ _ _ _ _ O c N) as (H0&W0&D0).
  apply (once_upd_same d (one_more_in_flight d c) k k); [exact O|exact W0| |discriminate| |]; unfold one_more_in_flight.
  - intros y. unfold pw. rewrite upd_same, SC. cbn. destruct b; auto. exfalso. eapply NB; eauto.
  - intros y NY. destruct (Nat.eqb_neq c y) as (_&X). rewrite X by congruence. lia.
  - cbn. rewrite Nat.eqb_refl. lia.
Qed.

(* a future becomes ready: the handles of its chain are in flight *)
Lemma once_clear : forall d k stk q C F f r cl,
  onceP d k stk q C F ->
  onceP (fun x => d x + cnt x (chain_of (F f))) k stk q C (upd F f (mkFut (FReady r) cl)).
Proof. intros until cl. intros O. apply (once_upd_fut d _ k k); [exact O|intros c []|]. intros c. change (chain_of (mkFut (FReady r) cl)) with (@nil nat). rewrite cnt_nil. lia. Qed.

Lemma hc_run : forall r stk q c, hc (CRun r) stk q c = (if Nat.eqb r c then 1 else 0) + cnt c (nests stk) + cnt c (insts stk) + cnt c q.
Proof. intros. unfold hc. cbn [curlf]. rewrite cnt_cons, cnt_nil. lia. Qed.
Lemma hc_norun : forall k stk q c, curlf k = [] -> hc k stk q c = cnt c (nests stk) + cnt c (insts stk) + cnt c q.
Proof. intros. unfold hc. rewrite H, cnt_nil. lia. Qed.

(* co_await future (pending): the running coroutine moves into the chain *)
Lemma once_subscribe : forall d stk q C F r f rest cl k',
  onceP d (CRun r) stk q C F -> script (C r) = IGotF f :: rest -> curlf k' = [] ->
  onceP d k' stk q C (upd F f (mkFut (FPend (r :: chain_of (F f))) cl)).
Proof.
  intros until k'. intros O S K. apply (once_upd_fut d d (CRun r) k'); [exact O| |]; cbn [chain_of fstt].
  - intros c [<-|I]; [eauto|apply (o2 _ _ _ _ _ _ O f c I)].
  - intros c. rewrite hc_run, (hc_norun k' stk q c K), cnt_cons. lia.
Qed.

(* the body of the running coroutine is over *)
Lemma once_done : forall d stk q C F r res k',
  onceP d (CRun r) stk q C F -> (forall p, bound (C r) <> BParent p) -> curlf k' = [] ->
  onceP d k' stk q (upd C r (mkCoro Done [] (bound (C r)) res)) F.
Proof.
  intros until k'. intros O NB K.
  assert (HR : hc (CRun r) stk q r > 0) by (rewrite hc_run, Nat.eqb_refl; lia).
  destruct (held_started _ _ _ _ _ _ O r HR) as (SR&WR&DR&H1). rewrite hc_run, Nat.eqb_refl in H1.
  apply (once_upd_same d d (CRun r) k'); [exact O|exact WR| |discriminate| |].
  - intros y. unfold pw. rewrite upd_same, SR. cbn. destruct (bound (C r)) eqn:B; auto. exfalso. eapply NB; eauto.
  - intros y NY. rewrite hc_run, (hc_norun k' stk q y K). destruct (Nat.eqb_neq r y) as (_&X). rewrite X by congruence. lia.
  - cbn. rewrite (hc_norun k' stk q r K). lia.
Qed.

Lemma once_done_parent : forall d stk q C F r res p,
  onceP d (CRun r) stk q C F -> bound (C r) = BParent p ->
  onceP d (CRun p) stk q (upd C r (mkCoro Done [] (bound (C r)) res)) F.
Proof.
  intros until p. intros O B.
  assert (HR : hc (CRun r) stk q r > 0) by (rewrite hc_run, Nat.eqb_refl; lia).
  destruct (held_started _ _ _ _ _ _ O r HR) as (SR&WR&DR&H1).
  destruct (parent_waits _ _ _ _ _ _ O r p SR B) as (SP&HP&DP&rest&ScP).
  assert (PR : (p =? r) = false) by (apply Nat.eqb_neq; intros ->; lia). rewrite hc_run, Nat.eqb_refl in H1.
  assert (PW' : forall y, pw (upd C r (mkCoro Done [] (bound (C r)) res)) r y = 0) by (intros; unfold pw; rewrite upd_same; reflexivity).
  assert (PW : forall y, pw C r y = if Nat.eqb p y then 1 else 0) by (intros; unfold pw; rewrite SR, B; reflexivity).
  apply (once_upd d d (CRun r) (CRun p)); [exact O|exact WR|intros (S&_); discriminate|discriminate| | |].
  - intros y. rewrite PW', PW. destruct (Nat.eqb p y) eqn:PY; [right|left; reflexivity]. apply Nat.eqb_eq in PY. subst y. eauto.
  - intros y NY. rewrite PW', PW, !hc_run. destruct (Nat.eqb_neq r y) as (_&X). rewrite X by congruence. destruct (Nat.eqb p y); lia.
  - rewrite hc_run, PR. cbn. lia.
Qed.

(* co_await child: the parent waits, the child runs *)
Lemma once_coawait : forall d stk q C F r c l,
  onceP d (CRun r) stk q C F -> stat (C c) = Created ->
  let C1 := upd C c (mkCoro Started (script (C c)) (BParent r) (result (C c))) in
  onceP d (CRun c) stk q (upd C1 r (reScript (C1 r) (IGotC c :: l))) F.
Proof.
  intros until l. intros O SC C1.
  assert (HR : hc (CRun r) stk q r > 0) by (rewrite hc_run, Nat.eqb_refl; lia).
  assert (CR : c <> r) by (intros ->; destruct (held_started _ _ _ _ _ _ O r HR); congruence).
  (* the script of r first, while c is not yet its child; then the record of c, which makes r wait *)
  pose proof (once_set_script_held _ _ _ _ _ _ r (IGotC c :: l) O HR) as O1.
  set (Cr := upd C r (reScript (C r) (IGotC c :: l))) in O1.
  set (new := mkCoro Started (script (C c)) (BParent r) (result (C c))) in *.
  apply (once_ext_cs _ _ _ _ (upd Cr c new)).
  2: { intros x. unfold C1, Cr. destruct (Nat.eq_dec x r) as [->|XR].
       - rewrite upd_same, !(upd_other _ _ c) by congruence. rewrite upd_same. reflexivity.
       - rewrite (upd_other _ _ r) by exact XR. unfold upd. destruct (Nat.eqb x c); [reflexivity|].
         destruct (Nat.eqb_neq x r) as (_&X). rewrite (X XR). reflexivity. }
  assert (SC1 : stat (Cr c) = Created) by (unfold Cr; rewrite upd_other by exact CR; exact SC).
  assert (N : stat (Cr c) <> Started) by congruence.
  destruct (not_started_zero _ _ _ _ _ _ O1 c N) as (H0&W0&D0).
  assert (RC : (r =? c) = false) by (apply Nat.eqb_neq; congruence). rewrite hc_run, RC in H0.
  assert (PW' : forall y, pw (upd Cr c new) c y = if Nat.eqb r y then 1 else 0) by (intros; unfold pw; rewrite upd_same; reflexivity).
  assert (PW : forall y, pw Cr c y = 0) by (intros; unfold pw; rewrite SC1; reflexivity).
  apply (once_upd d d (CRun r) (CRun c)); [exact O1|exact W0| |discriminate| | |].
  - intros (_&B). inversion B. congruence.
  - intros y. rewrite PW', PW. destruct (Nat.eqb r y) eqn:RY; [right|left; reflexivity]. apply Nat.eqb_eq in RY. subst y.
    unfold Cr. rewrite upd_same. cbn. eauto.
  - intros y NY. rewrite PW', PW, !hc_run. destruct (Nat.eqb_neq c y) as (_&X). rewrite X by congruence. destruct (Nat.eqb r y); lia.
  - rewrite hc_run, Nat.eqb_refl. cbn. lia.
Qed.

Definition in_flight (hs : list nat) : nat -> nat := fun x => cnt x hs.

Lemma onceD_ext : forall d d' s, onceD d s -> (forall x, d' x = d x) -> onceD d' s.
Proof. intros d d' s O E. eapply once_sched; [exact O|]. intros c. rewrite E. reflexivity. Qed.

Lemma onceD_ev : forall d s e, onceD d s -> onceD d (ev s e). Proof. auto. Qed.
Lemma onceD_set_made : forall d s x, onceD d s -> onceD d (set_made s x). Proof. auto. Qed.
Lemma onceD_set_active : forall d s x, onceD d s -> onceD d (set_active s x). Proof. auto. Qed.

Lemma onceD_enq_all : forall d s l b w,
  onceD (fun x => d x + cnt x l) s -> onceD d (enq_all s l b w).
Proof.
  intros. unfold onceD in *. rewrite enq_all_eq. cbn. eapply once_sched; eauto.
  intros c. unfold hc. rewrite cnt_app. lia.
Qed.

Lemma onceD_make : forall d s c, onceD d s -> stat (cs s c) = Unmade -> onceD d (make s c).
Proof.
  intros. unfold make. apply onceD_ev, onceD_set_made. unfold onceD. cbn.
  apply once_idle_change; auto; cbn; congruence.
Qed.

Lemma onceD_ensure_made : forall d s c, onceD d s -> onceD d (ensure_made s c).
Proof. intros d s c O. destruct (ensure_made_cases s c) as [->|(U & ->)]; [exact O|apply onceD_make; assumption]. Qed.

Lemma onceD_set_started : forall d s c b, onceD d s -> is_created s c = true -> (forall p, b <> BParent p) ->
  onceD (one_more_in_flight d c) (set_started s c b).
Proof.
  intros. unfold set_started. apply onceD_ev. unfold onceD. cbn. apply once_start; auto using is_created_stat.
Qed.

Lemma onceD_set_fut : forall d s f x, onceD d s -> chain_of x = chain_of (fs s f) -> onceD d (set_fs s (upd (fs s) f x)).
Proof.
  intros d s f x O E. unfold onceD in *. cbn. apply (once_upd_fut d d (cur s) (cur s)); [exact O| |]; rewrite E.
  - intros c I. apply (o2 _ _ _ _ _ _ O f c I).
  - reflexivity.
Qed.

Definition ctx_ok (s : st) (me : nat) : Prop :=
  (cur s = CMain /\ me = 0 /\ active s = false) \/ (cur s = CRun me /\ active s = true).

Lemma onceD_sp_dispose : forall s me hs aw,
  onceD (in_flight hs) s -> ctx_ok s me -> (cur s = CMain -> aw = false) -> once (sp_dispose s me hs aw).
Proof.
  intros s me hs aw O X M. unfold sp_dispose. destruct hs as [|h t] eqn:HS.
  - eapply onceD_ext; eauto.
  - rewrite <- HS in *. assert (NE : hs <> []) by (rewrite HS; discriminate). clear HS.
    destruct X as [(C&->&A)|(C&A)].
    + rewrite (M C), A. unfold once, onceD in *. cbn. rewrite C in *. eapply once_sched; eauto.
      intros c. unfold hc, in_flight, none_in_flight. cbn. rewrite cnt_app. lia.
    + destruct aw.
      * unfold once, onceD, run_c, enq. rewrite enq_all_eq. cbn. unfold onceD in O. rewrite C in O. eapply once_sched; eauto.
        intros c. rewrite !hc_run. unfold in_flight, none_in_flight. rewrite !cnt_app, cnt_cons, cnt_nil.
        pose proof (cnt_removelast c hs NE). lia.
      * rewrite A. apply onceD_enq_all. eapply onceD_ext; eauto.
Qed.

Lemma once_finish : forall s c r, once s -> cur s = CRun c -> once (finish s c r).
Proof.
  intros s c r O C. unfold finish. destruct (bound (cs s c)) as [|f|p] eqn:B; cbn [fst snd].
  - unfold once, onceD in *. cbn. rewrite C in O. rewrite <- B. apply once_done; auto. rewrite B. discriminate.
  - set (ch := chain_of (fs (ev s (EFin c r)) f)). change (fs (ev s (EFin c r))) with (fs s) in *.
    assert (O2 : onceP (in_flight ch) CRet (stack s) (queue s)
                       (upd (cs s) c (mkCoro Done [] (bound (cs s c)) r)) (upd (fs s) f (mkFut (FReady r) (claimed (fs s f))))).
    { apply once_done; auto; [|rewrite B; discriminate]. unfold once, onceD in O. rewrite C in O.
      eapply once_sched; [apply (once_clear _ _ _ _ _ _ f r (claimed (fs s f)) O)|]. intros; reflexivity. }
    rewrite B in O2. destruct ch as [|h t] eqn:CH.
    + unfold once, onceD. cbn. eapply once_sched; eauto.
    + rewrite <- CH in *. assert (NE : ch <> []) by (rewrite CH; discriminate).
      unfold once, onceD, run_c. rewrite enq_all_eq. cbn. eapply once_sched; eauto.
      intros x. rewrite hc_run, (hc_norun CRet) by reflexivity. unfold in_flight, none_in_flight. rewrite cnt_app.
      pose proof (cnt_removelast x ch NE). lia.
  - unfold once, onceD, run_c in *. cbn. rewrite C in O. rewrite <- B. apply once_done_parent; auto.
Qed.

Lemma ctx_ev : forall s me e, ctx_ok s me -> ctx_ok (ev s e) me. Proof. intros s me e X. exact X. Qed.
Lemma cur_ensure : forall s c, cur (ensure_made s c) = cur s.
Proof. exact cur_ensure_made. Qed.
Lemma ctx_ensure : forall s me c, ctx_ok s me -> ctx_ok (ensure_made s c) me.
Proof. intros s me c X. destruct (ensure_made_cases s c) as [->|(_ & ->)]; exact X. Qed.
Lemma ctx_main_aw : forall s me aw, ctx_ok s me -> (aw && Nat.eqb me 0) = false -> cur s = CMain -> aw = false.
Proof. intros s me aw [(C&->&A)|(C&A)] H E; [destruct aw; auto|congruence]. Qed.
Lemma ctx_run : forall s me, ctx_ok s me -> Nat.eqb me 0 = false -> cur s = CRun me /\ active s = true.
Proof. intros s me [(C&->&A)|(C&A)] H; [discriminate|auto]. Qed.

Lemma one_in_flight_eq : forall c x, one_more_in_flight none_in_flight c x = in_flight [c] x.
Proof. intros. unfold one_more_in_flight, none_in_flight, in_flight. rewrite cnt_cons, cnt_nil. lia. Qed.

Lemma onceD_one_sp : forall s me c aw, onceD (one_more_in_flight none_in_flight c) s -> ctx_ok s me -> aw && Nat.eqb me 0 = false ->
  once (sp_dispose s me [c] aw).
Proof.
  intros s me c aw O X A. apply onceD_sp_dispose; [|exact X|apply (ctx_main_aw _ me); assumption].
  eapply onceD_ext; [exact O|]. intros; symmetry; apply one_in_flight_eq.
Qed.

Lemma once_exec : forall s me i, once s -> ctx_ok s me -> once (exec s me i).
Proof.
  intros s me i O X.
  assert (O1 : forall c, once (ensure_made s c)) by (intros; apply onceD_ensure_made, O).
  assert (X1 : forall c, ctx_ok (ensure_made s c) me) by (intros; apply ctx_ensure, X).
  destruct (exec_cases s me i) as [e N|c e N|x q M0 Q|c U|c K|c aw s1 K A|c f s1 s2 K F|c f aw s1 K A Cl|c s1 M0 K|f F
                                  |f r aw A Cl|f ch M0 F s1|r M0].
  - exact O.
  - apply O1.
  - destruct (ctx_run s me X M0) as (C&A).
    unfold once, onceD, run_c in *. cbn. rewrite C in O. eapply once_sched; eauto.
    intros c. rewrite !hc_run. pose proof (f_equal (cnt c) Q) as E. rewrite cnt_app, !cnt_cons, cnt_nil in E. unfold none_in_flight. lia.
  - apply onceD_make; assumption.
  - apply onceD_ev. unfold once, onceD in *. cbn. apply once_idle_change; auto; cbn; try congruence.
    rewrite (is_created_stat s c K). discriminate.
  - apply onceD_one_sp; [apply onceD_set_started; [apply O1|exact K|discriminate]|exact (X1 c)|exact A].
  - assert (O2 : onceD (one_more_in_flight none_in_flight c) s2).
    { apply onceD_set_started; [|exact K|discriminate]. apply onceD_set_fut; [apply O1|]. fold s1. unfold chain_of. rewrite F. reflexivity. }
    destruct (X1 c) as [(C&->&A)|(C&A)]; fold s1 in C, A; rewrite A; unfold once, onceD, run_c in *;
      change (cur s2) with (cur s1) in O2; change (stack s2) with (stack s1) in O2; change (queue s2) with (queue s1) in O2;
      rewrite C in O2; cbn;
      (eapply once_sched; [exact O2|]); intros x.
    + unfold hc. cbn. rewrite cnt_cons. unfold one_more_in_flight, none_in_flight. lia.
    + rewrite !hc_run. cbn [nests insts]. rewrite cnt_cons. unfold one_more_in_flight, none_in_flight. lia.
  - apply onceD_one_sp; [|exact (X1 c)|exact A].
    apply onceD_ev, onceD_set_started; [apply onceD_set_fut; [apply O1|reflexivity]|exact K|discriminate].
  - destruct (ctx_run s1 me (X1 c) M0) as (C&_). pose proof (O1 c) as O2. fold s1 in O2.
    unfold once, onceD, run_c in *. cbn. rewrite C in O2.
    apply (once_coawait _ _ _ _ _ me c (script (cs s1 me)) O2 (is_created_stat s1 c K)).
  - apply onceD_set_fut; [exact O|]. unfold chain_of. rewrite F. reflexivity.
  - apply onceD_sp_dispose; [|exact X|apply (ctx_main_aw _ me); assumption].
    apply onceD_ev, onceD_ev. unfold once, onceD in *. cbn. eapply once_sched; [apply (once_clear _ _ _ _ _ _ f r true O)|].
    intros; reflexivity.
  - destruct (ctx_run s me X M0) as (C&_). unfold once, onceD in *. cbn. rewrite C in O.
    assert (HR : hc (CRun me) (stack s) (queue s) me > 0) by (rewrite hc_run, Nat.eqb_refl; lia).
    pose proof (once_set_script_held _ _ _ _ _ _ me (IGotF f :: script (cs s me)) O HR) as O2.
    assert (CH : chain_of (fs s f) = ch) by (unfold chain_of; rewrite F; reflexivity).
    rewrite <- CH. eapply once_subscribe; eauto. rewrite upd_same. reflexivity.
  - destruct (ctx_run s me X M0) as (C&_). apply once_finish; assumption.
Qed.

Lemma once_step_ret : forall s, once s -> cur s = CRet -> once (step_ret s).
Proof.
  intros s O C. unfold once, onceD in *. rewrite C in O.
  destruct (ret_cases s) as [K|r rest K|h hs rest K|x q rest K Q|rest K Q]; unfold run_c; cbn;
    (eapply once_sched; [exact O|]); intros c; rewrite ?hc_run, !hc_norun by reflexivity;
    rewrite ?K, ?Q; cbn [nests insts app]; rewrite ?cnt_cons; unfold none_in_flight; lia.
Qed.

Lemma once_step : forall s, shape s -> once s -> once (step s).
Proof.
  intros s S O. destruct (step_cases s) as [C P|i rest C P|c C P|c i rest C P|C|C].
  - unfold once, onceD in *. cbn. rewrite C in O. eapply once_sched; eauto.
  - destruct (shape_cur_main s S C) as (A&_).
    assert (O1 : once (exec (set_mainp s rest) 0 i)) by (apply once_exec; [exact O|left; auto]).
    unfold idle_if_main. destruct (cur (exec (set_mainp s rest) 0 i)); exact O1.
  - apply once_finish; assumption.
  - destruct (shape_cur_code s c S C) as (A&_). apply once_exec; [|right; auto].
    unfold once, onceD in *. cbn. rewrite C in *.
    change (mkCoro (stat (cs s c)) rest (bound (cs s c)) (result (cs s c))) with (reScript (cs s c) rest).
    apply once_set_script_held; auto. rewrite hc_run, Nat.eqb_refl. lia.
  - apply once_step_ret; assumption.
  - exact O.
Qed.

Definition shape_once (s : st) : Prop := shape s /\ once s.

Lemma shape_once_step : forall s, shape_once s -> shape_once (step s).
Proof. intros s (S&O). split; [apply shape_step; auto|apply once_step; auto]. Qed.

Theorem once_reach : forall p m n, once (steps n (init p m)).
Proof.
  intros. assert (G : shape_once (steps n (init p m))).
  { apply (inv_steps shape_once shape_once_step). split; [apply shape_init|apply once_init]. }
  apply G.
Qed.

Definition held (s : st) : list nat := curlf (cur s) ++ nests (stack s) ++ insts (stack s) ++ queue s.

(* the invariant read as lists: what each_once says, of any state in which `once` holds *)
Lemma once_places : forall s, once s ->
  NoDup (held s) /\
  (forall f, NoDup (chain_of (fs s f))) /\
  (forall f c, In c (chain_of (fs s f)) ->
      ~ In c (held s) /\ (forall g, In c (chain_of (fs s g)) -> g = f) /\
      (forall x, stat (cs s x) = Started -> bound (cs s x) <> BParent c)) /\
  (forall x p', stat (cs s x) = Started -> bound (cs s x) = BParent p' ->
      ~ In p' (held s) /\ forall y, stat (cs s y) = Started -> bound (cs s y) = BParent p' -> y = x) /\
  (forall c, In c (held s) \/ (exists f, In c (chain_of (fs s f))) \/ (exists x, stat (cs s x) = Started /\ bound (cs s x) = BParent c) ->
      stat (cs s c) = Started) /\
  (forall c, stat (cs s c) = Started ->
      In c (held s) \/ (exists f, In c (chain_of (fs s f))) \/ (exists x, stat (cs s x) = Started /\ bound (cs s x) = BParent c)).
Proof.
  intros s O. unfold once, onceD in O.
  assert (HC : forall c, cnt c (held s) = hc (cur s) (stack s) (queue s) c).
  { intros. unfold held, hc. rewrite !cnt_app. lia. }
  split; [|split; [|split; [|split; [|split]]]].
  - apply cnt_le1_nodup. intros c. rewrite HC. pose proof (o1 _ _ _ _ _ _ O c). pose proof (st1f_le (cs s) c). unfold none_in_flight in *. lia.
  - intros f. apply cnt_le1_nodup. intros c.
    destruct (in_dec Nat.eq_dec c (chain_of (fs s f))) as [I|I]; [|rewrite (cnt_notin _ _ I); lia].
    destruct (chain_member _ _ _ _ _ _ O f c I) as (_&_&_&E&_). lia.
  - intros f c H. destruct (chain_member _ _ _ _ _ _ O f c H) as (_&Z&_&_&r1&S1). split; [|split].
    + intros I'. apply cnt_in in I'. rewrite HC in I'. lia.
    + intros g I'. destruct (chain_member _ _ _ _ _ _ O g c I') as (_&_&_&_&r2&S2). congruence.
    + intros x S B. destruct (parent_waits _ _ _ _ _ _ O x c S B) as (_&_&_&r2&S2). congruence.
  - intros x p' H H0. destruct (parent_waits _ _ _ _ _ _ O x p' H H0) as (_&Z&_&r1&S1). split.
    + intros I'. apply cnt_in in I'. rewrite HC in I'. lia.
    + intros y S B. destruct (parent_waits _ _ _ _ _ _ O y p' S B) as (_&_&_&r2&S2). congruence.
  - intros c [I|[(f&I)|(x&S&B)]].
    + apply cnt_in in I. rewrite HC in I. destruct (held_started _ _ _ _ _ _ O c I) as (S&_). exact S.
    + destruct (chain_member _ _ _ _ _ _ O f c I) as (S&_). exact S.
    + destruct (parent_waits _ _ _ _ _ _ O x c S B) as (S'&_). exact S'.
  - intros c S. pose proof (o1 _ _ _ _ _ _ O c) as E. unfold st1f in E. rewrite S in E. unfold none_in_flight in E.
    destruct (Nat.eq_dec (hc (cur s) (stack s) (queue s) c) 0) as [Z|Z].
    + right. unfold Wf in E. destruct (script (cs s c)) as [|i t]; [lia|]. destruct i; try lia.
      * left. exists f. apply cnt_in. lia.
      * right. exists c0. unfold pw in E. destruct (stat (cs s c0)) eqn:S0; try lia. destruct (bound (cs s c0)) as [| |p0] eqn:B0; try lia.
        destruct (Nat.eqb p0 c) eqn:PC; try lia. apply Nat.eqb_eq in PC. subst. auto.
    + left. apply cnt_in. rewrite HC. lia.
Qed.

(* C05 each_once: in every reachable state
   - the scheduler-side handles (running coroutine, callers inside start(), handles waiting inside install_queue_and_call,
     ready queue) are pairwise distinct, and each awaiter chain is duplicate free;
   - a coroutine in a chain is in none of the scheduler-side places, in no other chain, and is not a waiting parent;
   - a coroutine co_awaiting a child is in none of those places;
   - only Started coroutines are anywhere: not-yet-started and finished ones have no handle at all. *)
Theorem each_once : forall p m n,
  let s := steps n (init p m) in
  NoDup (held s) /\
  (forall f, NoDup (chain_of (fs s f))) /\
  (forall f c, In c (chain_of (fs s f)) ->
      ~ In c (held s) /\ (forall g, In c (chain_of (fs s g)) -> g = f) /\
      (forall x, stat (cs s x) = Started -> bound (cs s x) <> BParent c)) /\
  (forall x p', stat (cs s x) = Started -> bound (cs s x) = BParent p' ->
      ~ In p' (held s) /\ forall y, stat (cs s y) = Started -> bound (cs s y) = BParent p' -> y = x) /\
  (forall c, In c (held s) \/ (exists f, In c (chain_of (fs s f))) \/ (exists x, stat (cs s x) = Started /\ bound (cs s x) = BParent c) ->
      stat (cs s c) = Started) /\
  (forall c, stat (cs s c) = Started ->
      In c (held s) \/ (exists f, In c (chain_of (fs s f))) \/ (exists x, stat (cs s x) = Started /\ bound (cs s x) = BParent c)).
Proof. intros p m n s. apply once_places, once_reach. Qed.
