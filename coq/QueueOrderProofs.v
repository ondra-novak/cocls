(* QueueOrderProofs.v — per-producer order at every consumer, for every schedule of the interleaving model of
   QueueDefs.v (any number of producer / consumer / unblock_pop / unblock_push / size threads and a destroyer, queue<T> or
   limited_queue<T>).
   The argument: (1) the items matched to pops, in critical-section order (t_alog), followed by the queued and the blocked
   ones are, producer by producer, in push order (QueueConcProofs.tcons, field tc_sorted); (2) a consumer has at most one
   pop outstanding (tord), so what it has received is a prefix of the sub-sequence of t_alog assigned to it. *)
From Cocls Require Import Base BaseProofs QueueDefs QueueConcProofs.
Require Import ZifyBool Sorted.
Local Open Scope nat_scope.

Definition is_c (c : nat) (x : nat * titem) : bool := Nat.eqb (fst x) c.
Definition cons_of (l : list (nat * (nat * outcome))) : list nat := map (fun x => fst (snd x)) l.
(* pops of consumer c parked or taken but not resolved; its resolved pops *)
Definition outst (c : nat) (s : tstate) : nat := count_n c (t_waiters s) + count_n c (cons_of (t_infl s)).
Definition nres (c : nat) (s : tstate) : nat := count_n c (map fst (t_rlog s)).

Lemma count_n_nil x : count_n x [] = 0. Proof. reflexivity. Qed.
Lemma count_n_cons x y l : count_n x (y :: l) = (if Nat.eqb x y then 1 else 0) + count_n x l.
Proof. unfold count_n. cbn [filter]. destruct (Nat.eqb x y); reflexivity. Qed.
Lemma count_n_app x a b : count_n x (a ++ b) = count_n x a + count_n x b.
Proof. unfold count_n. rewrite filter_app, app_length. reflexivity. Qed.
Arguments count_n : simpl never.

Lemma outst_infl c s : count_n c (cons_of (t_infl s)) <= outst c s.
Proof. unfold outst. lia. Qed.

Record tord (s : tstate) : Prop := mkTord {
  to_seq : forall c, filter (is_c c) (t_alog s) = filter (is_c c) (ritems (t_rlog s)) ++ filter (is_c c) (iitems (t_infl s));
  to_k1 : forall c, outst c s <= 1;
  to_k2 : forall c, 1 <= outst c s -> exists n issued pc, nth_error (t_thr s) c = Some (TCons n issued pc) /\ pc <> CIdle;
  to_k3 : forall c n issued pc, nth_error (t_thr s) c = Some (TCons n issued pc) -> nres c s + outst c s = issued
}.

(* generic shape of a step: thread i's entry is replaced, the counts move as described *)
Lemma tord_generic s s' i t t' :
  tord s -> nth_error (t_thr s) i = Some t -> t_thr s' = set_nth (t_thr s) i t' ->
  (forall c, filter (is_c c) (t_alog s') = filter (is_c c) (ritems (t_rlog s')) ++ filter (is_c c) (iitems (t_infl s'))) ->
  (forall c, outst c s' <= 1) ->
  (forall c, c <> i -> nres c s' + outst c s' = nres c s + outst c s /\ outst c s' <= outst c s) ->
  (1 <= outst i s' -> exists n issued pc, t' = TCons n issued pc /\ pc <> CIdle) ->
  (forall n issued pc, t' = TCons n issued pc -> nres i s' + outst i s' = issued) ->
  tord s'.
Proof.
  intros [J K1 K2 K3] T E J' K1' OTH KI2 KI3. split; [exact J'|exact K1'| |].
  - intros c H. destruct (Nat.eq_dec c i) as [->|NE].
    + destruct (KI2 H) as (n & issued & pc & -> & NP). exists n, issued, pc. split; [|exact NP]. rewrite E. apply (nth_error_set_same _ _ _ _ T).
    + destruct (OTH c NE) as [_ LE]. destruct (K2 c ltac:(lia)) as (n & issued & pc & X & NP). exists n, issued, pc. split; [|exact NP].
      rewrite E. rewrite nth_error_set_nth_other by congruence. exact X.
  - intros c n issued pc H. rewrite E in H. destruct (Nat.eq_dec c i) as [->|NE].
    + rewrite (nth_error_set_same _ _ _ _ T) in H. injection H as H. apply (KI3 n issued pc). exact H.
    + rewrite nth_error_set_nth_other in H by congruence. destruct (OTH c NE) as [EQ _]. rewrite EQ. apply (K3 c n issued pc H).
Qed.

Lemma cons_of_cons k c o t : cons_of ((k, (c, o)) :: t) = c :: cons_of t.
Proof. reflexivity. Qed.

(* removing thread i's in-flight entry (c, o) *)
Lemma cons_of_remove i l c o x : afind i l = Some (c, o) ->
  count_n x (cons_of l) = (if Nat.eqb x c then 1 else 0) + count_n x (cons_of (aremove i l)).
Proof.
  induction l as [|[k [c' o']] t IH]; cbn [afind aremove]; [discriminate|].
  destruct (Nat.eqb i k) eqn:E.
  - intros H. injection H as -> ->. rewrite cons_of_cons, count_n_cons. reflexivity.
  - intros H. specialize (IH H). rewrite !cons_of_cons, !count_n_cons. rewrite IH. lia.
Qed.

Lemma filter_o_items_same c o : filter (is_c c) (o_items c o) = o_items c o.
Proof. destruct o; cbn [o_items filter]; try reflexivity. unfold is_c. cbn [fst]. rewrite Nat.eqb_refl. reflexivity. Qed.
Lemma filter_o_items_other c c' o : c' <> c -> filter (is_c c) (o_items c' o) = [].
Proof. intros H. destruct o; cbn [o_items filter]; try reflexivity. unfold is_c. cbn [fst]. apply Nat.eqb_neq in H. rewrite H. reflexivity. Qed.

Lemma iitems_remove_seq i l c o x : afind i l = Some (c, o) -> count_n c (cons_of l) <= 1 ->
  filter (is_c x) (iitems l) = filter (is_c x) (o_items c o) ++ filter (is_c x) (iitems (aremove i l)).
Proof.
  induction l as [|[k [c' o']] t IH]; cbn [afind aremove]; [discriminate|].
  destruct (Nat.eqb i k) eqn:E.
  - intros H _. injection H as -> ->. cbn [iitems flat_map fst snd]. rewrite filter_app. reflexivity.
  - intros H LE. rewrite cons_of_cons, count_n_cons in LE.
    pose proof (cons_of_remove i t c o c H) as CR. rewrite Nat.eqb_refl in CR.
    assert (Nat.eqb c c' = false) as NE by (destruct (Nat.eqb c c'); [lia|reflexivity]).
    assert (count_n c (cons_of t) <= 1) as LE' by lia.
    specialize (IH H LE'). cbn [iitems flat_map fst snd]. fold (iitems t). fold (iitems (aremove i t)).
    rewrite !filter_app. rewrite IH.
    destruct (Nat.eq_dec x c) as [->|NX].
    + rewrite (filter_o_items_other c c' o') by (apply Nat.eqb_neq in NE; congruence). reflexivity.
    + rewrite (filter_o_items_other x c o) by congruence. reflexivity.
Qed.

Lemma iitems_none c l : count_n c (cons_of l) = 0 -> filter (is_c c) (iitems l) = [].
Proof.
  induction l as [|[k [c' o']] t IH]; [reflexivity|]. rewrite cons_of_cons, count_n_cons.
  destruct (Nat.eqb c c') eqn:E; [lia|]. intros H. cbn [iitems flat_map fst snd]. rewrite filter_app.
  fold (iitems t). rewrite (IH H). rewrite filter_o_items_other; [reflexivity|]. apply Nat.eqb_neq in E. congruence.
Qed.

Lemma ritems_snoc l c o : ritems (l ++ [(c, o)]) = ritems l ++ o_items c o.
Proof. rewrite ritems_app. cbn [ritems flat_map fst snd]. rewrite app_nil_r. reflexivity. Qed.
Lemma iitems_snoc l i c o : iitems (l ++ [(i, (c, o))]) = iitems l ++ o_items c o.
Proof. rewrite iitems_app. cbn [iitems flat_map fst snd]. rewrite app_nil_r. reflexivity. Qed.
Lemma cons_of_snoc l i c o : cons_of (l ++ [(i, (c, o))]) = cons_of l ++ [c].
Proof. unfold cons_of. rewrite map_app. reflexivity. Qed.

(* the destructed `t_waiters s` is substituted everywhere first; the guard keeps the equation itself from being rewritten *)
Ltac norm_counts := unfold outst, nres in *; tf;
  repeat match goal with H : t_waiters ?s = _ |- context [t_waiters ?s] => rewrite H end;
  repeat match goal with H : t_waiters ?s = _, H2 : context [t_waiters ?s] |- _ => lazymatch H2 with H => fail | _ => rewrite H in H2 end end;
  rewrite ?cons_of_snoc, ?map_app in *; cbn [map fst snd] in *; rewrite ?count_n_app, ?count_n_cons, ?count_n_nil in *.

Lemma not_cons_outst s i t : tord s -> nth_error (t_thr s) i = Some t ->
  (forall n issued pc, t = TCons n issued pc -> pc = CIdle) -> outst i s = 0.
Proof.
  intros [_ K1 K2 _] T H. destruct (outst i s) eqn:E; [reflexivity|]. exfalso.
  destruct (K2 i ltac:(lia)) as (n' & issued & pc & X & NP). rewrite T in X. injection X as X. exact (NP (H _ _ _ X)).
Qed.

(* steps that touch neither the waiters, the in-flight pop promises nor the resolution log *)
Lemma tord_quiet s s' i t t' : tord s -> nth_error (t_thr s) i = Some t -> t_thr s' = set_nth (t_thr s) i t' ->
  t_waiters s' = t_waiters s -> t_infl s' = t_infl s -> t_rlog s' = t_rlog s -> t_alog s' = t_alog s ->
  (forall n issued pc, t' = TCons n issued pc -> exists pc0, t = TCons n issued pc0) ->
  (outst i s = 0 \/ exists n issued pc, t' = TCons n issued pc /\ pc <> CIdle) ->
  tord s'.
Proof.
  intros O T E EW EI ER EA HC HI. pose proof O as [J K1 K2 K3].
  assert (forall c, outst c s' = outst c s) as EO by (intros c; unfold outst; rewrite EW, EI; reflexivity).
  assert (forall c, nres c s' = nres c s) as EN by (intros c; unfold nres; rewrite ER; reflexivity).
  apply (tord_generic s s' i t t' O T E).
  - intros c. rewrite EA, ER, EI. apply J.
  - intros c. rewrite EO. apply K1.
  - intros c NE. rewrite EO, EN. split; lia.
  - rewrite EO. intros H. destruct HI as [Z|X]; [lia|exact X].
  - intros n issued pc Ht. rewrite EO, EN. destruct (HC _ _ _ Ht) as (pc0 & ->). apply (K3 i n issued pc0 T).
Qed.

Lemma count_cancel c (w : list nat) : count_n c (map fst (map (fun c => (c, OCancel)) w)) = count_n c w.
Proof. rewrite map_map. cbn [fst]. rewrite map_id. reflexivity. Qed.

(* the resolution of the pop promise taken by thread i, if any *)
Lemma tord_resolve_pop s i t t' : tord s -> nth_error (t_thr s) i = Some t -> (forall n issued pc, t <> TCons n issued pc) ->
  (forall n issued pc, t' <> TCons n issued pc) ->
  tord (with_thr (resolve_pop s i) (set_nth (t_thr (resolve_pop s i)) i t')).
Proof.
  intros O T NC NC'. pose proof O as [J K1 K2 K3].
  assert (outst i s = 0) as OI by (apply (not_cons_outst s i _ O T); intros n0 is0 pc0 X; exfalso; exact (NC _ _ _ X)).
  unfold resolve_pop, with_thr. destruct (afind i (t_infl s)) as [[c o]|] eqn:AF; tf.
  - pose proof (fun x => cons_of_remove i (t_infl s) c o x AF) as CR.
    eapply (tord_generic s _ i _ _ O T); [reflexivity|..]; tf.
    + intros c0. rewrite ritems_snoc, filter_app. rewrite J.
      rewrite (iitems_remove_seq i _ c o c0 AF) by exact (Nat.le_trans _ _ _ (outst_infl c s) (K1 c)).
      rewrite <- app_assoc. reflexivity.
    + intros c0. specialize (K1 c0). specialize (CR c0). norm_counts. lia.
    + intros c0 NE. specialize (CR c0). norm_counts. destruct (Nat.eqb c0 c); lia.
    + intros H; exfalso; specialize (CR i); norm_counts; lia.
    + intros n issued pc H. exfalso. exact (NC' _ _ _ H).
  - eapply (tord_quiet s _ i t t' O T); try reflexivity.
    + intros n issued pc H. exfalso. exact (NC' _ _ _ H).
    + left. exact OI.
Qed.

(* a pop served at once: one more result for consumer i, matched in the same step *)
Lemma tord_served s s' i n issued it : tord s -> nth_error (t_thr s) i = Some (TCons n issued CIdle) ->
  t_thr s' = set_nth (t_thr s) i (TCons n (S issued) CRes) -> t_waiters s' = t_waiters s -> t_infl s' = t_infl s ->
  t_rlog s' = t_rlog s ++ [(i, OItem it)] -> t_alog s' = t_alog s ++ [(i, it)] -> tord s'.
Proof.
  intros O T E EW EI ER EA. pose proof O as [J K1 K2 K3].
  assert (outst i s = 0) as OI by (apply (not_cons_outst s i _ O T); intros ? ? ? X; congruence).
  assert (forall c, outst c s' = outst c s) as EO by (intros c; unfold outst; rewrite EW, EI; reflexivity).
  assert (forall c, nres c s' = nres c s + if Nat.eqb c i then 1 else 0) as EN.
  { intros c. unfold nres. rewrite ER, map_app, count_n_app. cbn [map fst]. rewrite count_n_cons, count_n_nil. lia. }
  apply (tord_generic s s' i _ _ O T E).
  - intros c0. rewrite EA, ER, EI, ritems_snoc. cbn [o_items]. rewrite !filter_snoc, J.
    change (is_c c0 (i, it)) with (Nat.eqb i c0). destruct (Nat.eqb i c0) eqn:EQ; [|rewrite !app_nil_r; reflexivity].
    apply Nat.eqb_eq in EQ. subst c0. rewrite (iitems_none i) by (apply Nat.le_0_r; rewrite <- OI; apply outst_infl).
    rewrite !app_nil_r. reflexivity.
  - intros c. rewrite EO. apply K1.
  - intros c NE. rewrite EO, EN. assert (Nat.eqb c i = false) as -> by (apply Nat.eqb_neq; exact NE). split; lia.
  - rewrite EO, OI. intros H. inversion H.
  - intros n' issued' pc H. injection H as <- <- <-. rewrite EO, EN, Nat.eqb_refl. pose proof (K3 i n issued CIdle T). lia.
Qed.

Lemma tord_step s i : tord s -> t_enabled s i = true -> tord (fst (tstep s i)).
Proof.
  intros O EN. pose proof O as [J K1 K2 K3]. unfold tstep. unfold t_enabled, t_enabled0 in EN.
  thread_cases s i T;
    [..|exact O].
  - (* producer, critical section *)
    assert (outst i s = 0) as OI by (apply (not_cons_outst s i _ O T); discriminate).
    destruct (t_waiters s) as [|c w] eqn:W; [destruct (full s)|]; cbn [fst].
    + eapply (tord_quiet s _ i _ _ O T); try reflexivity; tf; [symmetry; exact W|discriminate|left; exact OI].
    + eapply (tord_quiet s _ i _ _ O T); try reflexivity; tf; [symmetry; exact W|discriminate|left; exact OI].
    + (eapply (tord_generic s _ i _ _ O T); [reflexivity|..]); tf; try discriminate.
      * intros c0. rewrite iitems_snoc. cbn [o_items]. rewrite !filter_snoc. rewrite J. rewrite app_assoc. reflexivity.
      * intros c0; specialize (K1 c0); norm_counts; lia.
      * intros c0 NE; norm_counts; lia.
      * intros H; exfalso; norm_counts; lia.
  - (* producer, after the unlock *)
    cbn [fst]. destruct rb; apply (tord_resolve_pop s i _ _ O T); discriminate.
  - (* producer, wake *)
    assert (outst i s = 0) as OI by (apply (not_cons_outst s i _ O T); discriminate).
    cbn [fst]. eapply (tord_quiet s _ i _ _ O T); try reflexivity; [discriminate|left; exact OI].
  - (* consumer, critical section *)
    assert (outst i s = 0) as OI by (apply (not_cons_outst s i _ O T); intros ? ? ? X; congruence).
    pose proof (K3 i n issued CIdle T) as K3i.
    destruct (t_items s) as [|it t] eqn:I; cbn [fst].
    + (* parks: one more pop outstanding for i *)
      (eapply (tord_generic s _ i _ _ O T); [reflexivity|..]); tf.
      * exact J.
      * intros c0. destruct (Nat.eq_dec c0 i) as [->|NE]; [norm_counts; rewrite ?Nat.eqb_refl; lia|].
        specialize (K1 c0); norm_counts; assert (Nat.eqb c0 i = false) as -> by (apply Nat.eqb_neq; exact NE); lia.
      * intros c0 NE. norm_counts. assert (Nat.eqb c0 i = false) as -> by (apply Nat.eqb_neq; exact NE). lia.
      * intros _. do 3 eexists. split; [reflexivity|discriminate].
      * intros ? ? ? H. injection H as <- <- <-. norm_counts. rewrite Nat.eqb_refl. lia.
    + (* served at once *)
      destruct (t_blocked s) as [|[y p] b]; cbn [fst]; eapply (tord_served s _ i n issued it O T); reflexivity.
  - (* consumer, after the unlock: only cinfl / pdone move *)
    cbn [fst]. unfold resolve_push, with_thr. destruct (afind i (t_cinfl s)) as [[p code]|]; tf;
      (eapply (tord_quiet s _ i _ _ O T); try reflexivity; [intros ? ? ? X; injection X as <- <- <-; eexists; reflexivity|]);
      right; do 3 eexists; (split; [reflexivity|discriminate]).
  - (* consumer, wake: enabled means its pop future is resolved, so nothing is outstanding *)
    pose proof (K3 i n issued CWait T) as K3i. apply Nat.eqb_eq in EN. fold (nres i s) in EN.
    cbn [fst]. eapply (tord_quiet s _ i _ _ O T); try reflexivity; [intros ? ? ? X; injection X as <- <- <-; eexists; reflexivity|].
    left. lia.
  - (* unblock_pop, critical section *)
    assert (outst i s = 0) as OI by (apply (not_cons_outst s i _ O T); discriminate).
    destruct (t_waiters s) as [|c w] eqn:W; cbn [fst].
    + eapply (tord_quiet s _ i _ _ O T); try reflexivity; tf; [symmetry; exact W|discriminate|left; exact OI].
    + (eapply (tord_generic s _ i _ _ O T); [reflexivity|..]); tf; try discriminate.
      * intros c0. rewrite iitems_snoc. cbn [o_items]. rewrite app_nil_r. apply J.
      * intros c0; specialize (K1 c0); norm_counts; lia.
      * intros c0 NE; norm_counts; lia.
      * intros H; exfalso; norm_counts; lia.
  - (* unblock_pop, after the unlock *)
    cbn [fst]. apply (tord_resolve_pop s i _ _ O T); discriminate.
  - (* unblock_push, critical section *)
    assert (outst i s = 0) as OI by (apply (not_cons_outst s i _ O T); discriminate).
    destruct (t_blocked s) as [|[y p] b] eqn:B; cbn [fst];
      (eapply (tord_quiet s _ i _ _ O T); try reflexivity; [discriminate|left; exact OI]).
  - (* unblock_push, after the unlock *)
    assert (outst i s = 0) as OI by (apply (not_cons_outst s i _ O T); discriminate).
    cbn [fst]. unfold resolve_push, with_thr. destruct (afind i (t_cinfl s)) as [[p code]|]; tf;
      (eapply (tord_quiet s _ i _ _ O T); try reflexivity; [discriminate|left; exact OI]).
  - (* size *)
    assert (outst i s = 0) as OI by (apply (not_cons_outst s i _ O T); discriminate).
    cbn [fst]. eapply (tord_quiet s _ i _ _ O T); try reflexivity; [discriminate|left; exact OI].
  - assert (outst i s = 0) as OI by (apply (not_cons_outst s i _ O T); discriminate).
    cbn [fst]. eapply (tord_quiet s _ i _ _ O T); try reflexivity; [discriminate|left; exact OI].
  - (* destroy: every waiting pop is canceled *)
    assert (outst i s = 0) as OI by (apply (not_cons_outst s i _ O T); discriminate).
    cbn [fst]. (eapply (tord_generic s _ i _ _ O T); [reflexivity|..]); tf; try discriminate.
    + intros c0. rewrite ritems_app, ritems_cancel, app_nil_r. apply J.
    + intros c0. specialize (K1 c0). norm_counts. lia.
    + intros c0 NE. unfold nres, outst. tf. rewrite map_app, count_n_app, count_cancel. norm_counts. lia.
    + intros H. exfalso. norm_counts. lia.
Qed.

Lemma tord_init limit thrs : Forall t_fresh thrs -> tord (t_init limit thrs).
Proof.
  intros F. split; unfold outst, nres; cbn [t_init t_items t_waiters t_blocked t_limit t_infl t_cinfl t_rlog t_pdone t_alog t_plog t_thr];
    cbn [cons_of map ritems iitems flat_map filter app]; rewrite ?count_n_nil.
  - reflexivity.
  - intros c. rewrite !count_n_nil. lia.
  - intros c H. rewrite !count_n_nil in H. lia.
  - intros c n issued pc E. rewrite !count_n_nil. apply nth_error_In in E. rewrite Forall_forall in F. destruct (F _ E) as [-> _]. reflexivity.
Qed.

Lemma tord_reachable limit thrs s : Forall t_fresh thrs -> t_reachable limit thrs s -> tord s.
Proof. intros F. apply t_reachable_inv; [apply tord_init; exact F|intros; apply tord_step; assumption]. Qed.

Lemma SS_seq a n : StronglySorted lt (seq a n).
Proof.
  revert a; induction n as [|n IH]; intros a; cbn [seq]; constructor; [apply IH|].
  apply Forall_forall. intros x H. apply in_seq in H. lia.
Qed.
Lemma SS_map_filter {A} (F : A -> nat) (h : A -> bool) l :
  StronglySorted lt (map F l) -> StronglySorted lt (map F (filter h l)).
Proof.
  induction l as [|x l IH]; intros H; [constructor|]. cbn [map] in H. inversion H as [|? ? S Fa]; subst.
  cbn [filter]. destruct (h x); [|apply IH; exact S]. cbn [map]. constructor; [apply IH; exact S|].
  rewrite Forall_forall in *. intros y Hy. apply Fa. apply in_map_iff in Hy as (z & <- & Hz). apply filter_In in Hz as [Hz _].
  apply in_map. exact Hz.
Qed.
Lemma filter_map_snd {A B} (g : B -> bool) (l : list (A * B)) :
  filter g (map snd l) = map snd (filter (fun x => g (snd x)) l).
Proof. induction l as [|x l IH]; [reflexivity|]. cbn [map filter]. destruct (g (snd x)); cbn [map]; rewrite IH; reflexivity. Qed.
Lemma filter_comm {A} (f g : A -> bool) l : filter f (filter g l) = filter g (filter f l).
Proof.
  induction l as [|x l IH]; [reflexivity|]. cbn [filter].
  destruct (g x) eqn:G; destruct (f x) eqn:Fx; cbn [filter]; rewrite ?G, ?Fx, IH; reflexivity.
Qed.

Lemma p_items_keys p vals k : map it_k (p_items p vals k) = seq 0 k.
Proof. unfold p_items. rewrite map_map. cbn [it_k]. apply map_id. Qed.

(* the items consumer c has received so far, in the order it received them *)
Definition got (c : nat) (s : tstate) : list titem := map snd (filter (is_c c) (ritems (t_rlog s))).

(* per-producer order at every consumer, for every schedule: among the items consumer c has received, those pushed by
   producer p carry strictly increasing push indices, i.e. they arrive in p's push order *)
Theorem tq_per_producer_order limit thrs s c p :
  limit_ok limit -> Forall t_fresh thrs -> t_reachable limit thrs s ->
  StronglySorted lt (map it_k (filter (of_p p) (got c s))).
Proof.
  intros L F R. destruct (tcons_reachable _ _ _ L F R) as [_ _ _ _ _ _ Srt]. destruct (tord_reachable _ _ _ F R) as [J _ _ _].
  destruct (Srt p) as [S1 _]. unfold keys, t_chain in S1.
  rewrite filter_app, map_app in S1. apply SS_app_l in S1.
  rewrite filter_map_snd, map_map in S1.
  apply (SS_map_filter _ (is_c c)) in S1. rewrite filter_comm in S1. rewrite (J c) in S1.
  rewrite filter_app, map_app in S1. apply SS_app_l in S1.
  unfold got. rewrite filter_map_snd, map_map. exact S1.
Qed.

(* items are matched to pops in critical-section order; matched ++ queued ++ held-by-blocked is, producer by producer, in
   push order (nothing overtakes); what a consumer has received plus what is in flight for it is exactly its share of the
   matching, in order *)
Theorem tq_assignment_in_push_order limit thrs s :
  limit_ok limit -> Forall t_fresh thrs -> t_reachable limit thrs s ->
  (forall p, StronglySorted lt (map it_k (filter (of_p p) (map snd (t_alog s) ++ t_items s ++ map fst (t_blocked s))))) /\
  forall c, map snd (filter (is_c c) (t_alog s)) = got c s ++ map snd (filter (is_c c) (iitems (t_infl s))).
Proof.
  intros L F R. destruct (tcons_reachable _ _ _ L F R) as [_ _ _ _ _ _ Srt]. destruct (tord_reachable _ _ _ F R) as [J _ _ _].
  split; [intros p; exact (proj1 (Srt p))|]. intros c. rewrite (J c), map_app. reflexivity.
Qed.
