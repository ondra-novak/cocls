(* AdaptersInv.v — the invariant of the callback-adapter model: it holds in the initial state of every valid
   configuration (adapter, outcome, timing, storage, converter, competing resolver) and every step of every thread keeps
   it.  The idea: each instruction is a token; executing it consumes it, changes the cell it belongs to and pushes its
   successors, so the shared fields and the numbers of instructions still to be executed are tied by linear equations. *)
From Cocls Require Import Base BaseProofs AdaptersDefs.
Require Import ZifyBool.
Local Open Scope nat_scope.

Inductive reachable (c : cfg) : st -> Prop :=
| r_init : reachable c (init c)
| r_step s i : reachable c s -> enabled s i = true -> reachable c (fst (tstep c s i)).

Definition terminal (s : st) : Prop := all_enabled s = [].

Fixpoint cnt (p : instr -> bool) (l : list instr) : nat :=
  match l with [] => 0 | x :: t => (if p x then 1 else 0) + cnt p t end.

Lemma cnt_app p a b : cnt p (a ++ b) = cnt p a + cnt p b.
Proof. induction a as [|x a IH]; cbn [cnt app]; [reflexivity|rewrite IH; lia]. Qed.

Definition N (p : instr -> bool) (s : st) : nat := cnt p (th0 s) + cnt p (th1 s) + cnt p (th2 s).

Definition p_claim (i : instr) := match i with IClaim _ | IDtorP => true | _ => false end.
Definition p_dtor (i : instr) := match i with IDtorP => true | _ => false end.
Definition p_res (i : instr) := match i with IResolve => true | _ => false end.
Definition p_walk (i : instr) := match i with IWalk => true | _ => false end.
Definition p_dtk (i : instr) := match i with IReady | ISub _ | IWalk => true | _ => false end.
Definition p_park (i : instr) := match i with IPark _ => true | _ => false end.
Definition p_xw (i : instr) := match i with IXWait => true | _ => false end.
Definition p_rel (i : instr) := match i with IRel => true | _ => false end.
(* a claim whose return value is not recorded (inside the init function) *)
Definition p_c0 (i : instr) := match i with IClaim 1 | IClaim 2 => false | IClaim _ => true | _ => false end.
Definition p_c1 (i : instr) := match i with IClaim 1 => true | _ => false end.
Definition p_c2 (i : instr) := match i with IClaim 2 => true | _ => false end.
Definition p_claim2 (i : instr) := match i with IClaim2 | IDtorP2 => true | _ => false end.
Definition p_dtor2 (i : instr) := match i with IDtorP2 => true | _ => false end.
Definition p_res2 (i : instr) := match i with IResolve2 => true | _ => false end.
Definition p_walk2 (i : instr) := match i with IWalk2 => true | _ => false end.
Definition p_dtk2 (i : instr) := match i with ISub2 _ | IWalk2 => true | _ => false end.
Definition p_park2 (i : instr) := match i with IPark2 => true | _ => false end.
Definition p_xw2 (i : instr) := match i with IXWait2 => true | _ => false end.
Definition p_cvA (i : instr) := match i with ICvClaim => true | _ => false end.
Definition p_cvB (i : instr) := match i with ICvReady => true | _ => false end.
Definition p_cvC (i : instr) := match i with ICvSet _ => true | _ => false end.
Definition p_cvP (i : instr) := match i with ICvPark _ => true | _ => false end.
Definition p_cvD (i : instr) := match i with ICvDtor => true | _ => false end.
Definition p_ow (i : instr) := match i with IOWait => true | _ => false end.
Definition p_oc (i : instr) := match i with IOClaim => true | _ => false end.
Definition p_cvR (i : instr) := match i with ICvResolve => true | _ => false end.
Definition p_cvW (i : instr) := match i with ICvWalk => true | _ => false end.
Definition p_otk (i : instr) := match i with IOReady | IOSub _ | ICvWalk => true | _ => false end.

Definition outcome_eqb (a b : outcome) : bool :=
  match a, b with
  | ONone, ONone => true | OCanc, OCanc => true
  | OVal x, OVal y => Z.eqb x y | OExc x, OExc y => Z.eqb x y
  | _, _ => false
  end.
Lemma outcome_eqb_eq a b : outcome_eqb a b = true -> a = b.
Proof. destruct a, b; cbn; try discriminate; try reflexivity; intros H; apply Z.eqb_eq in H; congruence. Qed.
Lemma outcome_eqb_refl a : outcome_eqb a a = true.
Proof. destruct a; cbn; auto using Z.eqb_refl. Qed.

(* a converter-completion instruction whose thread-local values are not the ones the protocol guarantees
   (x = what the converter must hand to the outer promise) *)
Definition p_bad (x : outcome) (i : instr) : bool :=
  match i with
  | ICvSet r | ICvPark r => negb (outcome_eqb r x)
  | _ => false
  end.

Lemma cnt_bad_le x l : cnt (p_bad x) l <= cnt p_cvC l + cnt p_cvP l.
Proof.
  induction l as [|i l IH]; cbn [cnt]; [lia|].
  destruct i; cbn [p_bad p_cvC p_cvP]; try lia; destruct (negb (outcome_eqb r x)); lia.
Qed.

Definition rdy (sl : slotv) : nat := match sl with SReady => 1 | _ => 0 end.
Definition sub (sl : slotv) : nat := match sl with SSub => 1 | _ => 0 end.
Definition b2n (b : bool) : nat := if b then 1 else 0.
Definition on (o : option outcome) : nat := match o with None => 0 | Some _ => 1 end.
Definition rn (r : option bool) : nat := match r with None => 0 | Some _ => 1 end.
Definition has_k2 (c : cfg) : bool := match c_k2 c with Some _ => true | None => false end.
(* the converter forwards the promise to thread 2 *)
Definition rp (c : cfg) : bool := is_conv c && Nat.eqb (c_cb c) 4.
(* the handler re-arms the awaiter *)
Definition re (c : cfg) : nat := match c_re c with Some _ => 1 | None => 0 end.
Definition isv (o : outcome) : bool := match o with OVal _ => true | _ => false end.
Definition hb (c : cfg) : nat := b2n (has_helper (c_ad c)).
Definition cv (c : cfg) : nat := b2n (is_conv c).
Definition atomic_cb (c : cfg) : bool := has_cb (c_ad c).
(* the outcome of the claim that succeeded (ghost winner: 1 the primary promise holder, 2 the competitor) *)
Definition wout (c : cfg) (s : st) : outcome := out_of (kind_of c (match won s with 2 => 2 | _ => 1 end)).
(* what the converter adapter must deliver, given the source's outcome *)
Definition expected (c : cfg) (s : st) : outcome := conv_result c (payload s).

(* the events of a completion with a user callback that saw o, all in step t *)
Definition cb_log (c : cfg) (o : outcome) (t : nat) : list (nat * ev) :=
  map (fun e => (t, e))
      ([ECb o (hb c) 0; ECbRet (hb c) 0]
       ++ (if has_functor (c_ad c) then EFun (hb c) 0 :: (if has_sd (c_stor c) then [ESd] else []) else [])).

Definition conv_log (c : cfg) (o : outcome) (t : nat) : list (nat * ev) :=
  match o with OVal v => [(t, EConv v (conv_result c o))] | _ => [] end.

(* The invariant sees the threads only through how many instructions of a kind are still to be executed in them
   (n p; for a whole state, N p s), so one step lemma serves all three threads. *)
Definition counts := (instr -> bool) -> nat.

Set Implicit Arguments.
(* Each cell has a counting part, linear arithmetic over the counts and the 0/1 fields, and a part about what its
   payload is. *)
(* the source cell: the promise is claimed once, the future made ready once, the awaiter node completed once *)
Record InvS (c : cfg) (s : st) (n : counts) : Prop := {
  i_claim : b2n (owner s) <= n p_claim;
  i_res : rdy (slot s) + b2n (owner s) + n p_res = 1;
  i_dtk : nfire s + sub (slot s) + n p_dtk = 1;
  i_walk : n p_walk <= rdy (slot s);
  i_fired : nfire s <= rdy (slot s);
  i_alloc : allocs s = hb c;
  i_free : frees s + n p_rel = hb c * nfire s
}.
Record InvP (c : cfg) (s : st) (n : counts) : Prop := {
  i_pay : owner s = false -> payload s = wout c s;
  i_pay0 : owner s = true -> payload s = ONone;
  i_dtor : n p_dtor = 0 \/ out_of (c_k c) = ONone
}.

(* the race between the resolvers *)
Record InvR (c : cfg) (s : st) (n : counts) : Prop := {
  i_won0 : owner s = true -> ret1 s <> Some true /\ ret2 s <> Some true;
  i_won : owner s = false -> won s = 1 \/ won s = 2;
  i_ret1 : ret1 s = Some true -> won s = 1;
  i_ret2 : ret2 s = Some true <-> won s = 2;
  i_c1 : n p_c1 <= 1 /\ (n p_c1 >= 1 -> ret1 s = None);
  i_c2 : n p_c2 <= 1 /\ (n p_c2 >= 1 -> ret2 s = None);
  (* without a competitor nothing ever claims as thread 2; with one, the primary resolver is a recorded call *)
  i_c0 : n p_c0 + n p_dtor >= 1 -> c_k2 c = None;
  i_c2k : n p_c2 >= 1 -> c_k2 c <> None;
  i_r2k : ret2 s <> None -> c_k2 c <> None;
  i_w1 : won s = 1 -> ret1 s = Some true \/ c_k2 c = None;
  (* each recorded call is made exactly once; where the primary resolver is a recorded call nothing else ever claims
     for it, so once the promise is consumed either the competitor won or that call returned true *)
  i_t1 : n p_c1 + rn (ret1 s) = b2n (prim_calls c);
  i_t2 : n p_c2 + rn (ret2 s) = b2n (has_k2 c);
  i_pc : prim_calls c = true -> n p_c0 + n p_dtor = 0;
  i_pw : prim_calls c = true -> owner s = true \/ won s = 2 \/ ret1 s = Some true
}.

(* the converter adapter and its outer cell *)
Record InvC (c : cfg) (s : st) (n : counts) : Prop := {
  i_stage : n p_cvA + n p_cvB + n p_cvC + n p_cvP + n p_cvD <= cv c * nfire s;
  i_oprom : b2n (oprom s) + cv c * nfire s = cv c + n p_cvA;
  (* the outer promise is in exactly one place: parked in the adapter, in the resume function's local p, in the
     converter's holder, on its way through resolve, or consumed *)
  i_tok : b2n (oprom s) + b2n (pheld s) + on (oheld s) + n p_cvR + nores s = cv c;
  i_ph : b2n (pheld s) <= n p_cvB + n p_cvC + n p_cvP + n p_cvD;
  i_phB : n p_cvB + n p_cvC + n p_cvP <= b2n (pheld s);
  (* the late resolver (thread 2) exists only for a forwarding converter and stays until the promise is consumed *)
  i_owc : n p_ow + n p_oc <= b2n (rp c);
  i_p4 : n p_cvP <= b2n (rp c);
  i_rp : b2n (oprom s) + b2n (pheld s) + on (oheld s) + b2n (rp c) <= n p_ow + n p_oc + 1;
  i_oht : on (oheld s) <= n p_ow + n p_oc;
  i_occ : n p_oc <= on (oheld s);
  i_nores : nores s = rdy (oslot s);
  i_otk : ndeliv s + sub (oslot s) + n p_otk = cv c;
  i_cvw : n p_cvW <= nores s;
  i_ndeliv : ndeliv s <= nores s
}.
Record InvD (c : cfg) (s : st) (n : counts) : Prop := {
  i_bad : n (p_bad (expected c s)) = 0;
  i_oh : match oheld s with Some r => r = expected c s | None => True end;
  i_op0 : b2n (oprom s) + b2n (pheld s) + on (oheld s) >= 1 -> opayload s = ONone;
  i_dec : pheld s = true -> n p_cvD >= 1 -> expected c s = ONone;
  i_opay : n p_cvR + nores s >= 1 -> opayload s = expected c s;
  i_nconv : nconv s + (if isv (payload s) then n p_cvA + n p_cvB else 0) = (if isv (payload s) then cv c * nfire s else 0)
}.

(* the second operation of a re-arming handler: the same token discipline on its own cell; it comes into being
   when the first completion runs *)
Record InvJ (c : cfg) (s : st) (n : counts) : Prop := {
  j_claim : b2n (owner2 s) <= n p_claim2;
  j_res : rdy (slot2 s) + b2n (owner2 s) + n p_res2 = re c;
  j_dtk : nfire2 s + sub (slot2 s) + n p_dtk2 = re c * nfire s;
  j_walk : n p_walk2 <= rdy (slot2 s);
  j_fired : nfire2 s <= rdy (slot2 s);
  j_park : b2n (parked2 s) + n p_park2 = re c * nfire s;
  j_xwc : n p_xw2 <= re c
}.
Record InvK (c : cfg) (s : st) (n : counts) : Prop := {
  j_cfg : re c = 1 -> c_ad c = ACallFn;
  j_pay : owner2 s = false -> payload2 s = out_of (kind_re c);
  j_pay0 : owner2 s = true -> payload2 s = ONone;
  j_dtor : n p_dtor2 = 0 \/ out_of (kind_re c) = ONone
}.

Record InvN (c : cfg) (s : st) (n : counts) : Prop :=
  { inv_s : InvS c s n; inv_p : InvP c s n; inv_r : InvR c s n; inv_c : InvC c s n; inv_d : InvD c s n;
    inv_j : InvJ c s n; inv_k : InvK c s n }.

(* where the blocking instructions are: only at the head of the resolver threads' programs, and a resolver of the
   source promise waits only while that promise is not yet parked *)
Record InvW (s : st) : Prop := {
  i_park : b2n (parked s) + cnt p_park (th0 s) = 0 -> cnt p_xw (th1 s) + cnt p_xw (th2 s) = 0;
  i_xw : cnt p_xw (th0 s) = 0;
  i_ow0 : cnt p_ow (th0 s) = 0;
  i_ow1 : cnt p_ow (th1 s) = 0;
  i_ow2 : th2 s = [IOWait] \/ cnt p_ow (th2 s) = 0;
  j_xw0 : cnt p_xw2 (th0 s) = 0;
  j_xw1 : cnt p_xw2 (th1 s) = 0;
  j_xw2 : th2 s = [IXWait2; IClaim2] \/ th2 s = [IXWait2; IDtorP2] \/ cnt p_xw2 (th2 s) = 0
}.

Record Inv (c : cfg) (s : st) : Prop := { inv_n : InvN c s (fun p => N p s); inv_w : InvW s }.
Unset Implicit Arguments.

(* InvN reads the shared fields only (and not the clock); the threads enter through the counts *)
Definition shared (s : st) : st :=
  mkSt (owner s) (parked s) (slot s) (payload s) (oprom s) (oslot s) (opayload s) (pheld s) (oheld s) (allocs s) (frees s)
       [] [] [] 0 (ret1 s) (ret2 s) (won s) (nfire s) (nconv s) (ndeliv s) (nores s) (log s) (owner2 s) (parked2 s) (slot2 s) (payload2 s) (nfire2 s).

Lemma InvN_ext c s n n' : (forall p, n p = n' p) -> InvN c s n -> InvN c s n'.
Proof. intros X [[] [] [] [] [] [] []]; constructor; constructor; rewrite <- ?X; assumption. Qed.

Lemma InvN_shared c s s' n : shared s = shared s' -> InvN c s n -> InvN c s' n.
Proof.
  intros E H. assert (K : InvN c (shared s) n) by (destruct H as [[] [] [] [] [] [] []]; constructor; constructor; assumption).
  rewrite E in K. destruct K as [[] [] [] [] [] [] []]; constructor; constructor; assumption.
Qed.

Lemma shared_push s i l : shared (push s i l) = shared s.
Proof. destruct i as [|[|[|i]]]; reflexivity. Qed.

Lemma shared_pop s i l : shared (set_thr (tick s) i l) = shared s.
Proof. destruct i as [|[|[|i]]]; reflexivity. Qed.

Lemma N_push p s i l : i < 3 -> N p (push s i l) = cnt p l + N p s.
Proof. intros L. destruct i as [|[|[|i]]]; [| | |lia]; unfold N; cbn [push set_thr thr th0 th1 th2]; rewrite cnt_app; lia. Qed.

Lemma N_pop p s i ins rest : i < 3 -> thr s i = ins :: rest -> N p s = cnt p [ins] + N p (set_thr (tick s) i rest).
Proof.
  intros L H. destruct i as [|[|[|i]]]; [| | |lia]; cbn [thr] in H; unfold N; cbn [tick set_thr thr th0 th1 th2 cnt]; rewrite H; cbn [cnt]; lia.
Qed.

Lemma InvN_push c s i l : i < 3 -> InvN c s (fun p => cnt p l + N p s) -> InvN c (push s i l) (fun p => N p (push s i l)).
Proof.
  intros L H. apply (InvN_ext c _ (fun p => cnt p l + N p s)); [intros p; symmetry; apply N_push; exact L|].
  apply (InvN_shared c s); [symmetry; apply shared_push|exact H].
Qed.

Lemma InvN_pop c s i ins rest : i < 3 -> thr s i = ins :: rest -> InvN c s (fun p => N p s) ->
  let s0 := set_thr (tick s) i rest in InvN c s0 (fun p => cnt p [ins] + N p s0).
Proof.
  intros L H I s0. apply (InvN_ext c _ (fun p => N p s)); [intros p; apply N_pop; assumption|].
  apply (InvN_shared c s); [symmetry; apply shared_pop|exact I].
Qed.

(* enabled, as a function of the instruction at the head of the thread *)
Definition can_run (s : st) (ins : instr) : bool :=
  match ins with
  | IXWait => parked s
  | IXWait2 => parked2 s
  | IOWait => match oheld s with Some _ => true | None => match oslot s with SReady => true | _ => false end end
  | _ => true
  end.

Lemma enabled_can_run s i ins rest : thr s i = ins :: rest -> enabled s i = can_run s ins.
Proof. intros H. unfold enabled. rewrite H. destruct ins; reflexivity. Qed.

(* a case for every value of every flag of s and of the configuration that the goal tests *)
Ltac dflags s :=
  repeat match goal with
  | |- context[match owner s with _ => _ end] => let E := fresh "FO" in destruct (owner s) eqn:E
  | |- context[if owner s then _ else _] => let E := fresh "FO" in destruct (owner s) eqn:E
  | |- context[match slot s with _ => _ end] => let E := fresh "FS" in destruct (slot s) eqn:E
  | |- context[match oslot s with _ => _ end] => let E := fresh "FOS" in destruct (oslot s) eqn:E
  | |- context[if pheld s then _ else _] => let E := fresh "FPH" in destruct (pheld s) eqn:E
  | |- context[match oheld s with _ => _ end] => let E := fresh "FOH" in destruct (oheld s) eqn:E
  | |- context[match c_ad ?c with _ => _ end] => let E := fresh "AD" in destruct (c_ad c) eqn:E
  | |- context[if owner2 s then _ else _] => let E := fresh "FO2" in destruct (owner2 s) eqn:E
  | |- context[match slot2 s with _ => _ end] => let E := fresh "FS2" in destruct (slot2 s) eqn:E
  | |- context[match c_re ?c with _ => _ end] => let E := fresh "RE" in destruct (c_re c) eqn:E
  | |- context[match c_cb ?c with _ => _ end] => let E := fresh "CB" in destruct (c_cb c) as [|[|[|[|[|?]]]]] eqn:E
  | |- context[match payload s with _ => _ end] => let E := fresh "FP" in destruct (payload s) eqn:E
  | |- context[set_ret _ ?who _ _] => is_var who; destruct who as [|[|[|who]]]
  end.

(* Three reductions by name, so that a state is never unfolded (each setter copies all 28 fields): red1 computes a
   projection of a setter, redc the count of a concrete list and the 0/1 coding of the flags, redch the latter in the
   hypotheses. *)
Ltac red1 := cbn [fst snd thr set_thr push tick set_src set_src2 owner2 parked2 slot2 payload2 nfire2 set_out set_held set_cnt add_log set_ret pheld oheld owner parked slot payload oprom oslot opayload allocs frees th0 th1 th2 clk ret1 ret2 won nfire nconv ndeliv nores log].
Ltac redc := cbn [cnt p_claim p_dtor p_res p_walk p_dtk p_park p_xw p_rel p_c0 p_c1 p_c2 isv rn on p_claim2 p_dtor2 p_res2 p_walk2 p_dtk2 p_park2 p_xw2 p_cvA p_cvB p_cvC p_cvP p_cvD p_ow p_oc p_cvR p_cvW p_otk p_bad negb orb andb
                  b2n rdy sub Nat.add].
Ltac redch := cbn [cnt p_claim p_dtor p_res p_walk p_dtk p_park p_xw p_rel p_c0 p_c1 p_c2 isv rn on p_claim2 p_dtor2 p_res2 p_walk2 p_dtk2 p_park2 p_xw2 p_cvA p_cvB p_cvC p_cvP p_cvD p_ow p_oc p_cvR p_cvW p_otk p_bad negb orb andb
                  b2n rdy sub Nat.add] in *|-.

(* the threads of a state built from s by the setters are those of s *)
Ltac foldN s := repeat match goal with |- context[N ?p ?X] => tryif is_var X then fail else change (N p X) with (N p s) end.
(* linear arithmetic over the counting hypotheses: what is not arithmetic is cleared first, lia would case-split on it *)
Ltac arith :=
  repeat match goal with
         | H : _ -> _ |- _ => clear H | H : _ \/ _ |- _ => clear H | H : _ /\ _ |- _ => clear H | H : _ <-> _ |- _ => clear H
         | H : match _ with _ => _ end |- _ => clear H
         end; lia.
Lemma N_bad_le x s : N (p_bad x) s <= N p_cvC s + N p_cvP s.
Proof. unfold N. pose proof (cnt_bad_le x (th0 s)). pose proof (cnt_bad_le x (th1 s)). pose proof (cnt_bad_le x (th2 s)). lia. Qed.

(* What closes one field of one group after one instruction.  Counting fields: the old field itself, or arith.  Payload
   fields: an implication whose premise the counts refute or whose conclusion an old field gives, a payload computed by
   conv_result, one side of a disjunction. *)
Ltac close1 := first [assumption | reflexivity | discriminate | congruence | match goal with H : _ -> ?g |- ?g => apply H; arith end].
Ltac close :=
  try match goal with |- context[if isv ?o then _ else _] => destruct (isv o) end;
  try match goal with |- N (p_bad ?x) ?s = 0 => pose proof (N_bad_le x s) end;
  try match goal with |- match ?x with _ => _ end => destruct x; cbn [on] in * end;
  first [assumption | reflexivity | solve [arith] | solve [intros; cbn [conv_result kind_of]; try match goal with H : c_cb _ = _ |- _ => rewrite H end; first [reflexivity | congruence]]
        | solve [cbn [Nat.eqb] in *; rewrite ?andb_true_r, ?andb_false_r in *; arith] | solve [intros; close1] | solve [split; intros; close1]
        | solve [intros; left; close1] | solve [intros; right; close1] | solve [intros; right; right; close1]
        | solve [intros; repeat match goal with H : _ >= 1 -> _ |- _ => specialize (H ltac:(lia)) end; close1]
        | solve [intuition (try congruence; try discriminate; try lia)]].
(* a field of the new state, in terms of the old one *)
Ltac fields s :=
  unfold expected, wout, hb, cv, re, rp, is_conv; red1; foldN s; repeat match goal with Q : ?f ?x = _ |- _ => is_var x; rewrite Q end;
  redc; cbn [has_helper Nat.mul]; rewrite ?outcome_eqb_refl, ?Nat.mul_succ_r; redc.
(* a group none of whose fields the instruction touches: each field is, up to computation, the one before *)
Ltac same H := destruct H; constructor; assumption.

(* The step, on the state from which the instruction has been popped (so the counts before are cnt p [ins] + N p s):
   one case per instruction and per value of the flags it tests; in each, the groups the instruction does not touch are
   closed by `same`, and in the others every field follows from the old fields of the cells it reads. *)
Lemma invN_exec c s i ins : i < 3 -> can_run s ins = true -> InvN c s (fun p => cnt p [ins] + N p s) ->
  InvN c (fst (exec c s i ins)) (fun p => N p (fst (exec c s i ins))).
Proof.
  intros L E [HS HP HR HC HD HJ HK].
  assert (CV : cv c <= 1) by (unfold cv, b2n; destruct (is_conv c); lia).
  assert (RE1 : re c <= 1) by (unfold re; destruct (c_re c); lia).
  assert (NF1 : nfire s <= 1) by (destruct HS as [_ _ _ _ I6 _ _]; destruct (slot s); cbn [rdy] in I6; lia).
  pose proof (j_cfg HK) as JC.
  assert (RP1 : b2n (rp c) <= 1) by (destruct (rp c); cbn; lia).
  (* the products of two 0/1 quantities, made linear *)
  assert (MC : cv c * nfire s <= nfire s /\ cv c * nfire s <= cv c /\ cv c + nfire s <= cv c * nfire s + 1) by nia.
  assert (MR : re c * nfire s <= nfire s /\ re c * nfire s <= re c /\ re c + nfire s <= re c * nfire s + 1) by nia.
  assert (MH : hb c * nfire s <= nfire s /\ hb c * nfire s <= hb c /\ hb c + nfire s <= hb c * nfire s + 1)
    by (assert (hb c <= 1) by (unfold hb, b2n; destruct (has_helper (c_ad c)); lia); nia).
  destruct MC as (MC1 & MC2 & MC3), MR as (MR1 & MR2 & MR3), MH as (MH1 & MH2 & MH3).
  destruct ins; unfold exec, fire, fire2, deliver; cbn [fst]; dflags s; cbn [fst];
    try (apply InvN_push; [exact L|]); constructor.
  all: cbn [can_run] in E.
  all: try solve [same HS | same HP | same HR | same HC | same HD | same HJ | same HK].
  (* a counting part needs the counting parts only; a payload part also what it says of the cells it reads *)
  all: lazymatch goal with
       | |- InvS _ _ _ => destruct HS; clear HP HR HC HD HJ HK JC
       | |- InvC _ _ _ => destruct HS, HC; clear HP HR HD HJ HK
       | |- InvJ _ _ _ => destruct HS, HJ; clear HP HR HC HD HK
       | |- InvP _ _ _ => destruct HS, HP; clear HR HC HD HJ HK
       | |- InvR _ _ _ => destruct HS, HP, HR; clear HC HD HJ HK
       | |- InvD _ _ _ => destruct HS, HP, HC, HD; clear HR HJ HK
       | |- InvK _ _ _ => destruct HJ, HK; clear HS HP HR HC HD
       end.
  all: unfold expected, wout in *|-; redch.
  (* only call_fn_future_awaiter re-arms; the configuration and the tested flags, in the old fields *)
  all: try (assert (RE0 : re c = 0) by (unfold re in *; destruct (c_re c); [specialize (JC eq_refl); congruence|reflexivity]); rewrite RE0 in * ).
  all: unfold hb, cv, re, rp, is_conv in *.
  all: repeat match goal with Q : ?f ?x = _ |- _ => is_var x; rewrite Q in * end.
  all: cbn [has_helper b2n Nat.mul andb] in *.
  (* premises that have become trivial; alternatives that the counts refute *)
  all: repeat match goal with
            | H : ?a = ?a -> _ |- _ => specialize (H eq_refl)
            | H : _ /\ _ |- _ => destruct H
            | H : S _ >= 1 -> _ |- _ => specialize (H ltac:(lia))
            | H : match oslot ?s with _ => _ end = true |- _ => destruct (oslot s) eqn:?; try discriminate H
            | H : context[outcome_eqb ?r ?e] |- _ =>
                let Q := fresh "Q" in destruct (outcome_eqb r e) eqn:Q; [apply outcome_eqb_eq in Q|exfalso; cbn [negb] in H; lia]
            | H : S _ = 0 \/ _ |- _ => destruct H as [H|H]; [discriminate H|]
            end.
  all: repeat match goal with Q : ?f ?x = _ |- _ => is_var x; rewrite Q in * end.
  all: cbn [isv rn on b2n rdy sub Nat.add] in *|-.
  all: lazymatch goal with
       | |- InvS _ _ _ => constructor; fields s; first [assumption | lia]
       | |- InvJ _ _ _ => constructor; fields s; first [assumption | lia]
       | |- _ => constructor; fields s; close
       end.
Qed.

(* the instructions that only the initial programs contain: the three that block, and the parking of the source promise *)
Definition p_initial (i : instr) := match i with IXWait | IXWait2 | IOWait | IPark _ => true | _ => false end.

Lemma thr_push s i l j : i < 3 -> thr (push s i l) j = if Nat.eqb j i then l ++ thr s i else thr s j.
Proof. intros L. destruct i as [|[|[|i]]]; [| | |lia]; destruct j as [|[|[|j]]]; reflexivity. Qed.

Lemma thr_pop s i l j : i < 3 -> thr (set_thr (tick s) i l) j = if Nat.eqb j i then l else thr s j.
Proof. intros L. destruct i as [|[|[|i]]]; [| | |lia]; destruct j as [|[|[|j]]]; reflexivity. Qed.

(* an instruction only pushes in front of its own thread, never one of those, and never un-parks the promise *)
Lemma exec_threads c s i ins : i < 3 ->
  exists l, cnt p_initial l = 0 /\
            (forall j, thr (fst (exec c s i ins)) j = if Nat.eqb j i then l ++ thr s i else thr s j) /\
            (parked s = true \/ p_park ins = true -> parked (fst (exec c s i ins)) = true).
Proof.
  intros L. destruct ins; unfold exec, fire, fire2, deliver; cbn [fst]; dflags s; cbn [fst];
    lazymatch goal with
    | |- context[push ?X i ?l] => exists l; split; [reflexivity|split; [intros j; apply (thr_push X i l j L)|]];
                                  replace (parked (push X i l)) with (parked X) by (destruct i as [|[|[|?]]]; reflexivity)
    | |- _ => exists []; split; [reflexivity|split; [intros j; destruct (Nat.eqb j i) eqn:Q; [apply Nat.eqb_eq in Q; subst j|]; reflexivity|]]
    end; cbn [p_park]; intros [H|H]; first [exact H | discriminate H | reflexivity].
Qed.

Lemma cnt_initial_0 l : cnt p_initial l = 0 -> cnt p_xw l = 0 /\ cnt p_ow l = 0 /\ cnt p_xw2 l = 0 /\ cnt p_park l = 0.
Proof. induction l as [|x l IH]; [auto|]. destruct x; cbn [cnt p_initial p_xw p_ow p_xw2 p_park Nat.add]; (discriminate || exact IH). Qed.

Lemma invW_step c s i ins rest : i < 3 -> thr s i = ins :: rest -> InvW s ->
  InvW (fst (exec c (set_thr (tick s) i rest) i ins)).
Proof.
  intros L H [W1 W2 W3 W4 W5 W6 W7 W8].
  destruct (exec_threads c (set_thr (tick s) i rest) i ins L) as (l & L0 & T & P).
  destruct (cnt_initial_0 l L0) as (A1 & A2 & A3 & A4).
  set (s' := fst (exec c (set_thr (tick s) i rest) i ins)) in *.
  assert (PK : parked (set_thr (tick s) i rest) = parked s) by (destruct i as [|[|[|i]]]; reflexivity).
  rewrite PK in P.
  (* a thread keeps its instructions of that kind or loses one *)
  assert (M : forall j, thr s' j = thr s j \/ (j = i /\ thr s' j = l ++ rest)).
  { intros j. rewrite T, !thr_pop by exact L. rewrite Nat.eqb_refl. destruct (Nat.eqb_spec j i); auto. }
  assert (D : forall p j, cnt p l = 0 -> cnt p (thr s' j) <= cnt p (thr s j)).
  { intros p j Z. destruct (M j) as [->|[-> ->]]; [lia|]. rewrite H, cnt_app, Z. cbn [cnt]. lia. }
  constructor.
  - intros Q. pose proof (D p_xw 1 A1). pose proof (D p_xw 2 A1). cbn [thr] in *.
    enough (b2n (parked s) + cnt p_park (th0 s) = 0) by (specialize (W1 ltac:(assumption)); lia).
    destruct (parked s'); [cbn [b2n] in Q; lia|]. destruct (parked s); [discriminate P; auto|].
    destruct (M 0) as [E|[<- E]]; cbn [thr] in E.
    + rewrite <- E. exact Q.
    + rewrite E, cnt_app in Q. cbn [thr] in H. rewrite H. cbn [cnt]. destruct (p_park ins); [discriminate P; auto|]. cbn [b2n] in *. lia.
  - pose proof (D p_xw 0 A1). cbn [thr] in *. lia.
  - pose proof (D p_ow 0 A2). cbn [thr] in *. lia.
  - pose proof (D p_ow 1 A2). cbn [thr] in *. lia.
  - destruct (M 2) as [E|[<- E]]; cbn [thr] in E; rewrite E; [exact W5|]. right.
    cbn [thr] in H. rewrite H in W5. rewrite cnt_app, A2. destruct W5 as [W5|W5]; [inversion W5; reflexivity|cbn [cnt] in W5; lia].
  - pose proof (D p_xw2 0 A3). cbn [thr] in *. lia.
  - pose proof (D p_xw2 1 A3). cbn [thr] in *. lia.
  - destruct (M 2) as [E|[<- E]]; cbn [thr] in E; rewrite E; [exact W8|]. right. right.
    cbn [thr] in H. rewrite H in W8. rewrite cnt_app, A3.
    destruct W8 as [W8|[W8|W8]]; [inversion W8; reflexivity|inversion W8; reflexivity|cbn [cnt] in W8; lia].
Qed.

Theorem inv_step c s i : Inv c s -> enabled s i = true -> Inv c (fst (tstep c s i)).
Proof.
  intros [I W] E. unfold tstep. destruct (thr s i) as [|ins rest] eqn:H; [unfold enabled in E; rewrite H in E; discriminate|].
  assert (L : i < 3) by (destruct i as [|[|[|i]]]; [lia|lia|lia|discriminate H]).
  rewrite (enabled_can_run s i ins rest H) in E.
  split; [|apply invW_step; assumption].
  apply invN_exec; [exact L| |apply InvN_pop; assumption].
  destruct i as [|[|[|i]]]; [| | |lia]; destruct ins; exact E.
Qed.

Lemma inv_init c : valid c = true -> Inv c (init c).
Proof.
  destruct c as [ad mode stor k k2 rek cb cd]. unfold valid, is_mk, is_conv, is_mode. cbn [c_mode c_stor c_ad c_k2 c_cb c_k c_re].
  intros V.
  (* the valid combinations of adapter, timing, resolvers and re-arming, and for the converter its behaviour; each is a
     concrete initial state up to the values carried, and the invariant of a concrete state is a finite fact *)
  destruct mode as [|[|[|[|m]]]]; try discriminate V; destruct ad; try discriminate V;
    destruct k2 as [kk|]; try (cbn in V; rewrite ?andb_false_r in V; discriminate V);
    destruct rek as [[rv|rx|]|]; try (cbn in V; rewrite ?andb_false_r in V; discriminate V);
    try match goal with |- Inv (mkCfg AConv _ _ _ _ _ _ _) _ => destruct cb as [|[|[|[|[|cb]]]]]; try (cbn in V; rewrite ?andb_false_r in V; discriminate V) end;
    destruct k; clear V.
  all: split; [constructor; constructor|constructor]; vm_compute.
  all: first [reflexivity | exact I | exact (le_n _) | lia | discriminate | (intros; first [reflexivity | lia | discriminate | congruence])
             | (left; reflexivity) | (right; reflexivity) | (right; left; reflexivity) | (right; right; reflexivity)
             | (split; intros; first [lia | discriminate | congruence | reflexivity])
             | (intros; right; reflexivity) ].
Qed.
