(* CoroVMDeq.v — C05 deq_run: a coroutine taken from the front of the ready queue is resumed at once: in the log every EDeq x
   is immediately followed by ERun x (and the log never ends in a dangling EDeq). *)
From Cocls Require Import Base CoroVMDefs CoroVMProofs.
Local Open Scope nat_scope.

(* newest-first log: the event right above (= after) an EDeq x is ERun x *)
Fixpoint deq_ok (l : list event) : Prop :=
  match l with
  | [] => True
  | e :: t => (match t with EDeq x :: _ => e = ERun x | _ => True end) /\ deq_ok t
  end.
Definition hd_not_deq (l : list event) : Prop := match l with EDeq _ :: _ => False | _ => True end.
Definition dq (s : st) : Prop := hd_not_deq (log s) /\ deq_ok (log s).

Lemma deq_ok_cons : forall e l, hd_not_deq l -> deq_ok l -> deq_ok (e :: l).
Proof. intros e l H D. split; [|exact D]. destruct l as [|[] t]; try exact I. destruct H. Qed.

Lemma dq_log_inv : log_inv dq.
Proof.
  split; unfold dq.
  - intros s s' L _ H. rewrite L. exact H.
  - intros s e N (H&D). split; [destruct e; cbn in *; tauto|apply deq_ok_cons; assumption].
  - intros s c b w (H&D). split; [exact I|apply deq_ok_cons; assumption].
  - intros s x q _ (H&D). split; [exact I|]. split; [reflexivity|apply deq_ok_cons; assumption].
Qed.

(* what the setters leave of dq; for users of the model *)
Lemma dq_set_cs : forall s x, dq s -> dq (set_cs s x). Proof. intros s x H. exact H. Qed.
Lemma dq_set_fs : forall s x, dq s -> dq (set_fs s x). Proof. intros s x H. exact H. Qed.
Lemma dq_set_mainp : forall s x, dq s -> dq (set_mainp s x). Proof. intros s x H. exact H. Qed.
Lemma dq_set_made : forall s x, dq s -> dq (set_made s x). Proof. intros s x H. exact H. Qed.
Lemma dq_set_coro : forall s c x, dq s -> dq (set_coro s c x). Proof. intros s c x H. exact H. Qed.
Lemma dq_set_script : forall s c x, dq s -> dq (set_script s c x). Proof. intros s c x H. exact H. Qed.
Lemma dq_set_started : forall s c b, dq s -> dq (set_started s c b).
Proof. exact (li_set_started dq dq_log_inv). Qed.
Lemma dq_bad : forall s me, dq s -> dq (bad s me).
Proof. intros s me. apply (li_ev dq dq_log_inv). intros []. Qed.
Lemma dq_ensure_made : forall s c, dq s -> dq (ensure_made s c).
Proof. exact (li_ensure_made dq dq_log_inv). Qed.
Lemma dq_finish : forall s c r, dq s -> dq (finish s c r).
Proof. exact (li_finish dq dq_log_inv). Qed.

Lemma dq_steps : forall n s, dq s -> dq (steps n s).
Proof. exact (inv_steps dq (li_step dq dq_log_inv)). Qed.
