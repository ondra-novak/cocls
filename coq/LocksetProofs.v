(* LocksetProofs.v — C03 part (b): a class whose skeleton passes LocksetDefs.class_ok has no reachable state in
   which two different threads are both about to access a data member (so no two conflicting accesses are ever
   simultaneously enabled: every access happens while the accessing thread holds the class mutex, and the mutex
   acquire/release events totally order the critical sections). Any number of threads, any schedule, any sequence of
   public methods per thread, any path through the methods' control-flow graphs. *)
From Cocls Require Import Base BaseProofs LocksetDefs.
Require Import Lia.

Definition held_of (h : option nat) (t : nat) : bool := match h with Some u => Nat.eqb u t | None => false end.
Definition agrees (a : lstate) (b : bool) : Prop := match a with Held => b = true | Free => b = false | Any => True end.

Lemma sub_agrees s a b : sub s a = true -> agrees s b -> agrees a b.
Proof. destruct s, a; cbn; intros; try discriminate; auto. Qed.
Lemma agrees_of_bool x b : agrees (of_bool x) b <-> b = x.
Proof. destruct x; cbn; tauto. Qed.
Lemma lstate_eqb_eq a b : lstate_eqb a b = true -> a = b.
Proof. destruct a, b; cbn; intros; try discriminate; auto. Qed.

Section LS.
Variable ms : list method_sk.
Hypothesis OK : forallb (method_ok ms) ms = true.

Definition frame_valid (f : frame) : Prop := exists m, nth_error ms (fst f) = Some m /\ snd f < length (m_nodes m).
Definition annot_of (f : frame) : lstate :=
  match nth_error ms (fst f) with Some m => annot_at m (snd f) | None => Any end.

Fixpoint rest_ok (g : nat) (rest : list frame) : Prop :=
  match rest with
  | [] => exists m, nth_error ms g = Some m /\ m_public m = true
  | f :: rest' => frame_valid f /\
                  (exists m, nth_error ms g = Some m /\ sub (of_bool (m_post m)) (annot_of f) = true) /\
                  rest_ok (fst f) rest'
  end.
Definition stack_ok (b : bool) (st : list frame) : Prop :=
  match st with
  | [] => b = false
  | f :: rest => frame_valid f /\ agrees (annot_of f) b /\ rest_ok (fst f) rest
  end.

Definition Inv (c : cfg) : Prop :=
  forall t st, nth_error (stacks c) t = Some st -> stack_ok (held_of (holder c) t) st.

Lemma method_ok_of g m : nth_error ms g = Some m ->
  0 < length (m_nodes m) /\ sub (of_bool (m_pre m)) (annot_at m 0) = true /\ nodes_ok ms m 0 (m_nodes m) = true /\
  (m_public m = true -> m_pre m = false /\ m_post m = false).
Proof.
  intros E%nth_error_In. rewrite forallb_forall in OK. apply OK in E. unfold method_ok in E.
  apply andb_true_iff in E as [[[[_ Hl]%andb_true_iff Hs]%andb_true_iff Hn]%andb_true_iff Hp].
  apply Nat.ltb_lt in Hl. split; [|split; [|split]]; auto.
  intros Ep. rewrite Ep in Hp. apply andb_true_iff in Hp as [Hpre Hpost]. split; now apply negb_true_iff.
Qed.

Lemma nodes_ok_nth m k l i nd : nodes_ok ms m k l = true -> nth_error l i = Some nd -> node_ok ms m (k + i) nd = true.
Proof.
  revert k i. induction l as [|h t IH]; intros k i H E; [destruct i; discriminate|].
  cbn [nodes_ok] in H. apply andb_true_iff in H. destruct H as [H1 H2]. destruct i as [|i]; cbn in E.
  - inversion E; subst. now rewrite Nat.add_0_r.
  - replace (k + S i) with (S k + i) by lia. eauto.
Qed.

Lemma node_ok_at g m n nd : nth_error ms g = Some m -> nth_error (m_nodes m) n = Some nd -> node_ok ms m n nd = true.
Proof. intros (_ & _ & H & _)%method_ok_of En. exact (nodes_ok_nth m 0 _ _ _ H En). Qed.

Lemma entry_ok g m b : nth_error ms g = Some m -> b = m_pre m -> frame_valid (g, 0) /\ agrees (annot_of (g, 0)) b.
Proof.
  intros Em ->. destruct (method_ok_of _ _ Em) as (Hl & Hs & _). split; [exists m; auto|].
  unfold annot_of; cbn [fst snd]. rewrite Em. eapply sub_agrees; eauto. now apply agrees_of_bool.
Qed.

Lemma inv_init n : Inv (init n).
Proof. intros t st ->%nth_error_In%repeat_spec. reflexivity. Qed.

Lemma others_keep (c : cfg) t h' st' :
  Inv c -> (forall t', t' <> t -> held_of h' t' = held_of (holder c) t') ->
  t < length (stacks c) -> stack_ok (held_of h' t) st' ->
  Inv (Cfg h' (set_nth (stacks c) t st')).
Proof.
  intros I Ho Lt Hs t' st E. cbn [holder stacks] in *. destruct (Nat.eq_dec t' t) as [->|N].
  - rewrite nth_error_set_nth_same in E by auto. inversion E; subst. auto.
  - rewrite nth_error_set_nth_other in E by congruence. rewrite Ho by auto. apply I; auto.
Qed.

Lemma pick_in succs k n : pick succs k = Some n -> In n succs.
Proof. unfold pick. destruct succs; [discriminate|]. apply nth_error_In. Qed.

Lemma held_self t : held_of (Some t) t = true.
Proof. apply Nat.eqb_refl. Qed.
Lemma held_other t t' : t' <> t -> held_of (Some t) t' = false.
Proof. intros H. now apply Nat.eqb_neq, not_eq_sym. Qed.

Lemma step_inv c ch : Inv c -> Inv (step ms c ch).
Proof.
  intros I. destruct ch as [t k]. unfold step.
  destruct (nth_error (stacks c) t) as [st|] eqn:Est; [|exact I].
  assert (Lt : t < length (stacks c)) by (apply nth_error_Some; congruence).
  pose proof (I _ _ Est) as Hst.
  destruct st as [|f rest].
  - (* start a public method *)
    destruct (nth_error ms k) as [m|] eqn:Em; [|exact I].
    destruct (m_public m) eqn:Ep; [|exact I].
    apply others_keep; auto. cbn in Hst. rewrite Hst.
    destruct (method_ok_of _ _ Em) as (_ & _ & _ & Hpub). destruct (Hpub Ep) as [Hpre _].
    destruct (entry_ok k m false Em) as [Fv Ag]; auto. cbn. eauto.
  - destruct Hst as ((m & Em & Hn) & Ha & Hr).
    unfold node_at. rewrite Em.
    destruct (nth_error (m_nodes m) (snd f)) as [[e succs]|] eqn:En; [|exact I].
    pose proof (node_ok_at _ _ _ _ Em En) as Hnode. unfold node_ok in Hnode. cbn [fst snd] in Hnode.
    unfold annot_of in Ha. rewrite Em in Ha.
    destruct (post_of ms m e (annot_at m (snd f))) as [p|] eqn:Ep; [|discriminate].
    apply andb_true_iff in Hnode as [Hsucc Hend].
    (* a successor's annotation covers the lock state p after the event *)
    assert (MOVE : forall n' b, In n' succs -> agrees p b ->
                   frame_valid (fst f, n') /\ agrees (annot_of (fst f, n')) b).
    { intros n' b Hp Hb. rewrite forallb_forall in Hsucc.
      apply Hsucc, andb_true_iff in Hp as [H1%Nat.ltb_lt H2]. split; [exists m; auto|].
      unfold annot_of; cbn [fst snd]. rewrite Em. eapply sub_agrees; eauto. }
    assert (KEEP : forall n' h', In n' succs -> agrees p (held_of h' t) ->
                   (forall t', t' <> t -> held_of h' t' = held_of (holder c) t') ->
                   Inv (Cfg h' (set_nth (stacks c) t ((fst f, n') :: rest)))).
    { intros n' h' Hp Hb Ho. destruct (MOVE _ _ Hp Hb). apply others_keep; cbn [stack_ok fst]; auto. }
    destruct e; try (destruct (pick succs k) as [n'|] eqn:Hp; [apply pick_in in Hp|exact I]); cbn in Ep.
    + (* Lock *)
      destruct (annot_at m (snd f)); try discriminate. injection Ep as <-. cbn in Ha.
      destruct (holder c) as [u|] eqn:Eh; [exact I|].
      apply KEEP; [assumption|apply held_self|]. intros t' N. now apply held_other.
    + (* Unlock *)
      destruct (annot_at m (snd f)); try discriminate. injection Ep as <-. cbn in Ha.
      destruct (holder c) as [u|] eqn:Eh; [|exact I]. cbn in Ha. rewrite Ha. apply Nat.eqb_eq in Ha as ->.
      apply KEEP; [assumption|reflexivity|]. intros t' N. symmetry. now apply held_other.
    + (* Drop *)
      injection Ep as <-. apply KEEP; [assumption| |].
      * destruct (holder c) as [u|]; cbn; auto. destruct (Nat.eqb_spec u t); cbn; auto. now apply Nat.eqb_neq.
      * intros t' N. destruct (holder c) as [u|]; cbn; auto. destruct (Nat.eqb_spec u t) as [->|]; cbn; auto.
        symmetry. now apply held_other.
    + (* Gain *)
      injection Ep as <-.
      destruct (holder c) as [u|] eqn:Eh; [destruct (Nat.eqb_spec u t) as [->|]; [|exact I]|];
        (apply KEEP; [assumption|apply held_self|]); [reflexivity|]. intros t' N. now apply held_other.
    + (* Rd *)
      destruct (annot_at m (snd f)); try discriminate. injection Ep as <-. now apply KEEP.
    + (* Wr *)
      destruct (annot_at m (snd f)); try discriminate. injection Ep as <-. now apply KEEP.
    + (* Call *)
      destruct (nth_error ms g) as [mg|] eqn:Eg; [|discriminate].
      destruct (lstate_eqb (annot_at m (snd f)) (of_bool (m_pre mg))) eqn:Epre; [|discriminate].
      injection Ep as <-. apply lstate_eqb_eq in Epre. rewrite Epre in Ha. apply agrees_of_bool in Ha.
      destruct (entry_ok g mg _ Eg Ha) as [Fv Ag].
      rewrite forallb_forall in Hsucc. apply Hsucc, andb_true_iff in Hp as [H1%Nat.ltb_lt H2].
      apply others_keep; auto. cbn [stack_ok rest_ok fst]. repeat split; auto; [exists m; auto|].
      exists mg. split; auto. unfold annot_of; cbn [fst snd]. now rewrite Em.
    + (* Skip *)
      injection Ep as <-. now apply KEEP.
    + (* End: return *)
      destruct (lstate_eqb (annot_at m (snd f)) (of_bool (m_post m))) eqn:Epost; [|discriminate].
      apply lstate_eqb_eq in Epost. rewrite Epost in Ha. apply agrees_of_bool in Ha.
      apply others_keep; auto.
      destruct rest as [|f2 rest2]; cbn [stack_ok]; cbn in Hr.
      * destruct Hr as (m' & Em' & Hpub). rewrite Em in Em'. injection Em' as <-.
        destruct (method_ok_of _ _ Em) as (_ & _ & _ & Hp). destruct (Hp Hpub). congruence.
      * destruct Hr as (Fv2 & (m' & Em' & Hsub) & Hr2). rewrite Em in Em'. injection Em' as <-.
        split; auto. split; auto. eapply sub_agrees; eauto. now apply agrees_of_bool.
Qed.

Lemma run_inv sched : forall c, Inv c -> Inv (run ms sched c).
Proof. apply fold_left_inv, step_inv. Qed.

Lemma access_holds c t st x : Inv c -> nth_error (stacks c) t = Some st -> at_access ms st = Some x ->
  holder c = Some t.
Proof.
  intros I E A. pose proof (I _ _ E) as Hs. destruct st as [|f rest]; [discriminate|].
  destruct Hs as ((m & Em & Hn) & Ha & _). unfold at_access, node_at in A. rewrite Em in A.
  destruct (nth_error (m_nodes m) (snd f)) as [[e succs]|] eqn:En; [|discriminate].
  pose proof (node_ok_at _ _ _ _ Em En) as Hnode. unfold node_ok in Hnode. cbn [fst snd] in Hnode.
  unfold annot_of in Ha. rewrite Em in Ha.
  assert (annot_at m (snd f) = Held) as Hh.
  { destruct e; try discriminate; cbn in Hnode; destruct (annot_at m (snd f)); try discriminate; auto. }
  rewrite Hh in Ha. cbn in Ha. destruct (holder c) as [u|]; [|discriminate]. cbn in Ha.
  apply Nat.eqb_eq in Ha. congruence.
Qed.
End LS.

(* whoever is at a field access holds the mutex *)
Theorem access_under_lock cls : class_ok cls = true ->
  forall n sched t st x, let c := run (c_methods cls) sched (init n) in
  nth_error (stacks c) t = Some st -> at_access (c_methods cls) st = Some x -> holder c = Some t.
Proof.
  intros Hok n sched t st x c E A. eapply access_holds; eauto. apply run_inv, inv_init; auto.
Qed.

(* for all interleavings of any number of threads running any sequence of public methods: two threads are never
   both at a field access (a fortiori no two conflicting accesses are unordered) *)
Theorem well_bracketed_race_free cls : class_ok cls = true ->
  forall n sched t1 t2 st1 st2 x1 x2,
  let c := run (c_methods cls) sched (init n) in
  nth_error (stacks c) t1 = Some st1 -> nth_error (stacks c) t2 = Some st2 ->
  at_access (c_methods cls) st1 = Some x1 -> at_access (c_methods cls) st2 = Some x2 -> t1 = t2.
Proof.
  intros Hok n sched t1 t2 st1 st2 x1 x2 c E1 E2 A1 A2.
  pose proof (access_under_lock cls Hok n sched t1 st1 x1 E1 A1) as H1.
  pose proof (access_under_lock cls Hok n sched t2 st2 x2 E2 A2) as H2. congruence.
Qed.

Theorem all_guarded_classes sk : all_guarded sk = true -> forall cls, In cls sk -> class_ok cls = true.
Proof. unfold all_guarded. rewrite forallb_forall. auto. Qed.
