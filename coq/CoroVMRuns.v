(* CoroVMRuns.v — C05 "a coroutine is never resumed while it is already running" (and never after its body finished):
   per coroutine the log alternates  Run (Susp Run)* [Susp | Fin]  — proved from each_once (CoroVMOnce) and the life-cycle
   accounting (CoroVMLife). *)
From Cocls Require Import Base CoroVMDefs CoroVMProofs CoroVMOnce CoroVMLife.
Local Open Scope nat_scope.

(* rlc = "running, by the log, c": is c running according to the (newest-first) log?  last of {Run c, Susp c, Fin c} decides *)
Fixpoint rlc (c : nat) (l : list event) : nat :=
  match l with
  | [] => 0
  | ERun x :: t => if Nat.eqb x c then 1 else rlc c t
  | ESusp x :: t => if Nat.eqb x c then 0 else rlc c t
  | EFin x _ :: t => if Nat.eqb x c then 0 else rlc c t
  | _ :: t => rlc c t
  end.

(* every Run c is logged when c is not running and has not finished; every Susp c / Fin c when c is running *)
Fixpoint wf_runs (l : list event) : Prop :=
  match l with
  | [] => True
  | ERun c :: t => rlc c t = 0 /\ nev (is_fin c) t = 0 /\ wf_runs t
  | ESusp c :: t => rlc c t = 1 /\ wf_runs t
  | EFin c _ :: t => rlc c t = 1 /\ wf_runs t
  | _ :: t => wf_runs t
  end.

(* how often c is in control or inside start() *)
Definition act (s : st) (c : nat) : nat := cnt c (curlf (cur s)) + cnt c (nests (stack s)).

(* RW: log and control state agree on who is running *)
Definition RW (s : st) : Prop := wf_runs (log s) /\ forall c, rlc c (log s) = act s c.

(* the same of a log and the list K of those in control or inside start(); the proofs are about lists, the theorems are
   stated with RW unfolded *)
Definition runs_are (l : list event) (K : list nat) : Prop := wf_runs l /\ forall c, rlc c l = cnt c K.

Lemma RW_runs : forall s, RW s <-> runs_are (log s) (curlf (cur s) ++ nests (stack s)).
Proof.
  intros s. unfold RW, runs_are, act. split; intros (W&R); (split; [exact W|]); intros c; [rewrite cnt_app|rewrite <- cnt_app]; apply R.
Qed.

(* events that say nothing about who runs *)
Definition quiet (e : event) : Prop := match e with ERun _ | ESusp _ | EFin _ _ => False | _ => True end.

Lemma rlc_quiet : forall c e l, quiet e -> rlc c (e :: l) = rlc c l.
Proof. intros c e l N. destruct e; try reflexivity; destruct N. Qed.
Lemma wf_quiet : forall e l, quiet e -> wf_runs l -> wf_runs (e :: l).
Proof. intros e l N W. destruct e; try exact W; destruct N. Qed.
Lemma nev_fin_quiet : forall x e l, quiet e -> nev (is_fin x) (e :: l) = nev (is_fin x) l.
Proof. intros x e l N. destruct e; try reflexivity; destruct N. Qed.
Lemma nev_fin_quiets : forall x q l, Forall quiet q -> nev (is_fin x) (q ++ l) = nev (is_fin x) l.
Proof. induction 1 as [|e q N _ IH]; [reflexivity|]. cbn [app]. rewrite nev_fin_quiet by exact N. exact IH. Qed.
Lemma quiet_enqs : forall l b w, Forall quiet (rev (map (fun c => EEnq c b w) l)).
Proof. intros. apply Forall_rev, Forall_forall. intros x H. apply in_map_iff in H. destruct H as (c&<-&_). exact I. Qed.

Lemma ra_quiet : forall e l K, quiet e -> runs_are l K -> runs_are (e :: l) K.
Proof. intros e l K N (W&R). split; [apply wf_quiet; assumption|]. intros c. rewrite rlc_quiet by exact N. apply R. Qed.
Lemma ra_quiets : forall q l K, Forall quiet q -> runs_are l K -> runs_are (q ++ l) K.
Proof. induction 1 as [|e q N _ IH]; intros R; [exact R|]. apply ra_quiet; [exact N|apply IH, R]. Qed.

(* r, in control, logs that it suspends or that its body is over *)
Definition stop_of (r : nat) (e : event) : Prop := e = ESusp r \/ exists v, e = EFin r v.
Lemma ra_stop : forall e r l K, stop_of r e -> cnt r K = 0 -> runs_are l (r :: K) -> runs_are (e :: l) K.
Proof.
  intros e r l K E N (W&R). assert (A : rlc r l = 1) by (rewrite R, cnt_cons, Nat.eqb_refl; lia).
  split; [destruct E as [->|(v & ->)]; cbn [wf_runs]; auto|].
  intros c. specialize (R c). rewrite cnt_cons in R.
  destruct E as [->|(v & ->)]; cbn [rlc]; (destruct (Nat.eqb r c) eqn:Q; [apply Nat.eqb_eq in Q; subst c|]; lia).
Qed.
Lemma ra_run : forall x l K, cnt x K = 0 -> nev (is_fin x) l = 0 -> runs_are l K -> runs_are (ERun x :: l) (x :: K).
Proof.
  intros x l K N F (W&R). split; [cbn [wf_runs]; rewrite R; auto|].
  intros c. cbn [rlc]. rewrite cnt_cons. destruct (Nat.eqb x c) eqn:Q; [apply Nat.eqb_eq in Q; subst c; lia|rewrite R; lia].
Qed.
Lemma ra_stop_run : forall e r x q l K, stop_of r e -> cnt r K = 0 -> runs_are l (r :: K) -> Forall quiet q ->
  cnt x K = 0 -> nev (is_fin x) (e :: l) = 0 -> runs_are (ERun x :: q ++ e :: l) (x :: K).
Proof.
  intros e r x q l K E N R Q NX F. apply ra_run; [exact NX|rewrite nev_fin_quiets by exact Q; exact F|].
  apply ra_quiets; [exact Q|]. apply (ra_stop e r); assumption.
Qed.

Lemma RW_ev : forall s e, RW s -> quiet e -> RW (ev s e).
Proof. intros s e R N. apply RW_runs. apply RW_runs in R. exact (ra_quiet e _ _ N R). Qed.
(* what the setters leave of RW; for users of the model *)
Lemma RW_set_fs : forall s x, RW s -> RW (set_fs s x). Proof. intros s x R. exact R. Qed.
Lemma RW_set_queue : forall s x, RW s -> RW (set_queue s x). Proof. intros s x R. exact R. Qed.
Lemma RW_set_active : forall s x, RW s -> RW (set_active s x). Proof. intros s x R. exact R. Qed.
Lemma RW_set_script : forall s c x, RW s -> RW (set_script s c x). Proof. intros s c x R. exact R. Qed.
Lemma RW_set_started : forall s c b, RW s -> RW (set_started s c b).
Proof. intros s c b R. apply RW_ev; [exact R|exact I]. Qed.
Lemma RW_bad : forall s me, RW s -> RW (bad s me). Proof. intros s me R. apply RW_ev; [exact R|exact I]. Qed.
Lemma RW_enq_all : forall l s b w, RW s -> RW (enq_all s l b w).
Proof. induction l; intros s b w R; [exact R|]. apply IHl. apply (RW_ev (set_queue s _)); [exact R|exact I]. Qed.
Lemma RW_ensure_made : forall s c, RW s -> RW (ensure_made s c).
Proof. intros s c R. destruct (ensure_made_cases s c) as [->|(_ & ->)]; [exact R|]. apply RW_ev; [exact R|exact I]. Qed.

Lemma nev_fin_alive : forall s x, life s -> stat (cs s x) <> Done -> nev (is_fin x) (log s) = 0.
Proof. intros s x L N. destruct (L x) as (_&_&_&_&E). destruct (stat (cs s x)); try congruence; lia. Qed.

Lemma cur_not_nested : forall s r, once s -> cur s = CRun r -> cnt r (nests (stack s)) = 0 /\ stat (cs s r) = Started.
Proof.
  intros s r O C. unfold once, onceD in O.
  assert (H : hc (cur s) (stack s) (queue s) r > 0) by (rewrite C, hc_run, Nat.eqb_refl; lia).
  destruct (held_started _ _ _ _ _ _ O r H) as (S&_&_&H1). rewrite C, hc_run, Nat.eqb_refl in H1. split; [lia|auto].
Qed.
Lemma queued_not_nested : forall s x, once s -> In x (queue s) \/ In x (insts (stack s)) ->
  cnt x (nests (stack s)) = 0 /\ stat (cs s x) = Started.
Proof.
  intros s x O I. unfold once, onceD in O.
  assert (H : cnt x (queue s) + cnt x (insts (stack s)) > 0).
  { destruct I as [I|I]; apply cnt_in in I; lia. }
  assert (H' : hc (cur s) (stack s) (queue s) x > 0) by (unfold hc; lia).
  destruct (held_started _ _ _ _ _ _ O x H') as (S&_&_&H1). unfold hc in H1. split; [lia|auto].
Qed.
Lemma chain_not_nested : forall s f x, once s -> In x (chain_of (fs s f)) ->
  cnt x (nests (stack s)) = 0 /\ stat (cs s x) = Started /\ cur s <> CRun x.
Proof.
  intros s f x O I. unfold once, onceD in O. destruct (chain_member _ _ _ _ _ _ O f x I) as (S&H0&_).
  unfold hc in H0. repeat split; auto; try lia. intros C. rewrite C in H0. cbn [curlf] in H0. rewrite cnt_cons, Nat.eqb_refl in H0. lia.
Qed.
Lemma parent_not_nested : forall s k p, once s -> stat (cs s k) = Started -> bound (cs s k) = BParent p ->
  cnt p (nests (stack s)) = 0 /\ stat (cs s p) = Started /\ cur s <> CRun p.
Proof.
  intros s k p O S B. unfold once, onceD in O. destruct (parent_waits _ _ _ _ _ _ O k p S B) as (S'&H0&_).
  unfold hc in H0. repeat split; auto; try lia. intros C. rewrite C in H0. cbn [curlf] in H0. rewrite cnt_cons, Nat.eqb_refl in H0. lia.
Qed.
Lemma idle_not_nested : forall s x, once s -> stat (cs s x) <> Started -> cnt x (nests (stack s)) = 0 /\ (forall r, cur s = CRun r -> x <> r).
Proof.
  intros s x O N. unfold once, onceD in O. destruct (not_started_zero _ _ _ _ _ _ O x N) as (H0&_).
  unfold hc in H0. split; [lia|]. intros r C -> . rewrite C in H0. cbn [curlf] in H0. rewrite cnt_cons, Nat.eqb_refl in H0. lia.
Qed.

Lemma nev_fin_fin : forall x r v l, x <> r -> nev (is_fin x) (EFin r v :: l) = nev (is_fin x) l.
Proof. intros. rewrite nev_cons. cbn. destruct (Nat.eqb_neq r x) as (_&Q). rewrite Q by congruence. reflexivity. Qed.

Lemma last_In : forall (l : list nat) d, l <> [] -> In (last l d) l.
Proof. intros l d N. destruct (exists_last N) as (l'&a&->). rewrite last_last. apply in_or_app. right. left. reflexivity. Qed.

Lemma RW_sp_dispose : forall s me hs aw, RW s -> ctx_ok s me -> (cur s = CMain -> aw = false) ->
  cnt me (nests (stack s)) = 0 ->
  (forall x, In x hs -> nev (is_fin x) (log s) = 0 /\ cnt x (nests (stack s)) = 0) ->
  RW (sp_dispose s me hs aw).
Proof.
  intros s me hs aw R X M NM F. unfold sp_dispose. destruct hs as [|h t] eqn:HS; [exact R|]. rewrite <- HS in *.
  assert (Hl : In (last hs 0) hs) by (apply last_In; rewrite HS; discriminate).
  clear HS. destruct X as [(C&->&A)|(C&A)].
  - rewrite (M C), A. apply RW_runs. apply RW_runs in R. rewrite C in R. exact R.
  - destruct aw; [|rewrite A; apply RW_enq_all, R]. destruct (F _ Hl) as (F1&N1).
    apply RW_runs. apply RW_runs in R. rewrite C in R. unfold run_c, enq. rewrite enq_all_eq.
    apply (ra_stop_run (ESusp me) me _ (EEnq me me why_self :: _)); auto; [left; reflexivity|].
    constructor; [exact I|apply quiet_enqs].
Qed.

Lemma RW_finish : forall s c r, RW s -> once s -> life s -> cur s = CRun c -> RW (finish s c r).
Proof.
  intros s c r R O L C. destruct (cur_not_nested s c O C) as (NC&SC).
  assert (E : stop_of c (EFin c r)) by (right; eauto).
  (* whoever is resumed is started, not finished, elsewhere than in control or inside start() *)
  assert (G : forall x, cnt x (nests (stack s)) = 0 /\ stat (cs s x) = Started /\ cur s <> CRun x ->
              cnt x (nests (stack s)) = 0 /\ nev (is_fin x) (EFin c r :: log s) = 0).
  { intros x (N1&S1&C1). split; [exact N1|]. rewrite nev_fin_fin by congruence. apply nev_fin_alive; [exact L|congruence]. }
  apply RW_runs in R. rewrite C in R. apply RW_runs. unfold finish.
  destruct (bound (cs s c)) as [|f|p] eqn:B; [|destruct (chain_of (fs (ev s (EFin c r)) f)) as [|h t] eqn:CH|].
  - apply (ra_quiet (EFree c)); [exact I|]. apply (ra_stop _ c); assumption.
  - apply (ra_quiet (EFree c)); [exact I|]. apply (ra_stop _ c); assumption.
  - rewrite <- CH. assert (Hl : In (last (chain_of (fs s f)) 0) (chain_of (fs s f))).
    { change (fs (ev s (EFin c r))) with (fs s) in CH. apply last_In. rewrite CH. discriminate. }
    destruct (G _ (chain_not_nested s f _ O Hl)) as (N1&F1). unfold run_c. rewrite enq_all_eq.
    change (fs (ev s (EFin c r))) with (fs s). cbn [log cur stack ev set_cur set_coro set_cs set_fs curlf app].
    apply ra_run; [exact N1| |apply ra_quiets; [apply quiet_enqs|]; apply (ra_quiet (EFree c)); [exact I|]; apply (ra_stop _ c); assumption].
    rewrite nev_fin_quiets by apply quiet_enqs. rewrite nev_fin_quiet by (exact I). exact F1.
  - destruct (G _ (parent_not_nested s c p O SC B)) as (N1&F1).
    apply (ra_stop_run (EFin c r) c p [EFree c]); auto. constructor; [exact I|constructor].
Qed.

Lemma created_fresh : forall s c, once s -> life s -> is_created s c = true ->
  nev (is_fin c) (log s) = 0 /\ cnt c (nests (stack s)) = 0 /\ (forall r, cur s = CRun r -> c <> r).
Proof.
  intros s c O L K. apply is_created_stat in K.
  split; [apply nev_fin_alive; [exact L|congruence]|apply idle_not_nested; [exact O|congruence]].
Qed.

Lemma note_not_run : forall e, note e -> quiet e.
Proof. destruct e; cbn; tauto. Qed.

Lemma RW_exec : forall s me i, RW s -> once s -> life s -> ctx_ok s me -> cnt me (nests (stack s)) = 0 -> RW (exec s me i).
Proof.
  intros s me i R O L X NM.
  assert (E1 : forall c, RW (ensure_made s c) /\ once (ensure_made s c) /\ life (ensure_made s c) /\ ctx_ok (ensure_made s c) me /\
                         cnt me (nests (stack (ensure_made s c))) = 0).
  { intros c. split; [apply RW_ensure_made, R|]. split; [apply onceD_ensure_made, O|]. split; [apply life_ensure_made, L|].
    split; [apply ctx_ensure, X|]. destruct (ensure_made_cases s c) as [->|(_ & ->)]; exact NM. }
  assert (E : stop_of me (ESusp me)) by (left; reflexivity).
  destruct (exec_cases s me i) as [e N|c e N|x q M0 Q|c U|c K|c aw s1 K A|c f s1 s2 K F|c f aw s1 K A Cl|c s1 M0 K|f F
                                  |f r aw A Cl|f ch M0 F s1|r M0].
  - apply RW_ev; [exact R|apply note_not_run, N].
  - apply RW_ev; [apply E1|apply note_not_run, N].
  - destruct (ctx_run s me X M0) as (C&_). destruct (cur_not_nested s me O C) as (_&SM).
    assert (Hl : In x (queue s ++ [me])) by (rewrite Q; left; reflexivity).
    assert (G : cnt x (nests (stack s)) = 0 /\ stat (cs s x) = Started).
    { apply in_app_or in Hl. destruct Hl as [Hl|[<-|[]]]; [apply (queued_not_nested s x O); left; exact Hl|auto]. }
    destruct G as (N1&S1). apply RW_runs. apply RW_runs in R. rewrite C in R.
    apply (ra_stop_run (ESusp me) me x [EDeq x; EEnq me me why_pause]); auto.
    + repeat constructor; exact I.
    + apply (nev_fin_alive s); [exact L|congruence].
  - apply RW_ev; [exact R|exact I].
  - apply RW_ev; [exact R|exact I].
  - destruct (E1 c) as (R1&O1&L1&X1&NM1). fold s1 in R1, O1, L1, X1, NM1. destruct (created_fresh s1 c O1 L1 K) as (F1&N1&_).
    apply RW_sp_dispose; [apply RW_set_started, R1|exact X1|apply (ctx_main_aw _ me); assumption|exact NM1|].
    intros x [<-|[]]. split; [exact F1|exact N1].
  - destruct (E1 c) as (R1&O1&L1&X1&NM1). fold s1 in R1, O1, L1, X1, NM1. destruct (created_fresh s1 c O1 L1 K) as (F1&N1&D1).
    assert (R2 : RW s2) by apply RW_set_started, RW_set_fs, R1. apply RW_runs in R2. apply RW_runs.
    change (cur s2) with (cur s1) in R2. change (stack s2) with (stack s1) in R2.
    destruct X1 as [(C&->&A)|(C&A)]; rewrite A; rewrite C in R2.
    + exact R2.
    + unfold run_c. cbn [log cur stack ev set_cur set_stack curlf nests app].
      apply (ra_run c _ (me :: _)); [| |apply ra_quiet; [exact I|exact R2]].
      * rewrite cnt_cons, N1. destruct (Nat.eqb_neq me c) as (_&Y). rewrite Y; [reflexivity|]. intros ->. exact (D1 _ C eq_refl).
      * exact F1.
  - destruct (E1 c) as (R1&O1&L1&X1&NM1). fold s1 in R1, O1, L1, X1, NM1. destruct (created_fresh s1 c O1 L1 K) as (F1&N1&_).
    apply RW_sp_dispose; [|exact X1|apply (ctx_main_aw _ me); assumption|exact NM1|].
    + apply RW_ev; [apply RW_set_started, RW_set_fs, R1|exact I].
    + intros x [<-|[]]. split; [exact F1|exact N1].
  - destruct (E1 c) as (R1&O1&L1&X1&_). fold s1 in R1, O1, L1, X1. destruct (created_fresh s1 c O1 L1 K) as (F1&N1&_).
    destruct (ctx_run s1 me X1 M0) as (C&_). destruct (cur_not_nested s1 me O1 C) as (NM1&_).
    assert (R2 : RW (set_script (set_started s1 c (BParent me)) me (IGotC c :: script (cs s1 me)))) by apply RW_set_script, RW_set_started, R1.
    apply RW_runs in R2. apply RW_runs. change (cur (set_script (set_started s1 c (BParent me)) me (IGotC c :: script (cs s1 me)))) with (cur s1) in R2.
    rewrite C in R2. apply (ra_stop_run (ESusp me) me c []); auto.
  - exact R.
  - apply RW_sp_dispose; [|exact X|apply (ctx_main_aw _ me); assumption|exact NM|].
    + apply RW_ev; [apply RW_ev; [exact R|]|]; exact I.
    + intros x Hl. destruct (chain_not_nested s f x O Hl) as (N1&S1&_). split; [apply (nev_fin_alive s); [exact L|congruence]|exact N1].
  - destruct (ctx_run s me X M0) as (C&_). apply RW_runs. apply RW_runs in R. rewrite C in R.
    apply (ra_stop _ me); assumption.
  - destruct (ctx_run s me X M0) as (C&_). apply RW_finish; assumption.
Qed.

Lemma RW_step : forall s, shape_once_life s -> RW s -> RW (step s).
Proof.
  intros s ((S&O)&L) R. destruct (step_cases s) as [C P|i rest C P|c C P|c i rest C P|C|C].
  - apply RW_runs. apply RW_runs in R. rewrite C in R. apply ra_quiet; [exact I|exact R].
  - destruct (shape_cur_main s S C) as (A&K&Q).
    assert (R1 : RW (exec (set_mainp s rest) 0 i)).
    { apply RW_exec; [exact R|exact O|exact L|left; auto|cbn; rewrite K; reflexivity]. }
    unfold idle_if_main. destruct (cur (exec (set_mainp s rest) 0 i)); exact R1.
  - apply RW_finish; assumption.
  - destruct (shape_cur_code s c S C) as (A&W). destruct (cur_not_nested s c O C) as (NC&SC).
    apply RW_exec; [exact R| |apply life_set_script, L|right; auto|exact NC].
    unfold once, onceD in *. cbn. rewrite C in *.
    change (mkCoro (stat (cs s c)) rest (bound (cs s c)) (result (cs s c))) with (reScript (cs s c) rest).
    apply once_set_script_held; auto. rewrite hc_run, Nat.eqb_refl. lia.
  - apply RW_runs. apply RW_runs in R. rewrite C in R.
    destruct (ret_cases s) as [K|r rest K|h hs rest K|x q rest K Q|rest K Q]; cbn; rewrite ?K in *.
    + exact R.
    + apply ra_quiet; [exact I|exact R].
    + destruct (queued_not_nested s h O) as (N1&S1); [right; rewrite K; left; reflexivity|]. rewrite K in N1.
      apply ra_run; [exact N1|apply nev_fin_alive; [exact L|congruence]|exact R].
    + destruct (queued_not_nested s x O) as (N1&S1); [left; rewrite Q; left; reflexivity|]. rewrite K in N1.
      apply ra_run; [exact N1| |apply ra_quiet; [exact I|exact R]].
      apply (nev_fin_alive s); [exact L|congruence].
    + apply ra_quiet; [exact I|exact R].
  - exact R.
Qed.

Definition shape_once_life_runs (s : st) : Prop := shape_once_life s /\ RW s.
Lemma shape_once_life_runs_step : forall s, shape_once_life_runs s -> shape_once_life_runs (step s).
Proof. intros s (G&R). split; [apply shape_once_life_step; auto|apply RW_step; auto]. Qed.

Theorem runs_reach : forall p m n,
  let s := steps n (init p m) in wf_runs (log s) /\ forall c, rlc c (log s) = act s c.
Proof.
  intros. assert (G : shape_once_life_runs (steps n (init p m))).
  { apply (inv_steps shape_once_life_runs shape_once_life_runs_step). split; [split; [split; [apply shape_init|apply once_init]|apply life_init]|].
    split; cbn; auto. }
  apply G.
Qed.

Lemma wf_runs_app : forall a b, wf_runs (a ++ b) -> wf_runs b.
Proof. induction a as [|e a IH]; intros b W; auto. apply IH. destruct e; cbn in W; tauto. Qed.

(* C05 "never resumed while it is already running", and never after its body finished, read off any log that satisfies
   wf_runs: where `ERun c` stands (log = later ++ ERun c :: earlier, newest first), c was not running according to the
   earlier events (it had never run or its last Run was followed by a Susp) and no `EFin c` had been logged *)
Lemma wf_runs_run : forall later c earlier, wf_runs (later ++ ERun c :: earlier) ->
  rlc c earlier = 0 /\ nev (is_fin c) earlier = 0.
Proof. intros later c earlier W. apply wf_runs_app in W. cbn in W. tauto. Qed.

(* dually every Susp c / Fin c is logged while c runs *)
Theorem stops_only_while_running : forall p m n later c earlier,
  (log (steps n (init p m)) = later ++ ESusp c :: earlier \/ exists r, log (steps n (init p m)) = later ++ EFin c r :: earlier) ->
  rlc c earlier = 1.
Proof.
  intros p m n later c earlier E. destruct (runs_reach p m n) as (W&_).
  destruct E as [E|(r&E)]; rewrite E in W; apply wf_runs_app in W; cbn in W; tauto.
Qed.
