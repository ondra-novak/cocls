(* PoolProofs.v — invariants of the thread-pool model for every pool size, every client program, every
   job body and every schedule: InvA where the closures are, InvB basic safety, InvU joins and destruction, each shown
   to survive every code path of a step (`path`); then what C11 asks, for every state that has the three, and that the
   scheduler `run_sched` only visits such states. *)
From Cocls Require Import Base BaseProofs PoolDefs.
Require Import Lia.
Local Open Scope nat_scope.

Definition T (s : st) (i : nat) : option pc := nth_error (thrs s) i.
Definition step (s : st) (i : nat) : st := fst (fst (tstep s i)).
Definition cstep (s : st) (i : nat) : st := fst (fst (core s i)).

Inductive reachable (ops : list (list Z)) : st -> Prop :=
| r_init : reachable ops (init ops)
| r_step s i : reachable ops s -> enabled s i = true -> reachable ops (step s i).

Fixpoint cnt (c : nat) (l : list nat) : nat :=
  match l with [] => 0 | x :: r => (if Nat.eqb c x then 1 else 0) + cnt c r end.
Definition qof (c : nat) (p : pc) : nat := match p with Join _ q _ _ => cnt c q | SWait _ q _ => cnt c q | _ => 0 end.
Fixpoint sumq (c : nat) (l : list pc) : nat := match l with [] => 0 | p :: r => qof c p + sumq c r end.
(* where closure c is: invoked + destroyed un-run + queued + swapped out by a stop() in progress *)
Definition tot (s : st) (c : nat) : nat := G cran 0 s c + G cdrop 0 s c + cnt c (queue s) + sumq c (thrs s).
Arguments cnt : simpl never.
Arguments sumq : simpl never.
Arguments tot : simpl never.

Lemma cnt_nil c : cnt c [] = 0. Proof. reflexivity. Qed.
Lemma cnt_cons c x r : cnt c (x :: r) = (if Nat.eqb c x then 1 else 0) + cnt c r. Proof. reflexivity. Qed.
Lemma cnt_app c a b : cnt c (a ++ b) = cnt c a + cnt c b.
Proof. induction a as [|x a IH]; [reflexivity|]. cbn [app]. rewrite !cnt_cons, IH. lia. Qed.
Lemma sumq_nil c : sumq c [] = 0. Proof. reflexivity. Qed.
Lemma sumq_cons c p r : sumq c (p :: r) = qof c p + sumq c r. Proof. reflexivity. Qed.
Lemma sumq_app c a b : sumq c (a ++ b) = sumq c a + sumq c b.
Proof. induction a as [|x a IH]; [reflexivity|]. cbn [app]. rewrite !sumq_cons, IH. lia. Qed.

Lemma sumq_set_nth c l : forall i p old, nth_error l i = Some old ->
  sumq c (set_nth l i p) + qof c old = sumq c l + qof c p.
Proof.
  induction l as [|x l IH]; intros [|i] p old H; cbn [nth_error] in H; try discriminate.
  - inversion H; subst. cbn [set_nth]. rewrite !sumq_cons. lia.
  - cbn [set_nth]. rewrite !sumq_cons. specialize (IH i p old H). lia.
Qed.

Lemma T_with_thr s i p j : i < length (thrs s) ->
  T (with_thr s i p) j = if Nat.eqb i j then Some p else T s j.
Proof.
  intros L. unfold T, with_thr. cbn [thrs]. destruct (Nat.eqb_spec i j) as [E|E].
  - subst. apply nth_error_set_nth_same. exact L.
  - apply nth_error_set_nth_other. exact E.
Qed.
Lemma T_lt s i p : T s i = Some p -> i < length (thrs s).
Proof. unfold T. intros H. apply nth_error_Some. congruence. Qed.

Lemma wake_frame {A} (f : st -> A) s i :
  (forall x n, f (with_tokens x n) = f x) -> (forall x w, f (with_woken x w) = f x) -> f (wake s i) = f s.
Proof. intros F1 F2. unfold wake. destruct (is_woken s i); auto. Qed.

Definition in_stop (p : pc) : bool := match p with Join _ _ _ _ | SWait _ _ _ | SFin _ => true | _ => false end.

(* the thread found its own entry in _threads, detached it and reset _current *)
Definition det_after (a : after) : bool := match a with AWorker true _ => true | _ => false end.
Definition det_of (p : pc) : bool := match p with Join _ _ _ a | SWait _ _ a | SFin a => det_after a | _ => false end.
Definition stopper (p : pc) : bool := match p with Join _ _ _ _ | SFin _ => true | _ => false end.
Definition after_of (p : pc) : option after := match p with Join _ _ _ a | SWait _ _ a | SFin a => Some a | _ => None end.
Definition dtor_phase (p : pc) : bool :=
  match p with CDtor => true | _ => match after_of p with Some ADtor => true | _ => false end end.
Definition dtor_pc (p : pc) : bool := match p with CXWait => true | _ => dtor_phase p end.
Definition fin_pc (t : nat) (first : bool) (a : after) : pc := if first then SFin a else pc_after t a.
Definition is_dtor (a : after) : bool := match a with ADtor => true | _ => false end.

(* where thread i can stand after an operation other than stop(): awake, not finished; only thread 0 waits for the
   others and runs the destructor *)
Definition ordinary (i : nat) (p : pc) : bool :=
  match p with
  | CAt _ | CDtor | WIdle | WSub _ _ _ | WHop _ _ | WPeek _ _ | WStop _ | WQry _ _ | WWait _ _ => true
  | CXWait => Nat.eqb i 0
  | CDone => negb (Nat.eqb i 0)
  | _ => false
  end.
Definition goes_on (i : nat) (old p : pc) : Prop := ordinary i p = true /\ is_client p = is_client old.

Lemma next_client_on i r old : is_client old = true -> goes_on i old (next_client i r) /\ next_client i r <> CDtor.
Proof.
  intros C. unfold goes_on, next_client. rewrite C.
  destruct r; [destruct (Nat.eqb i 0) eqn:E|]; cbn; rewrite ?E; repeat split; discriminate.
Qed.
Lemma job_next_on i r old : is_client old = false -> goes_on i old (job_next r) /\ job_next r <> CDtor.
Proof. intros C. unfold goes_on. rewrite C. destruct r as [|[] r]; repeat split; discriminate. Qed.

Lemma ordinary_plain i p : ordinary i p = true -> in_stop p = false.
Proof. destruct p; try reflexivity; discriminate. Qed.
Lemma plain_det p : in_stop p = false -> det_of p = false.
Proof. destruct p; cbn; congruence. Qed.
Lemma plain_q c p : in_stop p = false -> qof c p = 0.
Proof. destruct p; try reflexivity; discriminate. Qed.

Lemma next_client_client i r : is_client (next_client i r) = true.
Proof. unfold next_client. destruct r; [destruct (Nat.eqb i 0)|]; reflexivity. Qed.
Lemma next_client_plain i r : in_stop (next_client i r) = false /\ next_client i r <> WExit /\
  (i = 0 -> next_client i r <> CDone).
Proof. unfold next_client. destruct r; [destruct (Nat.eqb_spec i 0)|]; repeat split; try discriminate; intros; try discriminate; lia. Qed.
Lemma job_next_plain r : in_stop (job_next r) = false /\ job_next r <> WExit /\ job_next r <> CDone /\ is_client (job_next r) = false.
Proof. destruct r as [|[] r]; repeat split; discriminate. Qed.
Lemma pc_after_class t a : is_client (pc_after t a) = is_client_after a.
Proof. destruct a as [r| |[|] r]; cbn [pc_after is_client_after]; try reflexivity; [apply next_client_client|apply job_next_plain]. Qed.
Lemma pc_after_plain t a : in_stop (pc_after t a) = false.
Proof. destruct a as [r| |[|] r]; cbn [pc_after]; try reflexivity; [apply next_client_plain|apply job_next_plain]. Qed.
Lemma pc_after_attached t a : det_after a = false -> pc_after t a <> WExit.
Proof.
  destruct a as [r| |[|] r]; cbn [pc_after det_after]; try discriminate; intros _;
    [apply next_client_plain|apply job_next_plain].
Qed.
Lemma fin_pc_class t f a : is_client (fin_pc t f a) = is_client_after a.
Proof. destruct f; cbn [fin_pc is_client]; [reflexivity|apply pc_after_class]. Qed.

(* `core` read backwards: an enabled step of thread i standing at `old` takes one of eight paths, each one of the
   model's functions applied to s or to s after a small update.  The invariants are proved per path.  (By b_swait the
   lists of `SWait l q a` are always []: a stop() only waits for another once _exit has emptied _threads and queue.) *)

Inductive moves (s : st) (i : nat) : pc -> pc -> Prop :=
| m_nil : moves s i (CAt []) (next_client i [])
| m_wait l r : moves s i (CAt (OWait l :: r)) (next_client i r)
| m_xwait : xwait_ok s = true -> moves s i CXWait CDtor
| m_peek l r : moves s i (WPeek l r) (if exit_ s then job_next r else WHop l r)
| m_qry q r : moves s i (WQry q r) (job_next r)
| m_jwait l r : moves s i (WWait l r) (job_next r)
| m_join w0 w1 l q f a : T s w0 = Some WExit -> moves s i (Join (w0 :: w1 :: l) q f a) (Join (w1 :: l) q f a).
Inductive enqs (i : nat) : pc -> nat -> ckind -> body -> pc -> Prop :=
| e_client l k b r : enqs i (CAt (OSub l k b :: r)) l k b (next_client i r)
| e_job l k r : enqs i (WSub l k r) l k [] (job_next r)
| e_hop l r : enqs i (WHop l r) l KHop r WIdle.
Inductive stops : pc -> after -> Prop :=
| s_client r : stops (CAt (OStop :: r)) (AClient r)
| s_dtor : stops CDtor ADtor
| s_job r : stops (WStop r) (AWorker false r).
Inductive works (s : st) (i : nat) : pc -> st -> Prop :=
| w_enter r : works s i (CAt (OWorker :: r)) (with_ext s i r)
| w_idle : works s i WIdle s
| w_woken : works s i WSleep (wake s i).

Inductive path (s : st) (i : nat) : pc -> st -> Prop :=
| p_move old p : moves s i old p -> path s i old (with_thr s i p)
| p_enq old l k b p : enqs i old l k b p -> path s i old (with_thr (fst (enqueue s i l k b)) i p)
| p_stop old a : stops old a -> path s i old (fst (stop_mark s i a))
| p_work old s0 : works s i old s0 -> path s i old (fst (worker_cs s0 i))
| p_joined l q f a : (forall w, In w l -> T s w = Some WExit) ->
    path s i (Join l q f a) (fst (after_wait s i [] q f a))
| p_stopped l q a : stopped s = true -> path s i (SWait l q a) (fst (after_wait (wake s i) i l q false a))
| p_again l q a : stopped s = false -> path s i (SWait l q a) (wake s i)
| p_fin a : path s i (SFin a) (fst (after_wait (finished s (sleeper_ids s)) i [] [] false a)).

Lemma returned_as_aw s0 t a : fst (returned s0 t a) = fst (after_wait s0 t [] [] false a).
Proof. unfold after_wait, stop_end, drop_all. cbn [fold_left]. destruct (returned s0 t a). reflexivity. Qed.

Lemma is_wexit_T s w : is_wexit s w = true -> T s w = Some WExit.
Proof. unfold is_wexit, T. destruct (nth_error (thrs s) w) as [[]|]; try discriminate. reflexivity. Qed.

Lemma cstep_path s i : enabled s i = true -> exists old, T s i = Some old /\ path s i old (cstep s i).
Proof.
  unfold enabled, cstep, core, T. destruct (nth_error (thrs s) i) as [old|]; [|discriminate].
  intros EN. exists old. split; [reflexivity|].
  destruct old as [[|[l k b| | |wl] r]| | | | | |l k r|l r|l r|r|q r|wl r| |[|w0 [|w1 l]] q f a|l q a|a];
    try discriminate EN.
  - apply p_move, m_nil.
  - rewrite (surjective_pairing (enqueue s i l k b)). apply p_enq, e_client.
  - rewrite (surjective_pairing (stop_mark s i (AClient r))). apply p_stop, s_client.
  - rewrite (surjective_pairing (worker_cs (with_ext s i r) i)). apply p_work, w_enter.
  - apply p_move, m_wait.
  - apply p_move, m_xwait, EN.
  - rewrite (surjective_pairing (stop_mark s i ADtor)). apply p_stop, s_dtor.
  - rewrite (surjective_pairing (worker_cs s i)). apply p_work, w_idle.
  - rewrite (surjective_pairing (worker_cs (wake s i) i)). apply p_work, w_woken.
  - rewrite (surjective_pairing (enqueue s i l k [])). apply p_enq, e_job.
  - rewrite (surjective_pairing (enqueue s i l KHop r)). apply p_enq, e_hop.
  - apply p_move, m_peek.
  - rewrite (surjective_pairing (stop_mark s i (AWorker false r))). apply p_stop, s_job.
  - apply p_move, m_qry.
  - apply p_move, m_jwait.
  - rewrite (surjective_pairing (stop_end s i q f a)). apply (p_joined s i []). intros w [].
  - rewrite (surjective_pairing (stop_end s i q f a)). apply (p_joined s i [w0]).
    intros w [<-|[]]. apply is_wexit_T, EN.
  - apply p_move, m_join, is_wexit_T, EN.
  - destruct (stopped s) eqn:ST; [|apply p_again, ST].
    rewrite (surjective_pairing (after_wait (wake s i) i l q false a)). apply p_stopped, ST.
  - rewrite (surjective_pairing (returned _ i a)). cbn [fst]. rewrite returned_as_aw. apply p_fin.
Qed.

Definition at_op (p : pc) : Prop := in_stop p = false /\ is_sleep p = false.

Lemma moves_cases s i old p : moves s i old p ->
  at_op old /\ goes_on i old p /\ (p = CDtor -> old = CXWait /\ xwait_ok s = true) \/
  exists w l q f a, old = Join (w :: l) q f a /\ p = Join l q f a /\ l <> [] /\ T s w = Some WExit.
Proof.
  assert (ON : forall o p', goes_on i o p' /\ p' <> CDtor -> goes_on i o p' /\ (p' = CDtor -> o = CXWait /\ xwait_ok s = true)).
  { intros o p' [G N]. split; [exact G|]. intros E. contradiction. }
  intros [|l r|X|l r|q r|l r|w0 w1 l q f a W]; [left; (split; [split; reflexivity|])..|right].
  - apply ON, next_client_on. reflexivity.
  - apply ON, next_client_on. reflexivity.
  - repeat split; auto.
  - apply ON. destruct (exit_ s); [apply job_next_on; reflexivity|repeat split; discriminate].
  - apply ON, job_next_on. reflexivity.
  - apply ON, job_next_on. reflexivity.
  - exists w0, (w1 :: l), q, f, a. repeat split; [discriminate|exact W].
Qed.

Lemma enqs_on i old l k b p : enqs i old l k b p -> (goes_on i old p /\ p <> CDtor) /\ at_op old.
Proof.
  intros [l0 k0 b0 r|l0 k0 r|l0 r]; (split; [|split; reflexivity]).
  - apply next_client_on. reflexivity.
  - apply job_next_on. reflexivity.
  - repeat split; discriminate.
Qed.

Lemma stops_plain old a : stops old a -> at_op old /\ is_client old = is_client_after a.
Proof. intros []; repeat split; reflexivity. Qed.

Lemma works_thrs s i old s0 : works s i old s0 -> thrs s0 = thrs s /\ in_stop old = false.
Proof. intros []; split; try reflexivity. unfold wake. destruct (is_woken s i); reflexivity. Qed.

Lemma G_set {A} (f : clo -> A) d s c0 y c :
  G f d (with_clos s (set_nth (clos s) c0 y)) c =
  if Nat.eqb c0 c then (if Nat.ltb c0 (length (clos s)) then f y else d) else G f d s c.
Proof.
  unfold G, with_clos. cbn [clos]. destruct (Nat.eqb_spec c0 c) as [E|E].
  - subst. destruct (Nat.ltb_spec c (length (clos s))) as [L|L].
    + rewrite nth_error_set_nth_same by exact L. reflexivity.
    + assert (H : nth_error (set_nth (clos s) c y) c = None).
      { apply nth_error_None. rewrite set_nth_length. exact L. }
      rewrite H. reflexivity.
  - rewrite nth_error_set_nth_other by exact E. reflexivity.
Qed.

Lemma G_app {A} (f : clo -> A) d s y c :
  G f d (with_clos s (clos s ++ [y])) c =
  if Nat.eqb c (length (clos s)) then f y else G f d s c.
Proof.
  unfold G, with_clos. cbn [clos]. destruct (Nat.eqb_spec c (length (clos s))) as [E|E].
  - subst. rewrite nth_error_app2 by lia. rewrite Nat.sub_diag. reflexivity.
  - destruct (Nat.ltb_spec c (length (clos s))) as [L|L].
    + rewrite nth_error_app1 by exact L. reflexivity.
    + assert (H : nth_error (clos s ++ [y]) c = None).
      { apply nth_error_None. rewrite app_length. cbn [length]. lia. }
      assert (H2 : nth_error (clos s) c = None) by (apply nth_error_None; lia).
      rewrite H, H2. reflexivity.
Qed.

Lemma G_some {A} (f : clo -> A) d s c x : nth_error (clos s) c = Some x -> G f d s c = f x.
Proof. unfold G. intros ->. reflexivity. Qed.
Lemma G_none {A} (f : clo -> A) d s c : length (clos s) <= c -> G f d s c = d.
Proof. unfold G. intros L. apply nth_error_None in L. rewrite L. reflexivity. Qed.

Lemma G_run {A} (f : clo -> A) d s r c0 x y c : nth_error (clos s) c0 = Some x ->
  G f d (with_clos (with_queue s r) (set_nth (clos s) c0 y)) c = if Nat.eqb c0 c then f y else G f d s c.
Proof.
  intros E. change (G f d (with_clos s (set_nth (clos s) c0 y)) c = if Nat.eqb c0 c then f y else G f d s c).
  assert (L : Nat.ltb c0 (length (clos s)) = true) by (apply Nat.ltb_lt, nth_error_Some; congruence).
  rewrite G_set, L. reflexivity.
Qed.

(* the parts of the state a closure-store update leaves alone *)
Definition shell_eq (s s' : st) : Prop :=
  queue s' = queue s /\ exit_ s' = exit_ s /\ threads s' = threads s /\ tokens s' = tokens s /\
  destroyed s' = destroyed s /\ nclients s' = nclients s /\ thrs s' = thrs s /\ length (clos s') = length (clos s) /\
  stopped s' = stopped s /\ woken s' = woken s /\ cont s' = cont s /\ extw s' = extw s /\ uad s' = uad s.

Lemma shell_eq_refl s : shell_eq s s. Proof. repeat split. Qed.
Lemma shell_eq_trans a b c : shell_eq a b -> shell_eq b c -> shell_eq a c.
Proof. unfold shell_eq. intuition congruence. Qed.

(* after dropping the ids in l (those that exist) *)
Definition cntv (s : st) (c : nat) (l : list nat) : nat := if Nat.ltb c (length (clos s)) then cnt c l else 0.
Definition kept {A} (f : clo -> A) : Prop := forall x, f (drop_clo x) = f x.
Definition bumped (f : clo -> nat) : Prop := forall x, f (drop_clo x) = S (f x).

Record drop_rel (s s' : st) (l : list nat) : Prop := {
  dr_shell : shell_eq s s';
  dr_keep : forall A (f : clo -> A) d c, kept f -> G f d s' c = G f d s c;
  dr_bump : forall f c, bumped f -> G f 0 s' c = G f 0 s c + cntv s c l
}.

Lemma drop1_rel t s e c0 : drop_rel s (fst (drop1 t (s, e) c0)) [c0].
Proof.
  unfold drop1. cbn [fst snd].
  destruct (nth_error (clos s) c0) as [x|] eqn:E; cbn [fst].
  - assert (L : c0 < length (clos s)) by (apply nth_error_Some; congruence).
    assert (Lb : Nat.ltb c0 (length (clos s)) = true) by (apply Nat.ltb_lt; exact L).
    constructor.
    + unfold shell_eq, with_clos. cbn. rewrite set_nth_length. repeat split.
    + intros A f d c K. rewrite G_set, Lb. destruct (Nat.eqb_spec c0 c); [subst; rewrite (G_some _ _ _ _ _ E), K|]; reflexivity.
    + intros f c Bf. rewrite G_set, Lb. unfold cntv. rewrite cnt_cons, cnt_nil.
      destruct (Nat.eqb_spec c0 c) as [Q|Q].
      * subst. rewrite (G_some _ _ _ _ _ E), Lb, Nat.eqb_refl, Bf. lia.
      * assert (Q2 : Nat.eqb c c0 = false) by (apply Nat.eqb_neq; congruence). rewrite Q2.
        destruct (Nat.ltb c (length (clos s))); lia.
  - assert (L : length (clos s) <= c0) by (apply nth_error_None; exact E).
    constructor; [repeat split|reflexivity|]. intros f c _. unfold cntv. rewrite cnt_cons, cnt_nil.
    destruct (Nat.ltb_spec c (length (clos s))); [|lia].
    assert (Q2 : Nat.eqb c c0 = false) by (apply Nat.eqb_neq; lia). rewrite Q2. lia.
Qed.

Lemma drop_rel_app s s1 s2 a b : drop_rel s s1 a -> drop_rel s1 s2 b -> drop_rel s s2 (a ++ b).
Proof.
  intros [h1 k1 b1] [h2 k2 b2].
  assert (LEN : length (clos s1) = length (clos s)) by (unfold shell_eq in h1; tauto).
  constructor.
  - unfold shell_eq in *. intuition congruence.
  - intros A f d c K. rewrite k2, k1; auto.
  - intros f c Bf. rewrite b2, b1 by exact Bf. unfold cntv. rewrite LEN, cnt_app.
    destruct (Nat.ltb c (length (clos s))); lia.
Qed.

Lemma drop_rel_nil s : drop_rel s s [].
Proof.
  constructor; [repeat split|reflexivity|]. intros f c _. unfold cntv. rewrite cnt_nil.
  destruct (Nat.ltb c (length (clos s))); lia.
Qed.

Lemma fold_drop_rel t l : forall s e, drop_rel s (fst (fold_left (drop1 t) l (s, e))) l.
Proof.
  induction l as [|c0 l IH]; intros s e.
  - cbn [fold_left fst]. apply drop_rel_nil.
  - cbn [fold_left]. pose proof (drop1_rel t s e c0) as H1.
    destruct (drop1 t (s, e) c0) as [s1 e1] eqn:E. cbn [fst] in H1.
    change (c0 :: l) with ([c0] ++ l). eapply drop_rel_app; [exact H1|apply IH].
Qed.

Lemma drop_all_rel t s l : drop_rel s (fst (drop_all t s l)) l.
Proof. unfold drop_all. apply fold_drop_rel. Qed.

Lemma tot_with_thr s i p old c : T s i = Some old ->
  tot (with_thr s i p) c + qof c old = tot s c + qof c p.
Proof.
  intros H. unfold tot, with_thr, G. cbn [clos queue thrs].
  pose proof (sumq_set_nth c (thrs s) i p old H). lia.
Qed.

Lemma sumq_ge c l i old : nth_error l i = Some old -> qof c old <= sumq c l.
Proof. intros H. pose proof (sumq_set_nth c l i CDone old H). cbn [qof] in H0. lia. Qed.

Lemma tot_drop s s' l c : drop_rel s s' l -> tot s' c = tot s c + cntv s c l.
Proof.
  intros [h k b]. destruct h as (hq & _ & _ & _ & _ & _ & ht & _).
  unfold tot. rewrite (k _ cran), (b cdrop), hq, ht by (intro; reflexivity). lia.
Qed.

Lemma cntv_valid s c l : (length (clos s) <= c -> cnt c l = 0) -> cntv s c l = cnt c l.
Proof. unfold cntv. intros H. destruct (Nat.ltb_spec c (length (clos s))); [reflexivity|]. symmetry. auto. Qed.

Lemma cntv_single s1 c c0 : length (clos s1) = S c0 -> cntv s1 c [c0] = if Nat.eqb c c0 then 1 else 0.
Proof.
  intros L. unfold cntv. rewrite L, cnt_cons, cnt_nil.
  destruct (Nat.eqb_spec c c0); [subst; assert (H : Nat.ltb c0 (S c0) = true) by (apply Nat.ltb_lt; lia); rewrite H; lia|].
  destruct (Nat.ltb c (S c0)); lia.
Qed.

Lemma ltb_S_cases c n : Nat.ltb c (S n) = if Nat.eqb c n then true else Nat.ltb c n.
Proof.
  destruct (Nat.eqb_spec c n); [subst; apply Nat.ltb_lt; lia|].
  destruct (Nat.ltb_spec c n); [apply Nat.ltb_lt; lia|apply Nat.ltb_ge; lia].
Qed.

Definition stop_list (s : st) (t : nat) : list nat := filter (fun w => negb (Nat.eqb w t)) (threads s).
Definition stop_after (s : st) (t : nat) (a : after) : after :=
  match a with AWorker _ r => AWorker (existsb (Nat.eqb t) (threads s)) r | _ => a end.

Lemma stop_after_same s t a : is_client_after (stop_after s t a) = is_client_after a /\
  is_dtor (stop_after s t a) = is_dtor a /\ is_cur (stop_after s t a) = is_cur a.
Proof. destruct a; repeat split. Qed.

(* the caller waits for the stop() in progress, or goes on to the join loop *)
Lemma stop_mark_cases s t a (P : st -> Prop) :
  (exit_ s = true -> is_cur a = false -> stopped s = false ->
   P (with_thr (marked s (sleeper_ids s)) t (SWait (stop_list s t) (queue s) (stop_after s t a)))) ->
  ((exit_ s = true -> is_cur a = false -> stopped s = true) ->
   P (fst (after_wait (marked s (sleeper_ids s)) t (stop_list s t) (queue s) (negb (exit_ s)) (stop_after s t a)))) ->
  P (fst (stop_mark s t a)).
Proof.
  intros W J. unfold stop_mark. fold (stop_list s t) (stop_after s t a).
  destruct (exit_ s), (is_cur a), (stopped s); cbn [negb andb fst]; auto; apply J; intros; congruence.
Qed.

Definition env_eq (s s' : st) : Prop :=
  exit_ s' = exit_ s /\ stopped s' = stopped s /\ threads s' = threads s /\ tokens s' = tokens s /\ woken s' = woken s /\
  nclients s' = nclients s /\ cont s' = cont s /\ extw s' = extw s /\ uad s' = uad s.
Definition gkeep (s s' : st) : Prop :=
  (forall c, G cb [] s' c = G cb [] s c) /\ (forall c, G cran 0 s' c = G cran 0 s c) /\
  (forall c, G cran_on 0 s' c = G cran_on 0 s c) /\ length (clos s') = length (clos s).

Lemma drop_env t s l : env_eq s (fst (drop_all t s l)) /\ gkeep s (fst (drop_all t s l)) /\
  queue (fst (drop_all t s l)) = queue s /\ destroyed (fst (drop_all t s l)) = destroyed s /\
  thrs (fst (drop_all t s l)) = thrs s.
Proof.
  destruct (drop_all_rel t s l) as [h k _].
  destruct h as (hq & he & ht & hk & hd & hn & hth & hl & hs & hw & hc & hx & hu).
  unfold env_eq, gkeep. repeat split; auto; intros c; apply k; intro; reflexivity.
Qed.

Lemma returned_shell s t a : forall s', s' = fst (returned s t a) ->
  env_eq s s' /\ gkeep s s' /\
  queue s' = (if is_dtor a then [] else queue s) /\
  destroyed s' = (if is_dtor a then true else destroyed s) /\
  thrs s' = set_nth (thrs s) t (pc_after t a).
Proof.
  intros s' ->. unfold returned.
  destruct a as [prog| |d r].
  - cbn [fst is_dtor]. unfold env_eq, gkeep, with_thr. cbn. repeat split; auto.
  - destruct (drop_env t s (queue s)) as (E & K & Q & D & Th).
    destruct (drop_all t s (queue s)) as [s1 e]. cbn [fst] in *. cbn [is_dtor pc_after].
    unfold env_eq, gkeep, with_thr, dead in *. cbn [queue exit_ stopped threads tokens woken destroyed nclients clos thrs cont extw uad].
    rewrite Th. unfold G in *. cbn [clos]. intuition.
  - cbn [fst is_dtor]. unfold env_eq, gkeep, with_thr. cbn. repeat split; auto.
Qed.

Lemma env_trans a b c : env_eq a b -> env_eq b c -> env_eq a c.
Proof. unfold env_eq. intuition congruence. Qed.
Lemma gkeep_trans a b c : gkeep a b -> gkeep b c -> gkeep a c.
Proof.
  unfold gkeep. intros (x1 & x2 & x3 & x4) (y1 & y2 & y3 & y4). split; [|split; [|split]].
  - intros. rewrite y1, x1. reflexivity.
  - intros. rewrite y2, x2. reflexivity.
  - intros. rewrite y3, x3. reflexivity.
  - congruence.
Qed.

Lemma after_wait_shell s t l q first a : forall s', s' = fst (after_wait s t l q first a) ->
  env_eq s s' /\ gkeep s s' /\
  queue s' = (if (match l with [] => true | _ => false end) && negb first && is_dtor a then [] else queue s) /\
  destroyed s' = (if (match l with [] => true | _ => false end) && negb first && is_dtor a then true else destroyed s) /\
  thrs s' = set_nth (thrs s) t (match l with [] => fin_pc t first a | _ => Join l q first a end).
Proof.
  intros s' ->. unfold after_wait. destruct l as [|w l];
    [|cbn [fst andb]; unfold env_eq, gkeep, with_thr; cbn; repeat split; auto].
  unfold stop_end.
  destruct (drop_env t s q) as (E & K & Q & D & Th).
  destruct (drop_all t s q) as [s1 e]. cbn [fst] in *.
  destruct first; cbn [negb andb fin_pc].
  - cbn [fst]. unfold env_eq, gkeep, with_thr in *. cbn [queue exit_ stopped threads tokens woken destroyed nclients clos thrs cont extw uad].
    rewrite Th. unfold G in *. cbn [clos]. intuition.
  - destruct (returned_shell s1 t a _ eq_refl) as (E2 & K2 & Q2 & D2 & Th2).
    destruct (returned s1 t a) as [s2 e2]. cbn [fst] in *.
    split; [eapply env_trans; eassumption|]. split; [eapply gkeep_trans; eassumption|].
    rewrite Q2, D2, Th2, Q, D, Th. auto.
Qed.

Lemma enqueue_shell s t l k b : forall s', s' = fst (enqueue s t l k b) ->
  queue s' = (if exit_ s || throws k then queue s else queue s ++ [length (clos s)]) /\ exit_ s' = exit_ s /\ stopped s' = stopped s /\
  threads s' = threads s /\
  tokens s' = (if exit_ s || throws k then tokens s else if Nat.ltb (tokens s + length (woken s)) (sleepers s) then S (tokens s) else tokens s) /\
  woken s' = woken s /\ destroyed s' = destroyed s /\ nclients s' = nclients s /\ thrs s' = thrs s /\
  cont s' = cont s /\ extw s' = extw s /\ uad s' = uad s /\ length (clos s') = S (length (clos s)) /\
  (forall c, G cb [] s' c = if Nat.eqb c (length (clos s)) then b else G cb [] s c) /\
  (forall c, G cran 0 s' c = if Nat.eqb c (length (clos s)) then 0 else G cran 0 s c) /\
  (forall c, G cran_on 0 s' c = if Nat.eqb c (length (clos s)) then 0 else G cran_on 0 s c).
Proof.
  intros s' ->. unfold enqueue.
  set (s1 := with_clos s (clos s ++ [mkClo l k b 0 0 0 0])).
  assert (L1 : length (clos s1) = S (length (clos s))) by (unfold s1, with_clos; cbn [clos]; rewrite app_length; cbn; lia).
  destruct (exit_ s || throws k) eqn:EX.
  - pose proof (drop1_rel t s1 [] (length (clos s))) as D.
    destruct D as [h kp _]. destruct h as (hq & he & ht & hk & hd & hn & hth & hl & hs & hw & hc & hx & hu).
    rewrite hq, he, ht, hk, hd, hn, hth, hl, hs, hw, hc, hx, hu, L1.
    unfold s1 at 1 2 3 4 5 6 7 8 9 10 11 12. cbn [with_clos queue exit_ stopped threads tokens woken destroyed nclients thrs cont extw uad].
    repeat split; auto; intros c; rewrite kp by (intro; reflexivity); unfold s1; rewrite G_app; reflexivity.
  - cbn [fst]. unfold with_tokens, with_queue. cbn [queue exit_ stopped threads tokens woken destroyed nclients thrs cont extw uad clos].
    repeat split; auto; intros c; unfold G at 1; cbn [clos];
      [fold (G cb [] s1 c)|fold (G cran 0 s1 c)|fold (G cran_on 0 s1 c)]; unfold s1; rewrite G_app; reflexivity.
Qed.

(* Invariant A: every closure is in exactly one place; a cancellation per un-run destruction. *)
Definition CancOK (s : st) : Prop := forall c, G ccanc 0 s c = G cdrop 0 s c.
Definition TotOK (s : st) : Prop := forall c, tot s c = if Nat.ltb c (length (clos s)) then 1 else 0.
Record InvA (s : st) : Prop := { a_tot : TotOK s; a_canc : CancOK s }.

Lemma canc_drop s s' l : drop_rel s s' l -> CancOK s -> CancOK s'.
Proof. intros [h k b] C c. rewrite !b, (C c) by (intro; reflexivity). reflexivity. Qed.
Lemma tot_ext s s' c : clos s' = clos s -> thrs s' = thrs s -> tot s' c + cnt c (queue s) = tot s c + cnt c (queue s').
Proof. intros Ec Et. unfold tot, G. rewrite Ec, Et. lia. Qed.

Lemma inva_ext s s' : clos s' = clos s -> queue s' = queue s -> thrs s' = thrs s -> InvA s -> InvA s'.
Proof.
  intros Ec Eq Et [I1 I2]. constructor.
  - intros c. pose proof (tot_ext s s' c Ec Et) as E. rewrite Eq, Ec, <- (I1 c) in *. lia.
  - intros c. unfold G. rewrite Ec. apply I2.
Qed.
Lemma inva_wake s i : InvA s -> InvA (wake s i).
Proof. apply inva_ext; apply wake_frame; reflexivity. Qed.

Lemma sumq_zero c l : (forall p, In p l -> in_stop p = false) -> sumq c l = 0.
Proof.
  induction l as [|p l IH]; intros F; [reflexivity|]. rewrite sumq_cons, IH, plain_q; auto.
  - apply F. left. reflexivity.
  - intros; apply F; right; auto.
Qed.

Lemma inva_init ops : InvA (init ops).
Proof.
  unfold init. constructor.
  - intros c. unfold tot, G. cbn [clos queue thrs length]. rewrite cnt_nil, sumq_zero.
    + destruct c; reflexivity.
    + intros p Hin. apply in_app_or in Hin. destruct Hin as [Hin|Hin].
      * apply in_map_iff in Hin. destruct Hin as ([i pr] & <- & _).
        apply (ordinary_plain i), (next_client_on i _ CDone eq_refl).
      * apply repeat_spec in Hin. subst. reflexivity.
  - intros c. unfold G. cbn [clos]. destruct c; reflexivity.
Qed.

Lemma inva_with_thr s i p old : InvA s -> T s i = Some old -> (forall c, qof c p = qof c old) -> InvA (with_thr s i p).
Proof.
  intros [I1 I2] H Q. constructor; [|exact I2].
  intros c. pose proof (tot_with_thr s i p old c H) as E. rewrite Q in E. change (clos (with_thr s i p)) with (clos s).
  rewrite <- I1. lia.
Qed.

(* the new closure starts with all counters 0, where every id not yet in use stands *)
Lemma inva_enqueue s t l k b : InvA s -> InvA (fst (enqueue s t l k b)).
Proof.
  intros [I1 I2]. unfold enqueue.
  set (y := mkClo l k b 0 0 0 0). set (c0 := length (clos s)). set (s1 := with_clos s (clos s ++ [y])).
  assert (LEN1 : length (clos s1) = S c0).
  { unfold s1, with_clos, c0. cbn [clos]. rewrite app_length. cbn [length]. lia. }
  assert (G1 : forall A (f : clo -> A) d c, f y = d -> G f d s1 c = G f d s c).
  { intros A f d c Y. unfold s1. rewrite G_app. destruct (Nat.eqb_spec c (length (clos s))) as [->|]; [|reflexivity].
    rewrite G_none by lia. exact Y. }
  assert (T1 : forall c, tot s1 c = tot s c) by (intros c; unfold tot; rewrite !G1 by reflexivity; reflexivity).
  assert (C1 : CancOK s1) by (intros c; rewrite !G1 by reflexivity; apply I2).
  assert (NEW : forall s2, (forall c, tot s2 c = tot s1 c + if Nat.eqb c c0 then 1 else 0) -> length (clos s2) = S c0 -> TotOK s2).
  { intros s2 E L c. rewrite E, T1, I1, L, ltb_S_cases. fold c0.
    destruct (Nat.eqb_spec c c0) as [->|]; [rewrite Nat.ltb_irrefl|]; lia. }
  destruct (exit_ s || throws k).
  - pose proof (drop1_rel t s1 [] c0) as D. constructor; [|exact (canc_drop _ _ _ D C1)].
    apply NEW; [intros c; rewrite (tot_drop _ _ _ c D); f_equal; apply (cntv_single s1 c c0 LEN1)|].
    rewrite <- LEN1. apply D.
  - cbn [fst]. set (s2 := with_tokens _ _). constructor; [|exact C1]. apply NEW; [|exact LEN1]. intros c.
    pose proof (tot_ext s1 s2 c eq_refl eq_refl) as E.
    cbn [queue s2 with_tokens with_queue] in E. rewrite cnt_app, cnt_cons, cnt_nil in E. change (queue s1) with (queue s) in E. lia.
Qed.

(* "pre-invariant" of a thread that has a list q in its hands, taken from its old pc or from the queue *)
Definition TotX (s : st) (q : list nat) (old : pc) : Prop :=
  forall c, tot s c + cnt c q = (if Nat.ltb c (length (clos s)) then 1 else 0) + qof c old.

Lemma totx_held s q old : InvA s -> (forall c, qof c old = cnt c q) -> TotX s q old.
Proof. intros I Q c. rewrite (a_tot s I c), Q. lia. Qed.

Lemma inva_put s t q p old : T s t = Some old -> TotX s q old -> CancOK s -> (forall c, qof c p = cnt c q) ->
  InvA (with_thr s t p).
Proof.
  intros H Ht C Q. constructor; [|exact C]. intros c. change (clos (with_thr s t p)) with (clos s).
  pose proof (tot_with_thr s t p old c H) as E. specialize (Ht c). rewrite Q in E. lia.
Qed.

Lemma totx_valid s t q old c : T s t = Some old -> TotX s q old -> length (clos s) <= c ->
  cnt c q = 0 /\ cnt c (queue s) = 0.
Proof.
  intros H Ht L. specialize (Ht c). apply Nat.ltb_ge in L. rewrite L in Ht.
  pose proof (sumq_ge c (thrs s) t old H). unfold tot in Ht. lia.
Qed.

Lemma totx_drop s s' t q old : T s t = Some old -> TotX s q old -> CancOK s -> drop_rel s s' q ->
  T s' t = Some old /\ TotX s' [] old /\ CancOK s'.
Proof.
  intros H Ht C D. pose proof (dr_shell _ _ _ D) as (_ & _ & _ & _ & _ & _ & ht & hl & _).
  split; [unfold T; rewrite ht; exact H|]. split; [|exact (canc_drop _ _ _ D C)].
  intros c. rewrite (tot_drop s s' q c D), (cntv_valid s c q), hl, cnt_nil; [specialize (Ht c); lia|].
  intros L. apply (totx_valid s t q old c H Ht L).
Qed.

Lemma inva_returned s t a old : T s t = Some old -> TotX s [] old -> CancOK s -> InvA (fst (returned s t a)).
Proof.
  intros H Ht C.
  assert (PLAIN : in_stop (pc_after t a) = false -> InvA (with_thr s t (pc_after t a))).
  { intros NS. apply (inva_put s t [] _ old H Ht C). intros c. apply plain_q, NS. }
  unfold returned. destruct a as [prog| |d r]; [apply PLAIN, (pc_after_plain t (AClient prog))| |apply PLAIN, (pc_after_plain t (AWorker d r))].
  pose proof (drop_all_rel t s (queue s)) as D. destruct (drop_all t s (queue s)) as [s2 e2]. cbn [fst] in *.
  pose proof (dr_shell _ _ _ D) as (hq & _ & _ & _ & _ & _ & ht & hl & _).
  apply (inva_put (dead s2) t [] CDone old); [unfold T; cbn [dead thrs]; rewrite ht; exact H| |exact (canc_drop _ _ _ D C)|reflexivity].
  intros c. pose proof (tot_ext s2 (dead s2) c eq_refl eq_refl) as E. cbn [queue dead] in E.
  rewrite hq, (tot_drop s s2 _ c D), (cntv_valid s c (queue s)) in E by (intros L; apply (totx_valid s t [] old c H Ht L)).
  change (clos (dead s2)) with (clos s2). rewrite hl. specialize (Ht c). rewrite cnt_nil in *. lia.
Qed.

Lemma inva_after_wait s t l q first a old : T s t = Some old -> TotX s q old -> CancOK s ->
  InvA (fst (after_wait s t l q first a)).
Proof.
  intros H Ht C. unfold after_wait. destruct l as [|w l]; [|apply (inva_put s t q _ old H Ht C); reflexivity].
  unfold stop_end. pose proof (drop_all_rel t s q) as D. destruct (drop_all t s q) as [s1 e]. cbn [fst] in D.
  destruct (totx_drop s s1 t q old H Ht C D) as (H1 & T1 & C1).
  destruct first; [apply (inva_put s1 t [] _ old H1 T1 C1); reflexivity|].
  pose proof (inva_returned s1 t a old H1 T1 C1) as R. destruct (returned s1 t a). exact R.
Qed.

Lemma inva_stop_mark s t a old : InvA s -> T s t = Some old -> in_stop old = false -> InvA (fst (stop_mark s t a)).
Proof.
  intros [I1 I2] H NS.
  assert (TX : TotX (marked s (sleeper_ids s)) (queue s) old).
  { intros c. pose proof (tot_ext s (marked s (sleeper_ids s)) c eq_refl eq_refl) as E. cbn [queue marked] in E.
    rewrite cnt_nil, (plain_q c old NS) in *. change (clos (marked s (sleeper_ids s))) with (clos s). rewrite <- (I1 c). lia. }
  apply stop_mark_cases; intros.
  - apply (inva_put (marked s (sleeper_ids s)) t (queue s) _ old H TX I2). reflexivity.
  - apply (inva_after_wait (marked s (sleeper_ids s)) t _ (queue s) _ _ old H TX I2).
Qed.

Lemma queue_valid s c : InvA s -> In c (queue s) -> c < length (clos s).
Proof.
  intros I Hin. destruct (Nat.ltb_spec c (length (clos s))) as [|L]; [assumption|].
  pose proof (a_tot s I c) as E. apply Nat.ltb_ge in L. rewrite L in E. unfold tot in E.
  assert (0 < cnt c (queue s)); [|lia].
  clear -Hin. induction (queue s) as [|x l IH]; [contradiction|]. rewrite cnt_cons.
  destruct Hin as [->|Hin]; [rewrite Nat.eqb_refl; lia|specialize (IH Hin); lia].
Qed.

Lemma inva_run_job s w c0 r old : InvA s -> queue s = c0 :: r -> T s w = Some old -> in_stop old = false ->
  InvA (fst (run_job (with_queue s r) w c0)).
Proof.
  intros I Q H NS. pose proof (queue_valid s c0 I) as L. rewrite Q in L. specialize (L (or_introl eq_refl)).
  destruct I as [I1 I2].
  unfold run_job. change (clos (with_queue s r)) with (clos s).
  destruct (nth_error (clos s) c0) as [x|] eqn:E; [|apply nth_error_None in E; lia].
  set (x' := mkClo (clbl x) (ck x) (cb x) (S (cran x)) w (cdrop x) (ccanc x)).
  set (s2 := with_clos (with_queue s r) (set_nth (clos s) c0 x')).
  assert (G2 : forall A (f : clo -> A) d c, G f d s2 c = if Nat.eqb c0 c then f x' else G f d s c).
  { intros A f d c. apply (G_run f d s r c0 x x' c E). }
  cbn [fst]. apply (inva_with_thr s2 w _ old); [|exact H|intros c; rewrite !plain_q; auto; apply job_next_plain].
  constructor.
  - intros c. unfold tot. rewrite !G2. change (queue s2) with r. change (thrs s2) with (thrs s).
    replace (length (clos s2)) with (length (clos s)) by (symmetry; apply set_nth_length).
    specialize (I1 c). unfold tot in I1. rewrite Q, cnt_cons, (Nat.eqb_sym c c0) in I1.
    destruct (Nat.eqb_spec c0 c) as [Q0|Q0]; [subst c; rewrite !(G_some _ _ _ _ _ E) in I1; cbn [x' cran cdrop]|]; lia.
  - intros c. rewrite !G2. specialize (I2 c).
    destruct (Nat.eqb_spec c0 c) as [Q0|Q0]; [subst c; rewrite !(G_some _ _ _ _ _ E) in I2|]; exact I2.
Qed.

Lemma inva_worker_cs s w old : InvA s -> T s w = Some old -> in_stop old = false -> InvA (fst (worker_cs s w)).
Proof.
  intros I H NS. unfold worker_cs, exit_pc.
  assert (PLAIN : forall p, in_stop p = false -> InvA (with_thr s w p)).
  { intros p P. apply (inva_with_thr s w p old I H). intros c. rewrite !plain_q; auto. }
  destruct (exit_ s).
  - apply PLAIN. destruct (Nat.ltb w (nclients s)); [apply next_client_plain|reflexivity].
  - destruct (queue s) as [|c0 r] eqn:QQ; [apply PLAIN; reflexivity|apply (inva_run_job s w c0 r old); auto].
Qed.

Theorem inva_core s i : InvA s -> enabled s i = true -> InvA (cstep s i).
Proof.
  intros I EN. destruct (cstep_path s i EN) as (old & H & P).
  destruct P as [old p M|old l k b p E|old a S|old s0 W|l q f a J|l q a ST|l q a ST|a].
  - apply (inva_with_thr s i p old I H). intros c.
    destruct (moves_cases s i old p M) as [([NS _] & [O _] & _)|(w & l & q & f & a & -> & -> & _)]; [|reflexivity].
    rewrite !plain_q; auto. apply (ordinary_plain i p O).
  - destruct (enqs_on i old l k b p E) as [[[O _] _] [NS _]].
    destruct (enqueue_shell s i l k b _ eq_refl) as (_ & _ & _ & _ & _ & _ & _ & _ & hth & _).
    apply (inva_with_thr _ i p old (inva_enqueue s i l k b I)); [unfold T; rewrite hth; exact H|].
    intros c. rewrite !plain_q; auto. apply (ordinary_plain i p O).
  - apply (inva_stop_mark s i a old I H), (stops_plain old a S).
  - destruct (works_thrs s i old s0 W) as [Et NS]. apply (inva_worker_cs s0 i old); [|unfold T; rewrite Et; exact H|exact NS].
    destruct W; [apply (inva_ext s); auto|exact I|apply inva_wake, I].
  - apply (inva_after_wait s i [] q f a _ H); [apply totx_held; auto|exact (a_canc s I)].
  - pose proof (inva_wake s i I) as I'.
    apply (inva_after_wait (wake s i) i l q false a (SWait l q a)); [|apply totx_held; auto|exact (a_canc _ I')].
    unfold T. rewrite (wake_frame thrs) by reflexivity. exact H.
  - apply inva_wake, I.
  - assert (I' : InvA (finished s (sleeper_ids s))) by (apply (inva_ext s); auto).
    apply (inva_after_wait (finished s (sleeper_ids s)) i [] [] false a (SFin a) H);
      [apply totx_held; auto|exact (a_canc _ I')].
Qed.

(* Invariant B: basic safety facts. *)
Record InvB (s : st) : Prop := {
  b_exit : exit_ s = true -> queue s = [] /\ threads s = [];
  b_destr : destroyed s = true -> exit_ s = true /\ stopped s = true;
  b_stopped : stopped s = true -> exit_ s = true;
  b_ncl : 0 < nclients s <= length (thrs s);
  b_class : forall i p, T s i = Some p -> (nclients s <= i -> is_client p = false) /\ (i < nclients s -> p <> WExit);
  b_done0 : T s 0 = Some CDone -> destroyed s = true;
  b_ran : forall c, 1 <= G cran 0 s c ->
            G cran_on 0 s c < length (thrs s) /\ (nclients s <= G cran_on 0 s c \/ In (G cran_on 0 s c) (extw s));
  b_join : forall i p, T s i = Some p -> in_stop p = true -> exit_ s = true;
  b_first : forall i l q f a, T s i = Some (Join l q f a) -> f = true;
  b_swait : forall i l q a, T s i = Some (SWait l q a) -> l = [] /\ q = [] /\ is_cur a = false;
  b_thr : forall w, In w (threads s) -> nclients s <= w < length (thrs s);
  b_ext : forall i p, T s i = Some p -> i < nclients s -> is_client p = false -> In i (extw s);
  b_det : forall i p, T s i = Some p -> i < nclients s -> det_of p = false;
  b_thrlen : length (threads s) <= length (thrs s)
}.

Lemma TT_set s s' i p old : T s i = Some old -> thrs s' = set_nth (thrs s) i p ->
  forall j, T s' j = if Nat.eqb i j then Some p else T s j.
Proof. intros H Et j. unfold T at 1. rewrite Et. exact (T_with_thr s i p j (T_lt s i old H)). Qed.

Definition RanOK (s : st) (n : nat) (m : nat) (x : list nat) : Prop :=
  forall c, 1 <= G cran 0 s c -> G cran_on 0 s c < n /\ (m <= G cran_on 0 s c \/ In (G cran_on 0 s c) x).

Lemma invb_frame s s' i p old : InvB s -> T s i = Some old ->
  thrs s' = set_nth (thrs s) i p -> nclients s' = nclients s ->
  (nclients s <= i -> is_client p = false) -> (i < nclients s -> p <> WExit) ->
  (exit_ s' = true -> queue s' = [] /\ threads s' = []) ->
  (destroyed s' = true -> exit_ s' = true /\ stopped s' = true) ->
  (stopped s' = true -> exit_ s' = true) ->
  (i = 0 -> p = CDone -> destroyed s' = true) -> (destroyed s = true -> destroyed s' = true) ->
  RanOK s' (length (thrs s)) (nclients s) (extw s') ->
  (exit_ s = true -> exit_ s' = true) -> (in_stop p = true -> exit_ s' = true) ->
  (forall l q f a, p = Join l q f a -> f = true) ->
  (forall l q a, p = SWait l q a -> l = [] /\ q = [] /\ is_cur a = false) ->
  (threads s' = threads s \/ threads s' = []) ->
  (i < nclients s -> is_client p = false -> In i (extw s')) -> (forall z, In z (extw s) -> In z (extw s')) ->
  (i < nclients s -> det_of p = false) ->
  InvB s'.
Proof.
  intros [Bexit Bdestr Bstopped Bncl Bclass Bdone0 Bran Bjoin Bfirst Bswait Bthr Bext Bdet Bthrlen] H Et En Pclient Pwexit Nexit Ndestr Nstopped Ndone0 Kdestr Nran Kexit Njoin Nfirst Nswait Nthr Next Kext Ndet.
  pose proof (TT_set s s' i p old H Et) as TT.
  assert (LEN : length (thrs s') = length (thrs s)) by (rewrite Et; apply set_nth_length).
  constructor; auto.
  - rewrite En, LEN. exact Bncl.
  - intros j pj. rewrite TT, En. destruct (Nat.eqb_spec i j) as [E|E].
    + intros Q. inversion Q; subst. auto.
    + apply Bclass.
  - rewrite TT. destruct (Nat.eqb_spec i 0) as [E|E].
    + intros Q. inversion Q. apply Ndone0; auto.
    + intros Q. apply Kdestr, Bdone0, Q.
  - intros c Hc. rewrite En, LEN. apply Nran, Hc.
  - intros j pj. rewrite TT. destruct (Nat.eqb_spec i j) as [E|E].
    + intros Q. inversion Q; subst. exact Njoin.
    + intros Q I. eapply Kexit, Bjoin; eassumption.
  - intros j l q f a. rewrite TT. destruct (Nat.eqb_spec i j) as [E|E].
    + intros Q. inversion Q. eapply Nfirst; eauto.
    + apply Bfirst.
  - intros j l q a. rewrite TT. destruct (Nat.eqb_spec i j) as [E|E].
    + intros Q. inversion Q. eapply Nswait; eauto.
    + apply Bswait.
  - intros w Hin. rewrite En, LEN. destruct Nthr as [F|F]; rewrite F in Hin; [apply Bthr, Hin|contradiction].
  - intros j pj. rewrite TT, En. destruct (Nat.eqb_spec i j) as [E|E].
    + intros Q. inversion Q; subst. auto.
    + intros Q L C. apply Kext. eapply Bext; eassumption.
  - intros j pj. rewrite TT, En. destruct (Nat.eqb_spec i j) as [E|E].
    + intros Q. inversion Q; subst. auto.
    + apply Bdet.
  - rewrite LEN. destruct Nthr as [F|F]; rewrite F; [exact Bthrlen|cbn; lia].
Qed.

Lemma set_nth_same_id {A} (l : list A) : forall i x, nth_error l i = Some x -> set_nth l i x = l.
Proof. exact (BaseProofs.set_nth_same_id l). Qed.
Lemma ranok_same s s' n m x : (forall c, G cran 0 s' c = G cran 0 s c) -> (forall c, G cran_on 0 s' c = G cran_on 0 s c) ->
  RanOK s n m x -> RanOK s' n m x.
Proof. intros E1 E2 R c. rewrite E1, E2. apply R. Qed.
Lemma ranok_of s : InvB s -> RanOK s (length (thrs s)) (nclients s) (extw s).
Proof. intros B. exact (b_ran s B). Qed.

Lemma invb_wake s i : InvB s -> InvB (wake s i).
Proof.
  intros [Bexit Bdestr Bstopped Bncl Bclass Bdone0 Bran Bjoin Bfirst Bswait Bthr Bext Bdet Bthrlen].
  unfold wake. destruct (is_woken s i); constructor; auto.
Qed.
Lemma invb_ext s i r : InvB s -> InvB (with_ext s i r).
Proof.
  intros [Bexit Bdestr Bstopped Bncl Bclass Bdone0 Bran Bjoin Bfirst Bswait Bthr Bext Bdet Bthrlen]. constructor; auto.
  - intros c Hc. destruct (Bran c Hc) as [L [X|X]]; split; auto. right. right. exact X.
  - intros j p H L C. right. exact (Bext j p H L C).
Qed.
Lemma invb_marked s wk : InvB s -> InvB (marked s wk).
Proof.
  intros [Bexit Bdestr Bstopped Bncl Bclass Bdone0 Bran Bjoin Bfirst Bswait Bthr Bext Bdet Bthrlen]. constructor; auto.
  - intros D. split; [reflexivity|apply Bdestr, D].
  - intros w [].
  - apply Nat.le_0_l.
Qed.
Lemma invb_finished s wk : InvB s -> exit_ s = true -> InvB (finished s wk).
Proof. intros [Bexit Bdestr Bstopped Bncl Bclass Bdone0 Bran Bjoin Bfirst Bswait Bthr Bext Bdet Bthrlen] X. constructor; auto. Qed.

Lemma invb_same s i p old : InvB s -> T s i = Some old ->
  (nclients s <= i -> is_client p = false) -> (i < nclients s -> p <> WExit) -> (i = 0 -> p <> CDone) ->
  (in_stop p = true -> in_stop old = true) ->
  (forall l q f a, p = Join l q f a -> f = true) -> (forall l q a, p <> SWait l q a) ->
  (is_client p = false -> is_client old = false) ->
  (i < nclients s -> det_of p = false) ->
  InvB (with_thr s i p).
Proof.
  intros B H P1 P2 P3 P4 P5 P6 P7 P8.
  apply (invb_frame s _ i p old B H); unfold with_thr; cbn [queue exit_ stopped threads tokens woken destroyed nclients thrs extw]; auto.
  - apply (b_exit s B).
  - apply (b_destr s B).
  - apply (b_stopped s B).
  - intros E Q. exfalso. apply (P3 E Q).
  - apply (ranok_same s); [reflexivity|reflexivity|exact (b_ran s B)].
  - intros X. apply (b_join s B i old H). auto.
  - intros l q a E. exfalso. eapply P6, E.
  - intros L C. apply (b_ext s B i old H L). auto.
Qed.

Lemma invb_goes_on s i p old : InvB s -> T s i = Some old -> goes_on i old p -> InvB (with_thr s i p).
Proof.
  intros B H [O C]. pose proof (b_class s B i old H) as [C1 C2]. pose proof (ordinary_plain i p O) as NS.
  apply (invb_same s i p old B H); rewrite ?C, ?NS; auto; try discriminate.
  - intros _ ->. discriminate.
  - intros -> ->. discriminate.
  - intros l q f a ->. discriminate.
  - intros l q a ->. discriminate.
  - intros _. apply plain_det, NS.
Qed.

Lemma invb_enqueue s i l k b p old : InvB s -> T s i = Some old -> goes_on i old p ->
  InvB (with_thr (fst (enqueue s i l k b)) i p).
Proof.
  intros B H [O C]. pose proof (b_class s B i old H) as [C1 C2]. pose proof (ordinary_plain i p O) as NS.
  destruct (enqueue_shell s i l k b _ eq_refl) as (hq & he & hs & ht & hk & hw & hd & hn & hth & hc & hx & hu & hl & hb & hr & ho).
  set (s1 := fst (enqueue s i l k b)) in *.
  apply (invb_frame s _ i p old B H); unfold with_thr; cbn [queue exit_ stopped threads tokens woken destroyed nclients thrs extw].
  - rewrite hth. reflexivity.
  - exact hn.
  - rewrite C. exact C1.
  - intros _ ->. discriminate.
  - rewrite he, hq, ht. intros X. rewrite X. cbn [orb]. apply (b_exit s B X).
  - rewrite he, hd, hs. apply (b_destr s B).
  - rewrite he, hs. apply (b_stopped s B).
  - intros -> ->. discriminate.
  - rewrite hd. auto.
  - rewrite hx. intros c. unfold G. cbn [clos]. fold (G cran 0 s1 c) (G cran_on 0 s1 c).
    rewrite hr, ho. destruct (Nat.eqb c (length (clos s))); [lia|exact (b_ran s B c)].
  - rewrite he. auto.
  - rewrite NS. discriminate.
  - intros l0 q f a ->. discriminate.
  - intros l0 q a ->. discriminate.
  - left. exact ht.
  - rewrite hx, C. apply (b_ext s B i old H).
  - rewrite hx. auto.
  - intros _. apply plain_det, NS.
Qed.

(* what stop_mark, a Join step, a woken SWait and SFin have in common *)
Lemma invb_after_wait s t l q first a old : InvB s -> T s t = Some old -> exit_ s = true ->
  is_client old = is_client_after a ->
  (l <> [] -> first = true) ->
  (first = false -> is_dtor a = true -> stopped s = true) ->
  (t < nclients s -> det_after a = false) ->
  InvB (fst (after_wait s t l q first a)).
Proof.
  intros B H EX Cl LF DS DET. destruct (b_exit s B EX) as [Q0 Th0].
  destruct (after_wait_shell s t l q first a _ eq_refl) as (E & K & Q & D & Th).
  set (s' := fst (after_wait s t l q first a)) in *.
  destruct E as (e1 & e2 & e3 & e4 & e5 & e6 & e7 & e8 & e9).
  destruct K as (k1 & k2 & k3 & k4).
  set (p := match l with [] => fin_pc t first a | _ => Join l q first a end) in *.
  assert (PC : is_client p = is_client_after a).
  { unfold p. destruct l; [apply fin_pc_class|reflexivity]. }
  assert (FIN : forall p', p = p' -> stopper p' = false -> l = [] /\ first = false /\ pc_after t a = p').
  { intros p' E NS. unfold p in E. destruct l; [|subst p'; discriminate].
    destruct first; cbn [fin_pc] in E; [subst p'; discriminate|auto]. }
  apply (invb_frame s _ t p old B H Th e6).
  - intros L. rewrite PC, <- Cl. apply (b_class s B t old H). exact L.
  - intros L E. destruct (FIN _ E eq_refl) as (_ & _ & E'). apply (pc_after_attached t a (DET L) E').
  - intros _. rewrite Q, e3, Q0, Th0. destruct (_ && _ && _); auto.
  - rewrite D, e1, e2, EX. destruct (_ && _ && is_dtor a) eqn:DA.
    + intros _. split; [reflexivity|]. apply andb_prop in DA. destruct DA as [DA1 DA2].
      apply andb_prop in DA1. destruct DA1 as [_ F]. apply DS; [destruct first; [discriminate|reflexivity]|exact DA2].
    + intros X. split; [reflexivity|]. apply (b_destr s B X).
  - rewrite e1, EX. auto.
  - intros -> Qp. rewrite D. destruct (FIN _ Qp eq_refl) as (-> & -> & E'). cbn [andb negb].
    destruct a as [r| |d r]; cbn [is_dtor pc_after] in *.
    + exfalso. apply (next_client_plain 0 r); auto.
    + reflexivity.
    + destruct d; [discriminate|]. exfalso. apply (job_next_plain r). exact E'.
  - rewrite D. intros X. rewrite X. destruct (_ && _ && _); reflexivity.
  - rewrite e8. apply (ranok_same s); [exact k2|exact k3|exact (b_ran s B)].
  - rewrite e1, EX. auto.
  - rewrite e1, EX. auto.
  - intros l0 q0 f a0 E. unfold p in E. destruct l as [|w l]; [|inversion E; subst; apply LF; discriminate].
    destruct first; cbn [fin_pc] in E; [discriminate|]. pose proof (pc_after_plain t a) as X. rewrite E in X. discriminate.
  - intros l0 q0 a0 E. destruct (FIN _ E eq_refl) as (_ & _ & E'). pose proof (pc_after_plain t a) as X. rewrite E' in X. discriminate.
  - right. rewrite e3. exact Th0.
  - rewrite e8, PC, <- Cl. apply (b_ext s B t old H).
  - rewrite e8. auto.
  - intros L. unfold p. destruct l as [|w l]; [|cbn [det_of]; apply DET, L].
    destruct first; cbn [fin_pc det_of]; [apply DET, L|]. apply plain_det, pc_after_plain.
Qed.

Lemma filter_ne_in (t : nat) (l : list nat) w : In w (filter (fun x => negb (Nat.eqb x t)) l) -> w <> t /\ In w l.
Proof.
  intros H. apply filter_In in H. destruct H as [H1 H2]. split; [|exact H1].
  intros ->. rewrite Nat.eqb_refl in H2. discriminate.
Qed.

Lemma existsb_eqb_false t l : (forall w, In w l -> w <> t) -> existsb (Nat.eqb t) l = false.
Proof.
  induction l as [|x l IH]; intros F; [reflexivity|]. cbn [existsb].
  destruct (Nat.eqb_spec t x) as [E|E]; [exfalso; apply (F x); [left; reflexivity|auto]|].
  cbn. apply IH. intros w Hw. apply F. right. exact Hw.
Qed.

Lemma invb_stop_mark s t a old : InvB s -> T s t = Some old -> is_client old = is_client_after a ->
  InvB (fst (stop_mark s t a)).
Proof.
  intros B H Cl. destruct (stop_after_same s t a) as (CA & DT & _).
  assert (NF : exit_ s = true -> stop_list s t = [] /\ queue s = []).
  { intros X. destruct (b_exit s B X) as [Q Th]. unfold stop_list. rewrite Th. auto. }
  assert (DETA : t < nclients s -> det_after (stop_after s t a) = false).
  { intros L. destruct a as [r0| |d r0]; cbn [stop_after det_after]; auto.
    rewrite existsb_eqb_false; auto. intros w Hw E. subst w. pose proof (b_thr s B t Hw). lia. }
  apply stop_mark_cases.
  - 
    intros X CU _. destruct (NF X) as [L0 Q0].
    apply (invb_frame s _ t (SWait (stop_list s t) (queue s) (stop_after s t a)) old B H); unfold with_thr, marked;
      cbn [queue exit_ stopped threads tokens woken destroyed nclients thrs extw]; auto; try discriminate.
    + intros L. cbn [is_client]. rewrite CA, <- Cl. apply (b_class s B t old H). exact L.
    + intros D. split; [reflexivity|]. apply (b_destr s B D).
    + apply (ranok_same s); [reflexivity|reflexivity|exact (b_ran s B)].
    + intros l0 q0 a0 E. inversion E; subst. rewrite L0, Q0. destruct a; auto.
    + cbn [is_client]. rewrite CA, <- Cl. apply (b_ext s B t old H).
  - intros ALT. apply (invb_after_wait (marked s (sleeper_ids s)) t _ (queue s) _ _ old (invb_marked s _ B) H); try reflexivity.
    + congruence.
    + intros LN. destruct (exit_ s) eqn:X; [|reflexivity]. destruct (NF eq_refl) as [L0 _]. contradiction.
    + rewrite DT. intros F D. apply ALT; destruct (exit_ s), a; try discriminate; reflexivity.
    + exact DETA.
Qed.

Lemma invb_worker_cs s w old : InvB s -> T s w = Some old -> (w < nclients s -> In w (extw s)) ->
  InvB (fst (worker_cs s w)).
Proof.
  intros B H Ex. pose proof (T_lt s w old H) as WL.
  assert (GEN : forall p s2, thrs s2 = thrs s -> nclients s2 = nclients s -> threads s2 = threads s ->
            exit_ s2 = exit_ s -> destroyed s2 = destroyed s -> stopped s2 = stopped s -> extw s2 = extw s ->
            (queue s2 = [] \/ exit_ s = false) ->
            (nclients s <= w -> is_client p = false) -> (w < nclients s -> p <> WExit) -> (w = 0 -> p <> CDone) ->
            in_stop p = false ->
            RanOK s2 (length (thrs s)) (nclients s) (extw s) ->
            InvB (with_thr s2 w p)).
  { intros p s2 E1 E2 E3 E4 E5 E6 E7 E8 P1 P2 P3 P4 R.
    apply (invb_frame s _ w p old B H); unfold with_thr; cbn [queue exit_ stopped threads tokens woken destroyed nclients thrs extw];
      rewrite ?E1, ?E2, ?E3, ?E4, ?E5, ?E6, ?E7; auto.
    - intros X. destruct E8 as [E8|E8]; [|congruence]. split; [exact E8|]. apply (b_exit s B X).
    - apply (b_destr s B).
    - apply (b_stopped s B).
    - intros E Q. exfalso. apply (P3 E Q).
    - rewrite P4. discriminate.
    - intros l q f a ->. discriminate.
    - intros l q a ->. discriminate.
    - intros _. apply plain_det, P4. }
  unfold worker_cs. destruct (exit_ s) eqn:EX.
  - cbn [fst]. unfold exit_pc. destruct (b_exit s B EX) as [Q0 _].
    destruct (Nat.ltb_spec w (nclients s)) as [L|L].
    + destruct (next_client_plain w (nth w (cont s) [])) as (Y1 & Y2 & Y3).
      apply GEN; auto; try lia. exact (b_ran s B).
    + apply GEN; auto; try discriminate; try lia. exact (b_ran s B).
  - destruct (queue s) as [|c0 r] eqn:QQ.
    + cbn [fst]. apply GEN; auto; try discriminate. exact (b_ran s B).
    + unfold run_job. replace (clos (with_queue s r)) with (clos s) by reflexivity.
      destruct (nth_error (clos s) c0) as [x|] eqn:E.
      * cbn [fst]. destruct (job_next_plain (cb x)) as (J1 & J2 & J3 & J4).
        apply (GEN (job_next (cb x)) (with_clos (with_queue s r) (set_nth (clos s) c0
                 (mkClo (clbl x) (ck x) (cb x) (S (cran x)) w (cdrop x) (ccanc x))))); auto.
        intros c. rewrite !(G_run _ _ s r c0 x _ c E). destruct (Nat.eqb c0 c); [|exact (b_ran s B c)].
        cbn [cran cran_on]. intros _.
        split; [exact WL|]. destruct (Nat.ltb_spec w (nclients s)); [right; auto|left; assumption].
      * cbn [fst]. apply (GEN WIdle (with_queue s r)); auto; try discriminate. exact (b_ran s B).
Qed.

Theorem invb_core s i : InvB s -> enabled s i = true -> InvB (cstep s i).
Proof.
  intros B EN. destruct (cstep_path s i EN) as (old & H & P).
  assert (IN : forall l q f a, old = Join l q f a \/ old = SWait l q a \/ old = SFin a ->
             exit_ s = true /\ is_client old = is_client_after a /\ (i < nclients s -> det_after a = false)).
  { intros l q f a E. split; [|split].
    - apply (b_join s B i old H). destruct E as [->|[->| ->]]; reflexivity.
    - destruct E as [->|[->| ->]]; reflexivity.
    - intros L. pose proof (b_det s B i old H L) as D. destruct E as [->|[->| ->]]; exact D. }
  destruct P as [old p M|old l k b p E|old a S|old s0 W|l q f a J|l q a ST|l q a ST|a].
  - destruct (moves_cases s i old p M) as [(_ & G & _)|(w & l & q & f & a & -> & -> & NE & _)].
    + apply (invb_goes_on s i p old B H G).
    + apply (invb_same s i _ _ B H); auto; try discriminate.
      * apply (b_class s B i _ H).
      * intros l0 q0 f0 a0 E. inversion E; subst. apply (b_first s B i _ _ _ _ H).
      * apply (b_det s B i _ H).
  - apply (invb_enqueue s i l k b p old B H), (enqs_on i old l k b p E).
  - apply (invb_stop_mark s i a old B H), (stops_plain old a S).
  - destruct (works_thrs s i old s0 W) as [Et _].
    apply (invb_worker_cs s0 i old); [destruct W; [apply invb_ext|exact B|apply invb_wake]; exact B|unfold T; rewrite Et; exact H|].
    destruct W; [left; reflexivity| |rewrite (wake_frame extw), (wake_frame nclients) by reflexivity];
      intros L; apply (b_ext s B i _ H L); reflexivity.
  - destruct (IN l q f a) as (X & C & D); auto. rewrite (b_first s B i l q f a H).
    apply (invb_after_wait s i [] q true a _ B H X C); auto; discriminate.
  - destruct (IN l q false a) as (X & C & D); auto. destruct (b_swait s B i l q a H) as (-> & -> & _).
    apply (invb_after_wait (wake s i) i [] [] false a (SWait [] [] a) (invb_wake s i B));
      rewrite ?(wake_frame nclients), ?(wake_frame exit_), ?(wake_frame stopped) by reflexivity; auto.
    unfold T. rewrite (wake_frame thrs) by reflexivity. exact H.
  - apply invb_wake, B.
  - destruct (IN [] [] false a) as (X & C & D); auto.
    apply (invb_after_wait _ i [] [] false a (SFin a) (invb_finished s _ B X) H X C); auto.
Qed.
(* every field of `init ops` not mentioned is a literal *)
Lemma init_shape ops : exists m cl n, 0 < m /\ 1 <= n /\ length cl = m /\ nclients (init ops) = m /\
  thrs (init ops) = cl ++ repeat WIdle n /\ threads (init ops) = seq m n /\
  (forall i p, nth_error cl i = Some p -> exists r, p = next_client i r).
Proof.
  unfold init. set (d := decode ops). set (m := Nat.min (S (dmax d)) 3).
  exists m, (map (fun ip => next_client (fst ip) (snd ip)) (combine (seq 0 m) (firstn m [dp0 d; dp1 d; dp2 d]))), (Nat.max 1 (dn d)).
  assert (M : 0 < m <= 3) by (unfold m; lia).
  repeat split; try reflexivity; try lia.
  - rewrite map_length, combine_length, seq_length, firstn_length. cbn [length]. lia.
  - intros i p H. rewrite nth_error_map in H.
    destruct (nth_error (combine (seq 0 m) (firstn m [dp0 d; dp1 d; dp2 d])) i) as [[j r]|] eqn:E; [|discriminate].
    cbn [option_map fst snd] in H. inversion H; subst.
    exists r. f_equal.
    assert (X : nth_error (seq 0 m) i = Some j).
    { revert E. generalize (firstn m [dp0 d; dp1 d; dp2 d]) as l2. generalize (seq 0 m) as l1. clear.
      induction i as [|i IH]; intros [|a l1] [|b l2] E; cbn in E; try discriminate.
      - inversion E; reflexivity.
      - cbn. eapply IH, E. }
    assert (L : i < length (seq 0 m)) by (apply nth_error_Some; congruence).
    rewrite (nth_error_nth' (seq 0 m) 0 L) in X. rewrite seq_length in L. rewrite seq_nth in X by exact L.
    inversion X. reflexivity.
Qed.

Lemma init_cls ops : forall i p, T (init ops) i = Some p ->
  (i < nclients (init ops) /\ exists r, p = next_client i r) \/ (nclients (init ops) <= i /\ p = WIdle).
Proof.
  destruct (init_shape ops) as (m & cl & n & M & N & LC & NC & TH & _ & SH).
  intros i p H. unfold T in H. rewrite TH in H. rewrite NC. destruct (Nat.ltb_spec i m) as [L|L].
  - left. split; [exact L|]. rewrite nth_error_app1 in H by lia. eapply SH, H.
  - right. split; [exact L|]. rewrite nth_error_app2 in H by lia. apply nth_error_In, repeat_spec in H. exact H.
Qed.

Lemma invb_init ops : InvB (init ops).
Proof.
  destruct (init_shape ops) as (m & cl & n & M & N & LC & NC & TH & THR & SH).
  pose proof (init_cls ops) as CLS.
  assert (PLAIN : forall i p, T (init ops) i = Some p -> in_stop p = false /\ p <> WExit).
  { intros i p H. destruct (CLS i p H) as [(L & r & ->)|(L & ->)]; [|split; [reflexivity|discriminate]].
    destruct (next_client_plain i r) as (X1 & X2 & _). auto. }
  constructor; try discriminate.
  - rewrite NC, TH, app_length, LC. lia.
  - intros i p H. destruct (CLS i p H) as [(L & r & ->)|(L & ->)].
    + split; [lia|]. intros _. apply next_client_plain.
    + split; [reflexivity|lia].
  - intros H. destruct (CLS 0 _ H) as [(L & r & E)|(L & E)]; [|discriminate].
    exfalso. destruct (next_client_plain 0 r) as (_ & _ & X). apply (X eq_refl). symmetry. exact E.
  - intros c. unfold G. destruct c; cbn; lia.
  - intros i p H I. destruct (PLAIN i p H) as [X _]. congruence.
  - intros i l q f a H. destruct (PLAIN i _ H) as [X _]. discriminate.
  - intros i l q a H. destruct (PLAIN i _ H) as [X _]. discriminate.
  - intros w Hin. rewrite THR in Hin. apply in_seq in Hin. rewrite NC, TH, app_length, repeat_length. lia.
  - intros i p H L C. destruct (CLS i p H) as [(_ & r & ->)|(L2 & _)]; [|lia]. rewrite next_client_client in C. discriminate.
  - intros i p H L. apply plain_det. apply (PLAIN i p H).
  - rewrite THR, TH, seq_length, app_length, repeat_length. lia.
Qed.

(* Invariant U: who joins whom; nothing is left running when the destructor returns. *)
Definition poolw (s : st) (w : nat) : Prop := nclients s <= w < length (thrs s).
Definition all_done (s : st) : Prop := forall i p, T s i = Some p -> p = CDone \/ p = WExit.

Record InvU (s : st) : Prop := {
  u_thrall : exit_ s = false -> forall w, poolw s w -> In w (threads s);
  u_uniq : forall i j p p', T s i = Some p -> T s j = Some p' -> stopper p = true -> stopper p' = true -> i = j;
  u_jall : forall t l q f a, T s t = Some (Join l q f a) ->
             forall w, poolw s w -> w <> t -> T s w <> Some WExit -> In w l;
  u_sfin : forall t a, T s t = Some (SFin a) -> forall w, poolw s w -> w <> t -> T s w = Some WExit;
  u_det : forall t p, T s t = Some p -> nclients s <= t -> stopper p = true -> det_of p = true;
  u_stopw : stopped s = true -> forall w, poolw s w -> T s w = Some WExit;
  u_zero : forall i p, T s i = Some p -> dtor_pc p = true -> i = 0;
  u_dtor : forall p, T s 0 = Some p -> dtor_phase p = true -> forall j, 0 < j < nclients s -> T s j = Some CDone;
  u_dead : destroyed s = true -> all_done s;
  u_uad : uad s = false
}.

Lemma invu_frame s s' i p old : InvU s -> T s i = Some old -> unfinished old = true ->
  thrs s' = set_nth (thrs s) i p -> nclients s' = nclients s ->
  (exit_ s' = false -> exit_ s = false /\ threads s' = threads s) ->
  (stopper p = true -> stopper old = true \/ (forall j p', T s j = Some p' -> stopper p' = false)) ->
  (forall l q f a, p = Join l q f a -> forall w, poolw s w -> w <> i -> T s w <> Some WExit -> In w l) ->
  (forall a, p = SFin a -> forall w, poolw s w -> w <> i -> T s w = Some WExit) ->
  (nclients s <= i -> stopper p = true -> det_of p = true) ->
  (stopped s' = stopped s \/ (forall w, poolw s w -> T s' w = Some WExit)) ->
  (dtor_pc p = true -> dtor_pc old = true \/ i = 0) ->
  (i = 0 -> dtor_phase p = true -> dtor_phase old = true \/ (forall j, 0 < j < nclients s -> T s j = Some CDone)) ->
  (destroyed s' = true -> destroyed s = true \/ all_done s') ->
  uad s' = uad s ->
  InvU s'.
Proof.
  intros [Uthrall Uuniq Ujall Usfin Udet Ustopw Uzero Udtor Udead Uuad] H UF Et En Nthrall Nuniq Njall Nsfin Ndet Nstopw Nzero Ndtor Ndead Nuad.
  pose proof (TT_set s s' i p old H Et) as TT.
  assert (LEN : length (thrs s') = length (thrs s)) by (rewrite Et; apply set_nth_length).
  assert (PW : forall w, poolw s' w <-> poolw s w) by (intros w; unfold poolw; rewrite En, LEN; tauto).
  assert (NDEAD : destroyed s = true -> False).
  { intros D. destruct (Udead D i old H) as [-> | ->]; discriminate. }
  assert (NWX : old <> WExit) by (intros ->; discriminate).
  constructor.
  - intros X w Pw. destruct (Nthrall X) as [X0 Th]. rewrite Th. apply Uthrall; [exact X0|apply PW, Pw].
  - intros j k pj pk. rewrite !TT.
    destruct (Nat.eqb_spec i j) as [E1|E1]; destruct (Nat.eqb_spec i k) as [E2|E2]; intros Q1 Q2 S1 S2.
    + congruence.
    + inversion Q1; subst pj. destruct (Nuniq S1) as [So|No]; [subst; eapply Uuniq; eassumption|].
      rewrite (No k pk Q2) in S2. discriminate.
    + inversion Q2; subst pk. destruct (Nuniq S2) as [So|No]; [subst; eapply Uuniq; eassumption|].
      rewrite (No j pj Q1) in S1. discriminate.
    + eapply Uuniq; eassumption.
  - intros t l q f a. rewrite TT. destruct (Nat.eqb_spec i t) as [E|E].
    + intros Q. inversion Q as [Q']. subst t. intros w Pw Nw. rewrite TT.
      apply Nat.eqb_neq in Nw. rewrite Nat.eqb_sym in Nw. rewrite Nw. apply (Njall _ _ _ _ Q'); [apply PW, Pw|].
      apply Nat.eqb_neq. rewrite Nat.eqb_sym. exact Nw.
    + intros Q w Pw Nw. rewrite TT. destruct (Nat.eqb_spec i w) as [E2|E2].
      * intros _. subst w. apply (Ujall t l q f a Q i); [apply PW, Pw|auto|]. rewrite H. congruence.
      * apply (Ujall t l q f a Q w); [apply PW, Pw|exact Nw].
  - intros t a. rewrite TT. destruct (Nat.eqb_spec i t) as [E|E].
    + intros Q. inversion Q as [Q']. subst t. intros w Pw Nw. rewrite TT.
      assert (Nw' : Nat.eqb i w = false) by (apply Nat.eqb_neq; auto). rewrite Nw'.
      apply (Nsfin _ Q'); [apply PW, Pw|exact Nw].
    + intros Q w Pw Nw. rewrite TT. destruct (Nat.eqb_spec i w) as [E2|E2].
      * exfalso. subst w. pose proof (Usfin t a Q i (proj1 (PW i) Pw) E) as Y. rewrite H in Y. congruence.
      * apply (Usfin t a Q w); [apply PW, Pw|exact Nw].
  - intros t pt. rewrite TT, En. destruct (Nat.eqb_spec i t) as [E|E].
    + intros Q. inversion Q; subst. apply Ndet.
    + apply Udet.
  - intros ST w Pw. destruct Nstopw as [Same|Own]; [|apply Own, PW, Pw].
    rewrite Same in ST. rewrite TT. destruct (Nat.eqb_spec i w) as [E2|E2].
    + exfalso. subst w. pose proof (Ustopw ST i (proj1 (PW i) Pw)) as Y. rewrite H in Y. congruence.
    + apply (Ustopw ST), PW, Pw.
  - intros j pj. rewrite TT. destruct (Nat.eqb_spec i j) as [E|E].
    + intros Q D. inversion Q; subst. destruct (Nzero D) as [Y|Y]; [eapply Uzero; eassumption|exact Y].
    + apply Uzero.
  - intros p0. rewrite TT, En. destruct (Nat.eqb_spec i 0) as [E|E].
    + intros Q D j Lj. inversion Q; subst p0. rewrite TT. subst i.
      assert (Nj : Nat.eqb 0 j = false) by (apply Nat.eqb_neq; lia). rewrite Nj.
      destruct (Ndtor eq_refl D) as [Y|Y]; [eapply Udtor; eassumption|apply Y, Lj].
    + intros Q D j Lj. rewrite TT. destruct (Nat.eqb_spec i j) as [E2|E2].
      * exfalso. subst j. pose proof (Udtor p0 Q D i Lj) as Y. rewrite H in Y. inversion Y. subst old. discriminate.
      * eapply Udtor; eassumption.
  - intros D. destruct (Ndead D) as [Y|Y]; [exfalso; auto|exact Y].
  - rewrite Nuad. exact Uuad.
Qed.

Lemma path_unfinished s i old s' : path s i old s' -> unfinished old = true.
Proof. intros [? ? []|? ? ? ? ? []|? ? []|? ? []| | | | ]; reflexivity. Qed.

Lemma wexit_dec s w : T s w = Some WExit \/ T s w <> Some WExit.
Proof. destruct (T s w) as [p|]; [destruct p|]; try (right; discriminate); left; reflexivity. Qed.

Lemma goes_on_dtor i old p : goes_on i old p /\ p <> CDtor ->
  stopper p = false /\ dtor_phase p = false /\ (dtor_pc p = true -> i = 0).
Proof.
  intros [[O _] N]. destruct p; try discriminate O; repeat split; try reflexivity; try discriminate.
  - intros _. apply Nat.eqb_eq, O.
  - exfalso. apply N. reflexivity.
  - intros _. exfalso. apply N. reflexivity.
Qed.
Lemma pc_after_dtor t a : stopper (pc_after t a) = false /\ dtor_phase (pc_after t a) = false /\
  (dtor_pc (pc_after t a) = true -> t = 0).
Proof.
  destruct a as [r| |[|] r]; cbn [pc_after]; try (repeat split; try reflexivity; intros; discriminate).
  - apply (goes_on_dtor t CDone), next_client_on. reflexivity.
  - apply (goes_on_dtor t WIdle), job_next_on. reflexivity.
Qed.

Lemma invu_plain s s' i p old : InvU s -> T s i = Some old -> unfinished old = true ->
  thrs s' = set_nth (thrs s) i p -> nclients s' = nclients s ->
  exit_ s' = exit_ s -> threads s' = threads s -> stopped s' = stopped s -> destroyed s' = destroyed s -> uad s' = uad s ->
  stopper p = false ->
  (dtor_pc p = true -> dtor_pc old = true \/ i = 0) ->
  (i = 0 -> dtor_phase p = true -> dtor_phase old = true \/ (forall j, 0 < j < nclients s -> T s j = Some CDone)) ->
  InvU s'.
Proof.
  intros U H UF Et En Ee Eth Es Ed Eu SP D1 D2.
  apply (invu_frame s s' i p old U H UF Et En); auto.
  - rewrite Ee. auto.
  - rewrite SP. discriminate.
  - intros l q f a E. subst p. discriminate.
  - intros a E. subst p. discriminate.
  - rewrite SP. discriminate.
  - rewrite Ed. auto.
Qed.

Lemma invu_wake s i : InvU s -> InvU (wake s i).
Proof.
  intros [Uthrall Uuniq Ujall Usfin Udet Ustopw Uzero Udtor Udead Uuad]. unfold wake. destruct (is_woken s i); constructor; auto.
Qed.
Lemma invu_ext s i r : InvU s -> InvU (with_ext s i r).
Proof. intros [Uthrall Uuniq Ujall Usfin Udet Ustopw Uzero Udtor Udead Uuad]. constructor; auto. Qed.
Lemma invu_marked s wk : InvU s -> InvU (marked s wk).
Proof. intros [Uthrall Uuniq Ujall Usfin Udet Ustopw Uzero Udtor Udead Uuad]. constructor; auto. discriminate. Qed.

Lemma invu_returned s s0 t a old : InvU s -> T s t = Some old -> unfinished old = true ->
  thrs s0 = thrs s -> nclients s0 = nclients s -> exit_ s0 = true -> destroyed s0 = destroyed s -> uad s0 = uad s ->
  (stopped s0 = stopped s \/ (forall w, poolw s w -> w <> t -> T s w = Some WExit) /\ (nclients s <= t -> pc_after t a = WExit)) ->
  (is_dtor a = true -> dtor_phase old = true /\
       (forall w, poolw s w -> T s w = Some WExit)) ->
  InvU (fst (returned s0 t a)).
Proof.
  intros U H UF Et En EX Ed Eu ST DT.
  destruct (returned_shell s0 t a _ eq_refl) as (E & K & Q & D & Th).
  set (s' := fst (returned s0 t a)) in *.
  destruct E as (e1 & e2 & e3 & e4 & e5 & e6 & e7 & e8 & e9).
  destruct (pc_after_dtor t a) as (P1 & P2 & P3).
  assert (Et' : thrs s' = set_nth (thrs s) t (pc_after t a)) by (rewrite Th, Et; reflexivity).
  pose proof (TT_set s s' t _ old H Et') as TT.
  apply (invu_frame s s' t (pc_after t a) old U H UF Et'); auto.
  - congruence.
  - rewrite e1, EX. discriminate.
  - rewrite P1. discriminate.
  - intros l q f a0 E0. rewrite E0 in P1. discriminate.
  - intros a0 E0. rewrite E0 in P1. discriminate.
  - rewrite P1. discriminate.
  - rewrite e2. destruct ST as [ST|[ST1 ST2]]; [left; exact ST|right].
    intros w Pw. rewrite TT. destruct (Nat.eqb_spec t w) as [E0|E0].
    + subst w. f_equal. apply ST2. apply Pw.
    + apply ST1; auto.
  - intros _ X. rewrite X in P2. discriminate.
  - rewrite D, Ed. destruct (is_dtor a) eqn:DA; [|auto]. intros _. right.
    destruct (DT eq_refl) as [DP WX].
    assert (T0 : t = 0) by (apply (u_zero s U t old H); destruct old; try discriminate; cbn in *; auto;
                             unfold dtor_phase in DP; cbn in DP; exact DP).
    subst t. destruct a; try discriminate. cbn [pc_after] in *.
    intros j pj. rewrite TT. destruct (Nat.eqb_spec 0 j) as [E0|E0].
    + intros Qj. inversion Qj. auto.
    + intros Qj. destruct (Nat.ltb_spec j (nclients s)) as [L|L].
      * rewrite (u_dtor s U old H DP j) in Qj by lia. inversion Qj. auto.
      * assert (Pw : poolw s j) by (split; [exact L|eapply T_lt, Qj]). rewrite (WX j Pw) in Qj. inversion Qj. auto.
  - congruence.
Qed.

Lemma dtor_phase_pc p : dtor_phase p = true -> dtor_pc p = true.
Proof. unfold dtor_pc. destruct p; auto. Qed.

(* a first stop must be the only stopper, have every running pool thread on its list, and (on a pool thread) have
   detached itself *)
Lemma invu_after_wait s t l q first a old : InvU s -> T s t = Some old -> unfinished old = true ->
  exit_ s = true ->
  (first = true -> (stopper old = true \/ (forall j p', T s j = Some p' -> stopper p' = false)) /\
                   (forall w, poolw s w -> w <> t -> T s w <> Some WExit -> In w l) /\
                   (nclients s <= t -> det_after a = true)) ->
  (first = false -> l = [] /\ (is_dtor a = true -> stopped s = true)) ->
  (is_dtor a = true -> dtor_phase old = true) ->
  InvU (fst (after_wait s t l q first a)).
Proof.
  intros U H UF EX HF HN HD.
  assert (DP : forall p, after_of p = Some a -> dtor_pc p = true -> dtor_pc old = true \/ t = 0).
  { intros p E X. left. apply dtor_phase_pc, HD. destruct a; try reflexivity; destruct p; inversion E; subst; discriminate. }
  unfold after_wait. destruct l as [|w0 l].
  - 
    unfold stop_end.
    destruct (drop_env t s q) as (E & K & Q & D & Th).
    destruct (drop_all t s q) as [s1 e]. cbn [fst] in *.
    destruct E as (e1 & e2 & e3 & e4 & e5 & e6 & e7 & e8 & e9).
    destruct first.
    + destruct (HF eq_refl) as (F1 & F2 & F3). cbn [fst].
      apply (invu_frame s _ t (SFin a) old U H UF); unfold with_thr;
        cbn [queue exit_ stopped threads tokens woken destroyed nclients thrs extw uad]; auto.
      * rewrite Th. reflexivity.
      * rewrite e1, EX. discriminate.
      * intros l0 q0 f0 a0 E0. discriminate.
      * intros a0 E0 w Pw Nw. destruct (wexit_dec s w) as [X|X]; [exact X|]. destruct (F2 w Pw Nw X).
      * apply (DP (SFin a)). reflexivity.
      * rewrite D. auto.
    + destruct (HN eq_refl) as (_ & N2).
      pose proof (invu_returned s s1 t a old U H UF) as R.
      destruct (returned s1 t a) as [s2 e2']. cbn [fst] in *. apply R; try congruence.
      * left. congruence.
      * intros DA. split; [apply HD, DA|]. apply (u_stopw s U (N2 DA)).
  - destruct first; [|destruct (HN eq_refl) as (X & _); discriminate].
    destruct (HF eq_refl) as (F1 & F2 & F3). cbn [fst].
    apply (invu_frame s _ t (Join (w0 :: l) q true a) old U H UF); unfold with_thr;
      cbn [queue exit_ stopped threads tokens woken destroyed nclients thrs extw uad]; auto.
    + intros l0 q0 f0 a0 E0. inversion E0; subst. exact F2.
    + intros a0 E0. discriminate.
    + apply (DP (Join (w0 :: l) q true a)). reflexivity.
Qed.

Lemma in_filter_ne (t : nat) l w : In w l -> w <> t -> In w (filter (fun x => negb (Nat.eqb x t)) l).
Proof. intros I N. apply filter_In. split; [exact I|]. apply Nat.eqb_neq in N. rewrite N. reflexivity. Qed.
Lemma existsb_eqb_true t l : In t l -> existsb (Nat.eqb t) l = true.
Proof. intros I. apply existsb_exists. exists t. split; [exact I|apply Nat.eqb_refl]. Qed.

Lemma invu_stop_mark s t a old : InvB s -> InvU s -> T s t = Some old -> unfinished old = true ->
  (nclients s <= t -> exists d r, a = AWorker d r) ->
  (is_dtor a = true -> dtor_phase old = true) ->
  InvU (fst (stop_mark s t a)).
Proof.
  intros B U H UF WA HD. destruct (stop_after_same s t a) as (_ & DT & _).
  assert (NOST : exit_ s = false -> forall j p', T s j = Some p' -> stopper p' = false).
  { intros X j p' Hj. destruct (stopper p') eqn:S; [|reflexivity].
    assert (I : in_stop p' = true) by (destruct p'; try discriminate; reflexivity).
    pose proof (b_join s B j p' Hj I). congruence. }
  assert (HD' : forall l q, dtor_phase (SWait l q (stop_after s t a)) = true -> dtor_phase old = true).
  { intros l q Y. apply HD. rewrite <- DT. cbn [dtor_phase after_of] in Y. destruct (stop_after s t a); try discriminate; reflexivity. }
  apply stop_mark_cases.
  - intros X _ _.
    apply (invu_frame s _ t (SWait (stop_list s t) (queue s) (stop_after s t a)) old U H UF); unfold with_thr, marked;
      cbn [queue exit_ stopped threads tokens woken destroyed nclients thrs extw uad]; auto; try discriminate.
    + intros Y. left. apply dtor_phase_pc, (HD' _ _ Y).
    + intros _ Y. left. apply (HD' _ _ Y).
  - intros ALT.
    apply (invu_after_wait (marked s (sleeper_ids s)) t _ (queue s) _ _ old (invu_marked s _ U) H UF); try reflexivity.
    + intros F. assert (X : exit_ s = false) by (destruct (exit_ s); [discriminate|reflexivity]).
      split; [right; apply NOST, X|]. split.
      * intros w Pw Nw _. apply in_filter_ne; [apply (u_thrall s U X w Pw)|exact Nw].
      * intros L. destruct (WA L) as (d & r & ->). cbn [stop_after det_after].
        rewrite existsb_eqb_true; [reflexivity|]. apply (u_thrall s U X). split; [exact L|eapply T_lt, H].
    + intros F. assert (X : exit_ s = true) by (destruct (exit_ s); [reflexivity|discriminate]).
      destruct (b_exit s B X) as [_ Th]. split; [unfold stop_list; rewrite Th; reflexivity|].
      rewrite DT. intros DA. apply (ALT X). destruct a; try discriminate; reflexivity.
    + rewrite DT. exact HD.
Qed.

Lemma invu_worker_cs s w old : InvU s -> T s w = Some old -> unfinished old = true -> InvU (fst (worker_cs s w)).
Proof.
  intros U H UF.
  assert (GEN : forall p s2, thrs s2 = thrs s -> nclients s2 = nclients s -> exit_ s2 = exit_ s ->
            threads s2 = threads s -> stopped s2 = stopped s -> destroyed s2 = destroyed s -> uad s2 = uad s ->
            stopper p = false /\ dtor_phase p = false /\ (dtor_pc p = true -> w = 0) ->
            InvU (with_thr s2 w p)).
  { intros p s2 E1 E2 E3 E4 E5 E6 E7 (P1 & P2 & P3).
    apply (invu_plain s _ w p old U H UF); unfold with_thr;
      cbn [queue exit_ stopped threads tokens woken destroyed nclients thrs extw uad]; try congruence; auto;
      intros _ X; congruence. }
  assert (PL : forall p, p = WSleep \/ p = WIdle \/ p = WExit ->
            stopper p = false /\ dtor_phase p = false /\ (dtor_pc p = true -> w = 0)).
  { intros p [->|[->| ->]]; repeat split; discriminate. }
  unfold worker_cs, exit_pc, run_job. destruct (exit_ s) eqn:EX.
  - destruct (Nat.ltb w (nclients s)); apply GEN; auto.
    apply (goes_on_dtor w CDone), next_client_on. reflexivity.
  - destruct (queue s) as [|c0 r]; [apply GEN; auto|].
    destruct (nth_error (clos (with_queue s r)) c0) as [x|]; apply GEN; auto.
    apply (goes_on_dtor w WIdle), job_next_on. reflexivity.
Qed.

Lemma invu_enqueue s i l k b p old : InvU s -> T s i = Some old -> unfinished old = true ->
  goes_on i old p /\ p <> CDtor -> InvU (with_thr (fst (enqueue s i l k b)) i p).
Proof.
  intros U H UF G. destruct (goes_on_dtor i old p G) as (P1 & P2 & P3).
  destruct (enqueue_shell s i l k b _ eq_refl) as (hq & he & hs & ht & hk & hw & hd & hn & hth & hc & hx & hu & _).
  apply (invu_plain s _ i p old U H UF); unfold with_thr;
    cbn [queue exit_ stopped threads tokens woken destroyed nclients thrs extw uad]; try congruence; auto;
    intros _ X; congruence.
Qed.

Lemma in_firstn_nth {A} (l : list A) : forall n j x, nth_error l j = Some x -> j < n -> In x (firstn n l).
Proof.
  induction l as [|y l IH]; intros [|n] [|j] x H L; cbn in *; try discriminate; try lia.
  - inversion H. left. reflexivity.
  - right. apply (IH n j x H). lia.
Qed.

Lemma xwait_others s : InvB s -> InvU s -> xwait_ok s = true -> forall j, 0 < j < nclients s -> T s j = Some CDone.
Proof.
  intros B U X j Lj. unfold xwait_ok in X. rewrite forallb_forall in X.
  pose proof (b_ncl s B) as N.
  destruct (nth_error (thrs s) j) as [p|] eqn:E; [|apply nth_error_None in E; lia].
  assert (I : In p (firstn (nclients s) (thrs s))).
  { apply (in_firstn_nth _ _ j); [exact E|lia]. }
  specialize (X p I). unfold T. rewrite E. destruct p; try discriminate; [|reflexivity].
  exfalso. pose proof (u_zero s U j CXWait E eq_refl). lia.
Qed.

Theorem invu_core s i : InvB s -> InvU s -> enabled s i = true -> InvU (cstep s i).
Proof.
  intros B U EN. destruct (cstep_path s i EN) as (old & H & P). pose proof (path_unfinished s i old _ P) as UF.
  assert (DT : forall a, after_of old = Some a -> is_dtor a = true -> dtor_phase old = true).
  { intros a E D. unfold dtor_phase. rewrite E. destruct a; try discriminate D. destruct old; reflexivity. }
  destruct P as [old p M|old l k b p E|old a S|old s0 W|l q f a J|l q a ST|l q a ST|a].
  - destruct (moves_cases s i old p M) as [(_ & G & X)|(w & l & q & f & a & -> & -> & NE & W)].
    + assert (N : p = CDtor \/ p <> CDtor) by (destruct p; try (right; discriminate); left; reflexivity).
      destruct N as [->|N].
      * destruct (X eq_refl) as [-> XW]. apply (invu_plain s _ i CDtor CXWait U H UF); auto.
        intros _ _. right. apply (xwait_others s B U XW).
      * destruct (goes_on_dtor i old p (conj G N)) as (P1 & P2 & P3).
        apply (invu_plain s _ i p old U H UF); auto. intros _ Y. congruence.
    + apply (invu_frame s _ i (Join l q f a) _ U H UF); unfold with_thr;
        cbn [queue exit_ stopped threads tokens woken destroyed nclients thrs extw uad]; auto.
      * intros l0 q0 f0 a0 E0 w' Pw Nw X. inversion E0; subst.
        destruct (u_jall s U i _ _ _ _ H w' Pw Nw X) as [<-|I]; [contradiction|exact I].
      * intros a0 E0. discriminate.
      * intros L _. apply (u_det s U i _ H L eq_refl).
  - apply (invu_enqueue s i l k b p old U H UF), (enqs_on i old l k b p E).
  - apply (invu_stop_mark s i a old B U H UF); [|destruct S; try discriminate; auto].
    intros L. pose proof (proj1 (b_class s B i old H) L) as X. destruct S; try discriminate X. eauto.
  - destruct (works_thrs s i old s0 W) as [Et _].
    apply (invu_worker_cs s0 i old); [destruct W; [apply invu_ext|exact U|apply invu_wake]; exact U|unfold T; rewrite Et; exact H|exact UF].
  - 
    rewrite (b_first s B i l q f a H) in *.
    apply (invu_after_wait s i [] q true a _ U H UF); [apply (b_join s B i _ H); reflexivity| |discriminate|apply DT; reflexivity].
    intros _. split; [left; reflexivity|]. split; [|intros L; apply (u_det s U i _ H L eq_refl)].
    intros w Pw Nw X. exfalso. apply X, J, (u_jall s U i _ _ _ _ H w Pw Nw X).
  - 
    destruct (b_swait s B i l q a H) as (-> & -> & _).
    apply (invu_after_wait (wake s i) i [] [] false a (SWait [] [] a) (invu_wake s i U));
      rewrite ?(wake_frame exit_), ?(wake_frame stopped) by reflexivity; auto; try discriminate.
    + unfold T. rewrite (wake_frame thrs) by reflexivity. exact H.
    + apply (b_join s B i _ H). reflexivity.
  - apply invu_wake, U.
  - 
    rewrite <- returned_as_aw.
    apply (invu_returned s (finished s (sleeper_ids s)) i a _ U H UF); auto.
    + apply (b_join s B i _ H). reflexivity.
    + right. split; [apply (u_sfin s U i a H)|]. intros L.
      pose proof (u_det s U i _ H L eq_refl) as D. destruct a as [| |[|] r]; try discriminate D. reflexivity.
    + intros DA. split; [apply (DT a eq_refl DA)|]. intros w Pw. apply (u_sfin s U i a H w Pw). intros ->.
      pose proof (u_zero s U i _ H (dtor_phase_pc _ (DT a eq_refl DA))). pose proof (b_ncl s B). destruct Pw. lia.
Qed.
Lemma step_is_core s i : InvU s -> enabled s i = true -> step s i = cstep s i.
Proof.
  intros U EN. destruct (cstep_path s i EN) as (p & H & P). pose proof (path_unfinished s i p _ P) as UF. clear P.
  unfold step, cstep, tstep. unfold T in H. rewrite H.
  destruct (destroyed s) eqn:D.
  - exfalso. destruct (u_dead s U D i p H) as [-> | ->]; discriminate.
  - cbn [andb]. destruct (core s i) as [[s1 pt] e]. reflexivity.
Qed.

Lemma invu_init ops : InvU (init ops).
Proof.
  destruct (init_shape ops) as (m & cl & n & M & N & LC & NC & TH & THR & SH).
  pose proof (init_cls ops) as CLS.
  assert (PL : forall i p, T (init ops) i = Some p -> stopper p = false /\ dtor_phase p = false /\ (dtor_pc p = true -> i = 0)).
  { intros i p H. destruct (CLS i p H) as [(L & r & ->)|(L & ->)]; [apply (goes_on_dtor i CDone), next_client_on; reflexivity|].
    repeat split; try reflexivity. discriminate. }
  constructor.
  - intros _ w [P1 P2]. rewrite THR. apply in_seq. rewrite NC in P1. rewrite TH, app_length, repeat_length, LC in P2. lia.
  - intros i j p p' H _ S. destruct (PL i p H) as (X & _). congruence.
  - intros t l q f a H. destruct (PL t _ H) as (X & _). discriminate.
  - intros t a H. destruct (PL t _ H) as (X & _). discriminate.
  - intros t p H _ S. destruct (PL t p H) as (X & _). congruence.
  - discriminate.
  - intros i p H. apply (PL i p H).
  - intros p H D. destruct (PL 0 p H) as (_ & X & _). congruence.
  - discriminate.
  - reflexivity.
Qed.

Record Inv (s : st) : Prop := { inv_a : InvA s; inv_b : InvB s; inv_u : InvU s }.

Theorem inv_step s i : Inv s -> enabled s i = true -> Inv (step s i).
Proof.
  intros [I B U] EN. rewrite (step_is_core s i U EN).
  constructor; [apply inva_core|apply invb_core|apply invu_core]; assumption.
Qed.

Theorem inv_reachable ops s : reachable ops s -> Inv s.
Proof.
  induction 1; [constructor; [apply inva_init|apply invb_init|apply invu_init]|apply inv_step; assumption].
Qed.

Definition terminal (s : st) : Prop := all_done s.

Lemma terminal_quiet s : InvB s -> terminal s ->
  destroyed s = true /\ queue s = [] /\ forall c, sumq c (thrs s) = 0.
Proof.
  intros B Tm.
  assert (D : destroyed s = true).
  { apply (b_done0 s B). pose proof (b_ncl s B) as [N1 N2].
    destruct (nth_error (thrs s) 0) as [p|] eqn:E; [|apply nth_error_None in E; lia].
    destruct (Tm 0 p E) as [->| ->]; [exact E|].
    exfalso. apply (proj2 (b_class s B 0 WExit E) N1). reflexivity. }
  split; [exact D|]. split.
  - apply (b_exit s B). apply (b_destr s B D).
  - intros c. apply sumq_zero. intros p Hin. apply In_nth_error in Hin. destruct Hin as [i Hi].
    destruct (Tm i p Hi) as [->| ->]; reflexivity.
Qed.

(* every closure handed to the pool is in exactly one place: invoked once, destroyed un-run once,
   waiting in the queue, or in the swapped-out list of one stop() in progress *)
Theorem exactly_one_place s c x : InvA s -> nth_error (clos s) c = Some x ->
  cran x + cdrop x + cnt c (queue s) + sumq c (thrs s) = 1.
Proof.
  intros I H. pose proof (a_tot s I c) as E. unfold tot in E.
  rewrite !(G_some _ _ _ _ _ H) in E.
  assert (L : Nat.ltb c (length (clos s)) = true) by (apply Nat.ltb_lt, nth_error_Some; congruence).
  rewrite L in E. exact E.
Qed.

Theorem at_most_one_outcome s c x : InvA s -> nth_error (clos s) c = Some x -> cran x + cdrop x <= 1.
Proof. intros I H. pose proof (exactly_one_place s c x I H). lia. Qed.

Theorem exactly_one_outcome s c x : Inv s -> terminal s -> nth_error (clos s) c = Some x ->
  cran x + cdrop x = 1.
Proof.
  intros [I B _] Tm H. pose proof (exactly_one_place s c x I H) as E.
  destruct (terminal_quiet s B Tm) as (_ & Q & S0). rewrite Q, S0, cnt_nil in E. lia.
Qed.

(* a closure is only ever invoked by a worker: a thread of the pool, or a client thread that has called worker() *)
Theorem ran_on_worker s c x : InvB s -> nth_error (clos s) c = Some x -> 1 <= cran x ->
  cran_on x < length (thrs s) /\ (nclients s <= cran_on x \/ In (cran_on x) (extw s)).
Proof. intros B H N. pose proof (b_ran s B c) as E. rewrite !(G_some _ _ _ _ _ H) in E. exact (E N). Qed.

(* destroying an un-run closure delivers exactly one cancellation to its waiter, for every kind *)
Theorem cancel_observable s c x : InvA s -> nth_error (clos s) c = Some x -> ccanc x = cdrop x.
Proof. intros I H. pose proof (a_canc s I c) as E. rewrite !(G_some _ _ _ _ _ H) in E. exact E. Qed.

(* at the end nobody is left hanging: every waiter was completed by a run on a worker or by exactly one
   cancellation, never both *)
Theorem no_forgotten_waiter s c x : Inv s -> terminal s -> nth_error (clos s) c = Some x ->
  cran x + ccanc x = 1.
Proof.
  intros I Tm H. pose proof (exactly_one_outcome s c x I Tm H).
  pose proof (cancel_observable s c x (inv_a s I) H). lia.
Qed.

(* nothing uses the pool after its destructor has returned: at that moment every thread of the pool has
   left worker() (or detached itself and finished), every client call has returned, nothing is queued *)
Theorem no_use_after_destroy s : Inv s ->
  uad s = false /\ (destroyed s = true -> terminal s /\ exit_ s = true /\ stopped s = true /\ queue s = [] /\ threads s = []).
Proof.
  intros [_ B U].
  split; [apply (u_uad s U)|]. intros D. destruct (b_destr s B D) as [X S]. destruct (b_exit s B X) as [Q Th].
  repeat split; auto. apply (u_dead s U D).
Qed.

Theorem terminal_all_joined s : InvB s -> terminal s ->
  destroyed s = true /\ exit_ s = true /\ queue s = [] /\ threads s = [] /\
  forall i p, T s i = Some p -> nclients s <= i -> p = WExit.
Proof.
  intros B Tm.
  destruct (terminal_quiet s B Tm) as (D & Q & _).
  destruct (b_destr s B D) as [X _]. destruct (b_exit s B X) as [_ Th].
  repeat split; auto. intros i p H L. destruct (Tm i p H) as [->| ->]; [|reflexivity].
  pose proof (proj1 (b_class s B i CDone H) L). discriminate.
Qed.

(* what the oracle looks at, in a state in which every thread has finished *)
Theorem terminal_ok s : Inv s -> terminal s ->
  destroyed s = true /\ uad s = false /\ stuck_list (thrs s) 0 = [] /\
  forall c x, nth_error (clos s) c = Some x ->
    cran x + ccanc x = 1 /\ ccanc x = cdrop x /\
    wstate x = (if Nat.eqb (cran x) 1 then 1 else 2)%Z /\
    (cran x = 1 -> cran_on x < length (thrs s) /\ (nclients s <= cran_on x \/ In (cran_on x) (extw s))).
Proof.
  intros I Tm. destruct (terminal_quiet s (inv_b s I) Tm) as (D & _ & _).
  split; [exact D|]. split; [apply (no_use_after_destroy s I)|]. split.
  - assert (GEN : forall l k, (forall p, In p l -> p = CDone \/ p = WExit) -> stuck_list l k = []).
    { induction l as [|p l IH]; intros k F; [reflexivity|]. cbn [stuck_list].
      rewrite IH by (intros; apply F; right; assumption).
      destruct (F p (or_introl eq_refl)) as [->| ->]; reflexivity. }
    apply GEN. intros p Hin. apply In_nth_error in Hin. destruct Hin as [i Hi]. apply (Tm i p Hi).
  - intros c x H. pose proof (no_forgotten_waiter s c x I Tm H) as E1.
    pose proof (cancel_observable s c x (inv_a s I) H) as E2.
    split; [exact E1|]. split; [exact E2|]. split.
    + unfold wstate. destruct (cran x) as [|[|n]]; destruct (ccanc x) as [|[|k]]; cbn; try lia; reflexivity.
    + intros X. apply (ran_on_worker s c x (inv_b s I) H). lia.
Qed.

Lemma enabled_list_In s n : forall from i, In i (enabled_list s n from) -> enabled s i = true.
Proof.
  induction n as [|n IH]; intros from i H; cbn [enabled_list] in H; [contradiction|].
  apply in_app_or in H. destruct H as [H|H].
  - destruct (enabled s from) eqn:E; [|contradiction]. destruct H as [<-|[]]. exact E.
  - eapply IH, H.
Qed.

Lemma run_sched_S f s sched tr :
  all_enabled s = [] /\ run_sched (S f) s sched tr = (s, tr) \/
  exists i, enabled s i = true /\
    run_sched (S f) s sched tr =
      let '(s1, p, e) := tstep s i in
      if uad s1 then (s1, tr ++ [[Z.of_nat i; p]; [888%Z; Z.of_nat i]])
      else run_sched f s1 (tl sched) (tr ++ [Z.of_nat i; p] :: map ev_line e).
Proof.
  cbn [run_sched]. destruct (all_enabled s) as [|e0 en] eqn:E; [left; auto|right].
  eexists. split; [|reflexivity].
  apply (enabled_list_In s (length (thrs s)) 0). fold (all_enabled s). rewrite E. apply nth_mod_In. discriminate.
Qed.

Lemma run_sched_closed (P : st -> Prop) : (forall s i, P s -> enabled s i = true -> P (step s i)) ->
  forall fuel s sched tr, P s -> P (fst (run_sched fuel s sched tr)).
Proof.
  intros ST. induction fuel as [|f IH]; intros s sched tr R; [exact R|].
  destruct (run_sched_S f s sched tr) as [[_ ->]|(i & EN & ->)]; [exact R|].
  pose proof (ST s i R EN) as R1. unfold step in R1.
  destruct (tstep s i) as [[s1 p] e]. cbn [fst] in R1.
  destruct (uad s1); [exact R1|]. apply IH. exact R1.
Qed.

Definition terminalb (s : st) : bool := forallb (fun p => negb (unfinished p)) (thrs s).
Lemma terminalb_sound s : terminalb s = true -> terminal s.
Proof.
  unfold terminalb, terminal, all_done. intros H i p Hp. rewrite forallb_forall in H.
  specialize (H p (nth_error_In _ _ Hp)). destruct p; cbn in H; try discriminate; auto.
Qed.

Definition final_state (ops : list (list Z)) : st :=
  fst (run_sched (run_fuel ops) (init ops) (flat_map decode_sched ops) []).
Lemma final_reachable ops : reachable ops (final_state ops).
Proof. apply (run_sched_closed (reachable ops)); [apply r_step|apply r_init]. Qed.
