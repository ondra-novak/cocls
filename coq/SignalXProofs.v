(* SignalXProofs.v — the cross-thread model (SignalXDefs.v): for every schedule every listener is in exactly one place. *)
From Cocls Require Import Base BaseProofs SignalXDefs.
Local Open Scope Z_scope.

Definition cnt (x : nat) (l : list nat) : nat := count_occ Nat.eq_dec l x.
Arguments cnt : simpl never.
Lemma cnt_app x a b : cnt x (a ++ b) = (cnt x a + cnt x b)%nat. Proof. apply count_occ_app. Qed.
Lemma cnt_cons x a l : cnt x (a :: l) = (cnt x [a] + cnt x l)%nat. Proof. apply (count_occ_app Nat.eq_dec [a] l). Qed.
Lemma cnt_nil x : cnt x [] = 0%nat. Proof. reflexivity. Qed.
Lemma cnt_self x : cnt x [x] = 1%nat. Proof. unfold cnt. cbn. destruct (Nat.eq_dec x x); [reflexivity|contradiction]. Qed.
Lemma cnt_in x l : In x l <-> (0 < cnt x l)%nat. Proof. apply count_occ_In. Qed.
Lemma nodup_cnt l : NoDup l <-> forall x, (cnt x l <= 1)%nat. Proof. apply NoDup_count_occ. Qed.
Lemma cnt_perm x a b : Permutation a b -> cnt x a = cnt x b.
Proof. intros H. apply (Permutation_count_occ Nat.eq_dec). exact H. Qed.

(* listener ids a thread currently holds in its program counter; a subscriber that has not done its CAS yet holds itself *)
Definition pc_ids (k : nat) (p : xpc) : list nat :=
  match p with
  | XAsub => [k]
  | XWalk w sp _ => map fst w ++ sp
  | XCbAsub i w sp _ => [i] ++ map fst w ++ sp
  | XCbApub _ w sp _ => map fst w ++ sp
  | XFutWalk i _ sp _ => [i] ++ sp
  | _ => []
  end.
Fixpoint tot (pcs : list xpc) (k : nat) : list nat :=
  match pcs with [] => [] | p :: r => pc_ids k p ++ tot r (S k) end.

(* finished: resumed (value or cancel) / freed / future resolved *)
Definition ev_fin (e : xev) : list nat := match e with XRecv i _ | XCancel i | XFree i => [i] | _ => [] end.

Definition all_ids (s : xst) : list nat :=
  map fst (x_chain s) ++ tot (x_pcs s) O ++ flat_map ev_fin (x_ev s) ++ map fst (x_resolved s).

Lemma tot_set_nth pcs : forall t k old p, nth_error pcs t = Some old ->
  forall x, (cnt x (tot (set_nth pcs t p) k) + cnt x (pc_ids (k + t) old) = cnt x (tot pcs k) + cnt x (pc_ids (k + t) p))%nat.
Proof.
  induction pcs as [|q r IH]; intros t k old p N x; destruct t; cbn in N; try discriminate.
  - inversion N; subst. cbn [set_nth tot]. rewrite Nat.add_0_r, !cnt_app. lia.
  - cbn [set_nth tot]. rewrite !cnt_app. specialize (IH _ (S k) _ p N x). replace (S k + t)%nat with (k + S t)%nat in IH by lia. lia.
Qed.

(* effect of the primitive updates on the count of an id *)
Lemma all_set_pc s t old p : nth_error (x_pcs s) t = Some old ->
  forall x, (cnt x (all_ids (set_pc s t p)) + cnt x (pc_ids t old) = cnt x (all_ids s) + cnt x (pc_ids t p))%nat.
Proof.
  intros N x. unfold all_ids, set_pc. cbn [x_chain x_pcs x_ev x_resolved]. rewrite !cnt_app.
  pose proof (tot_set_nth _ _ O _ p N x) as H. cbn [Nat.add] in H. lia.
Qed.
Lemma all_log s e x : cnt x (all_ids (log s e)) = (cnt x (all_ids s) + cnt x (flat_map ev_fin e))%nat.
Proof. unfold all_ids, log. cbn [x_chain x_pcs x_ev x_resolved]. rewrite flat_map_app, !cnt_app. lia. Qed.
Lemma all_resolve s i r x : cnt x (all_ids (resolve_fut s i r)) = (cnt x (all_ids s) + cnt x [i])%nat.
Proof. unfold all_ids, resolve_fut. cbn [x_chain x_pcs x_ev x_resolved]. rewrite map_app, !cnt_app. cbn [map fst]. lia. Qed.
Lemma all_set_lis s i y x : cnt x (all_ids (set_lis s i y)) = cnt x (all_ids s).
Proof. reflexivity. Qed.
Lemma all_set_chain s c x :
  (cnt x (all_ids (set_chain s c)) + cnt x (map fst (x_chain s)) = cnt x (all_ids s) + cnt x (map fst c))%nat.
Proof. unfold all_ids, set_chain. cbn [x_chain x_pcs x_ev x_resolved]. rewrite !cnt_app. lia. Qed.
Lemma all_strong s n c x : cnt x (all_ids (set_strong_cur s n c)) = cnt x (all_ids s).
Proof. reflexivity. Qed.

(* the updates that do not touch the program counters keep every program counter *)
Lemma pcs_log s e : x_pcs (log s e) = x_pcs s. Proof. reflexivity. Qed.
Lemma pcs_resolve s i r : x_pcs (resolve_fut s i r) = x_pcs s. Proof. reflexivity. Qed.

Lemma wlog_fin t r : flat_map ev_fin [wlog t r] = [].
Proof. destruct r; reflexivity. Qed.

Lemma sub_finish_all s t old : nth_error (x_pcs s) t = Some old ->
  forall x, (cnt x (all_ids (sub_finish s t)) + cnt x (pc_ids t old) = cnt x (all_ids s))%nat.
Proof.
  intros N x. unfold sub_finish. destruct (t_kind (lis_of s t) =? 1).
  - destruct (res_of (x_resolved s) t) as [r|].
    + pose proof (all_set_pc (log s [wlog t r]) _ _ XDone N x) as H. rewrite all_log, wlog_fin in H.
      cbn [pc_ids] in H. rewrite !cnt_nil in H. lia.
    + pose proof (all_set_pc _ _ _ XFlag N x) as H. cbn [pc_ids] in H. rewrite cnt_nil in H. lia.
  - pose proof (all_set_pc _ _ _ XDone N x) as H. cbn [pc_ids] in H. rewrite cnt_nil in H. lia.
Qed.

Lemma continue_all s t k old : nth_error (x_pcs s) t = Some old ->
  forall x, (cnt x (all_ids (continue s t k)) + cnt x (pc_ids t old) = cnt x (all_ids s))%nat.
Proof.
  intros N x. destruct k as [[|a acts]|]; cbn [continue].
  - pose proof (all_set_pc _ _ _ XDone N x) as H. cbn [pc_ids] in H. rewrite cnt_nil in H. lia.
  - pose proof (all_set_pc _ _ _ (XStep (a :: acts)) N x) as H. cbn [pc_ids] in H. rewrite cnt_nil in H. lia.
  - apply sub_finish_all. exact N.
Qed.

Lemma resume_go_all sp : forall s t k old, nth_error (x_pcs s) t = Some old ->
  forall x, (cnt x (all_ids (resume_go s t sp k)) + cnt x (pc_ids t old) = cnt x (all_ids s) + cnt x sp)%nat.
Proof.
  induction sp as [|i r IH]; intros s t k old N x; cbn [resume_go].
  - rewrite cnt_nil. pose proof (continue_all s t k old N x). lia.
  - rewrite (cnt_cons x i r). destruct (t_kind (lis_of s i) =? 1).
    + destruct (nth i (x_pcs s) XDone);
        try (pose proof (IH (resolve_fut s i (x_read s)) t k old N x) as H; rewrite all_resolve in H; lia).
      pose proof (all_set_pc _ _ _ (XFutWalk i (x_read s) r k) N x) as H. cbn [pc_ids] in H. rewrite cnt_app in H. lia.
    + set (e := match x_read s with Some z => XRecv i z | None => XCancel i end).
      pose proof (IH (log s [e]) t k old N x) as H. rewrite all_log in H.
      assert (F : flat_map ev_fin [e] = [i]) by (unfold e; destruct (x_read s); reflexivity). rewrite F in H. lia.
Qed.

Lemma walk_next_all s t w sp k old : nth_error (x_pcs s) t = Some old ->
  forall x, (cnt x (all_ids (walk_next s t w sp k)) + cnt x (pc_ids t old) = cnt x (all_ids s) + cnt x (map fst w) + cnt x sp)%nat.
Proof.
  intros N x. destruct w as [|a w]; cbn [walk_next].
  - cbn [map]. rewrite cnt_nil. pose proof (resume_go_all sp s t k old N x). lia.
  - pose proof (all_set_pc _ _ _ (XWalk (a :: w) sp k) N x) as H. cbn [pc_ids] in H. rewrite cnt_app in H. lia.
Qed.

Lemma release_all s t k old : nth_error (x_pcs s) t = Some old ->
  forall x, (cnt x (all_ids (release s t k)) + cnt x (pc_ids t old) = cnt x (all_ids s))%nat.
Proof.
  intros N x. unfold release. destruct (Nat.eqb (Nat.pred (x_strong s)) 0).
  - pose proof (all_set_pc (set_strong_cur s (Nat.pred (x_strong s)) None) _ _ (XRchain k) N x) as H.
    rewrite all_strong in H. cbn [pc_ids] in H. rewrite cnt_nil in H. lia.
  - exact (continue_all (set_strong_cur s (Nat.pred (x_strong s)) (x_cur s)) _ k _ N x).
Qed.

(* one step of any thread conserves every id *)
Lemma xstep_all s t x : cnt x (all_ids (xstep s t)) = cnt x (all_ids s).
Proof.
  unfold xstep. destruct (nth_error (x_pcs s) t) as [pc|] eqn:N; [|reflexivity].
  destruct pc as [acts|acts| | | |k|w sp k|i w sp k|i w sp k|i r sp k|].
  - (* step *) destruct acts as [|a acts].
    + pose proof (all_set_pc _ _ _ XDone N x) as H. cbn [pc_ids] in H. rewrite cnt_nil in H. lia.
    + destruct (a =? 1).
      * set (s1 := mkX _ _ _ _ _ _ _ _). pose proof (all_set_pc s1 _ _ (XRchain (KColl acts)) N x) as H.
        cbn [pc_ids] in H. rewrite cnt_nil in H. change (cnt x (all_ids s1)) with (cnt x (all_ids s)) in H. lia.
      * pose proof (release_all s t (KColl []) _ N x) as H. cbn [pc_ids] in H. rewrite cnt_nil in H. lia.
  - (* wait for the registration *) destruct acts as [|a acts].
    + pose proof (all_set_pc _ _ _ XDone N x) as H. cbn [pc_ids] in H. rewrite cnt_nil in H. lia.
    + pose proof (all_set_pc _ _ _ (XStep (a :: acts)) N x) as H. cbn [pc_ids] in H. rewrite cnt_nil in H. lia.
  - (* asub *) set (c := (t, t_kind (lis_of s t) =? 2) :: x_chain s).
    pose proof (all_set_pc (set_chain s c) _ _ XApub N x) as H. pose proof (all_set_chain s c x) as H2.
    unfold c in H2. cbn [map fst] in H2. rewrite (cnt_cons x t) in H2. cbn [pc_ids] in H. rewrite cnt_nil in H. fold c in H2. lia.
  - (* apub *) pose proof (release_all s t KSub _ N x) as H. cbn [pc_ids] in H. rewrite cnt_nil in H. lia.
  - (* flag *) destruct (res_of (x_resolved s) t) as [r|]; [|reflexivity].
    pose proof (all_set_pc (log s [wlog t r]) _ _ XDone N x) as H. rewrite all_log, wlog_fin in H.
    cbn [pc_ids] in H. rewrite !cnt_nil in H. lia.
  - (* rchain *) pose proof (walk_next_all (set_chain s []) t (x_chain s) [] k _ N x) as H. pose proof (all_set_chain s [] x) as H2.
    cbn [pc_ids map] in *. rewrite !cnt_nil in *. lia.
  - (* walk *) destruct w as [|[i cb] w].
    + pose proof (walk_next_all s t [] sp k _ N x) as H. cbn [pc_ids map app] in H. rewrite cnt_nil in H. lia.
    + (* the thread holds i, the rest of the walk list and the collected handles *)
      assert (C : forall cb, cnt x (pc_ids t (XWalk ((i, cb) :: w) sp k)) = (cnt x [i] + cnt x (map fst w) + cnt x sp)%nat).
      { intros ?. cbn [pc_ids map fst app]. rewrite (cnt_cons x i), cnt_app. lia. }
      destruct cb.
      * destruct (x_read s) as [v|].
        -- set (y := lis_of s i). set (s1 := log (set_lis s i _) [XCall i v]).
           assert (A1 : cnt x (all_ids s1) = cnt x (all_ids s)).
           { unfold s1. rewrite all_log, all_set_lis. cbn. rewrite cnt_nil. lia. }
           destruct (Nat.eqb (t_limit y) 0 || Nat.ltb (S (t_cnt y)) (t_limit y)).
           ++ pose proof (all_set_pc s1 _ _ (XCbAsub i w sp k) N x) as H. rewrite C in H. cbn [pc_ids] in H. rewrite !cnt_app in H. lia.
           ++ pose proof (walk_next_all (log s1 [XFree i]) t w sp k _ N x) as H. rewrite all_log, C in H. cbn [flat_map ev_fin app] in H. lia.
        -- pose proof (walk_next_all (log s [XFree i]) t w sp k _ N x) as H. rewrite all_log, C in H. cbn [flat_map ev_fin app] in H. lia.
      * pose proof (walk_next_all s t w (sp ++ [i]) k _ N x) as H. rewrite C, cnt_app in H. lia.
  - (* callback asub *) set (c := (i, true) :: x_chain s).
    pose proof (all_set_pc (set_chain s c) _ _ (XCbApub i w sp k) N x) as H. pose proof (all_set_chain s c x) as H2.
    unfold c in H2. cbn [map fst] in H2. rewrite (cnt_cons x i) in H2. fold c in H2. cbn [pc_ids] in H. rewrite !cnt_app in H. lia.
  - (* callback apub *) pose proof (walk_next_all s t w sp k _ N x) as H. cbn [pc_ids] in H. rewrite cnt_app in H. lia.
  - (* future walk *) pose proof (resume_go_all sp (resolve_fut s i r) t k _ N x) as H. rewrite all_resolve in H. cbn [pc_ids] in H. rewrite cnt_app in H. lia.
  - reflexivity.
Qed.

Lemma xrun_all fuel : forall s sched x, cnt x (all_ids (fst (xrun fuel s sched))) = cnt x (all_ids s).
Proof.
  induction fuel as [|f IH]; intros s sched x; cbn [xrun]; [reflexivity|].
  destruct (x_enabled s) as [|e0 e]; [reflexivity|].
  set (t := nth _ (e0 :: e) O).
  destruct (xrun f (xstep s t) (tl sched)) as [s' tr] eqn:R. cbn [fst].
  pose proof (IH (xstep s t) (tl sched) x) as H. rewrite R in H. cbn [fst] in H. rewrite H. apply xstep_all.
Qed.

(* initially: nothing in the chain, nothing finished; every subscriber holds itself (once), the collector nothing *)
Fixpoint subs_from (thr : list (xpc * xlis)) (k : nat) : list nat :=
  match thr with [] => [] | x :: r => (match fst x with XAsub => [k] | _ => [] end) ++ subs_from r (S k) end.

Definition init_pc (p : xpc) : Prop := match p with XAsub | XStep _ | XWaitReg _ | XDone => True | _ => False end.

Lemma tot_init h thr : Forall (fun x => init_pc (fst x)) thr -> forall k, tot (map (ipc h) thr) k = subs_from thr k.
Proof.
  induction 1 as [|[p l] r Hp _ IH]; intros k; cbn [map tot subs_from]; [reflexivity|].
  rewrite IH. unfold ipc. cbn [fst] in *. destruct p; cbn [pc_ids init_pc] in *; try reflexivity; try destruct Hp.
  destruct h; reflexivity.
Qed.

Lemma decode_thr_init l : Forall (fun x => init_pc (fst x)) (decode_thr l).
Proof.
  unfold decode_thr. destruct l as [|z l]; [constructor|].
  (* the first number of the line: 2 = xO xH is the collector, 1 = xH a subscriber, anything else decodes to nothing *)
  destruct z as [|[p|[p|p|]|]|p]; try (constructor; fail).
  - constructor; [|constructor]. cbn [fst]. destruct (truncate_acts l); exact I.
  - destruct l as [|k [|lim [|? ?]]]; try constructor. destruct (_ && _); repeat constructor.
Qed.

Lemma decode_init ops : Forall (fun x => init_pc (fst x)) (flat_map decode_thr ops).
Proof.
  induction ops as [|l t IH]; cbn [flat_map]; [constructor|]. apply Forall_app. split; [apply decode_thr_init|exact IH].
Qed.

Lemma subs_from_ge thr : forall k x, In x (subs_from thr k) -> (k <= x)%nat.
Proof.
  induction thr as [|[p l] r IH]; intros k x I; cbn [subs_from fst] in I; [destruct I|].
  apply in_app_or in I. destruct I as [I|I].
  - destruct p; try destruct I as [<-|[]]; try destruct I. lia.
  - specialize (IH _ _ I). lia.
Qed.
Lemma subs_from_nodup thr : forall k, NoDup (subs_from thr k).
Proof.
  induction thr as [|[p l] r IH]; intros k; cbn [subs_from fst]; [constructor|].
  destruct p; cbn [app]; try apply IH. constructor; [|apply IH]. intros I. apply subs_from_ge in I. lia.
Qed.

(* Any threads in their initial program counters, every schedule, any length: each listener id is, at every moment, in
   exactly one place — not yet subscribed (its thread is before its CAS), in the chain, held by a thread that is walking
   a taken chain, or finished.  Nobody else is anywhere: never lost, never doubled. *)
Theorem x_conservation thr fuel sched : Forall (fun p => init_pc (fst p)) thr ->
  let s := fst (xrun fuel (x_init thr) sched) in
  (forall x, cnt x (all_ids s) = cnt x (subs_from thr O)) /\ NoDup (all_ids s).
Proof.
  intros F s.
  assert (C : forall x, cnt x (all_ids s) = cnt x (subs_from thr O)).
  { intros x. unfold s. rewrite xrun_all. unfold all_ids, x_init. cbn [x_chain x_pcs x_ev x_resolved map flat_map app].
    rewrite (tot_init _ thr F), ?cnt_app, ?cnt_nil. lia. }
  split; [exact C|]. apply nodup_cnt. intros x. rewrite C. apply nodup_cnt, subs_from_nodup.
Qed.

Lemma tot_done pcs : forall k, Forall (fun p => p = XDone) pcs -> tot pcs k = [].
Proof. induction pcs as [|p r IH]; intros k F; [reflexivity|]. inversion F; subst. cbn [tot pc_ids app]. apply IH. assumption. Qed.

(* ... and when every thread has finished, every subscriber is either still subscribed or finished exactly once *)
Theorem x_terminal thr fuel sched : Forall (fun p => init_pc (fst p)) thr ->
  let s := fst (xrun fuel (x_init thr) sched) in
  Forall (fun p => p = XDone) (x_pcs s) ->
  forall x, In x (subs_from thr O) ->
  cnt x (map fst (x_chain s) ++ flat_map ev_fin (x_ev s) ++ map fst (x_resolved s)) = 1%nat.
Proof.
  intros F s D x I. destruct (x_conservation thr fuel sched F) as (C & _). fold s in C. specialize (C x).
  unfold all_ids in C. rewrite (tot_done _ O D) in C. cbn [app] in C. rewrite C.
  apply (NoDup_count_occ' Nat.eq_dec); [apply subs_from_nodup|exact I].
Qed.
