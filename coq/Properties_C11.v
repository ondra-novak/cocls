(* Properties_C11.v — C11: every submission to a thread pool runs once on a worker or is cancelled once; stop() and
   the destructor terminate and join all workers without deadlock for every timing.
   Statements only, each proved in at most three lines from the lemmas of PoolProofs / PoolLive / PoolTerm.
   `reachable ops s` ranges over every schedule of every pool size (1..4 workers in the wire format; the proofs do not use the bound), every number of client
   threads with every program of submissions (six kinds; job bodies = lists of pool operations: submit again,
   run_detached from a worker, stop() on the own pool, current::is_stopped / any_enqueued, co_await current()),
   explicit stop() calls and client threads calling worker(), followed by the destructor.  cran / cdrop / ccanc
   count events; the places a closure can be in (queue, swapped-out list of a stop() in progress) are the real data
   structures of the model.  The model describes thread_pool.h with the C11 fixes (run(async), resume(suspend_point),
   stop() waiting for a concurrent stop()). *)
From Cocls Require Import Base BaseProofs PoolDefs PoolProofs PoolLive PoolTerm.

(* exactly-once as conservation: at every moment a closure is in exactly one of
   invoked | destroyed un-run | queued | swapped out by one stop() in progress *)
Theorem c11_exactly_one_place : forall ops s c x,
  reachable ops s -> nth_error (clos s) c = Some x ->
  cran x + cdrop x + cnt c (queue s) + sumq c (thrs s) = 1.
Proof. intros ops s c x R. apply exactly_one_place, inv_a, (inv_reachable ops s R). Qed.
Print Assumptions c11_exactly_one_place.

(* never executed twice, never executed and cancelled, never cancelled twice *)
Theorem c11_at_most_one_outcome : forall ops s c x,
  reachable ops s -> nth_error (clos s) c = Some x -> cran x + cdrop x <= 1.
Proof. intros ops s c x R. apply at_most_one_outcome, inv_a, (inv_reachable ops s R). Qed.
Print Assumptions c11_at_most_one_outcome.

(* when all threads have finished every submission has exactly one outcome *)
Theorem c11_exactly_one_outcome : forall ops s c x,
  reachable ops s -> terminal s -> nth_error (clos s) c = Some x -> cran x + cdrop x = 1.
Proof. intros ops s c x R. apply exactly_one_outcome, (inv_reachable ops s R). Qed.
Print Assumptions c11_exactly_one_outcome.

(* a closure is invoked only by a worker: a thread of the pool or a client thread that has called worker() *)
Theorem c11_ran_on_worker : forall ops s c x,
  reachable ops s -> nth_error (clos s) c = Some x -> 1 <= cran x ->
  cran_on x < length (thrs s) /\ (nclients s <= cran_on x \/ In (cran_on x) (extw s)).
Proof. intros ops s c x R. apply ran_on_worker, inv_b, (inv_reachable ops s R). Qed.
Print Assumptions c11_ran_on_worker.

(* destruction of an un-run closure delivers exactly one cancellation to its waiter, for every kind *)
Theorem c11_cancel_observable : forall ops s c x,
  reachable ops s -> nth_error (clos s) c = Some x -> ccanc x = cdrop x.
Proof. intros ops s c x R. apply cancel_observable, inv_a, (inv_reachable ops s R). Qed.
Print Assumptions c11_cancel_observable.

(* nobody is left hanging: every waiter is completed by a run or by one cancellation, never both *)
Theorem c11_no_forgotten_waiter : forall ops s c x,
  reachable ops s -> terminal s -> nth_error (clos s) c = Some x -> cran x + ccanc x = 1.
Proof. intros ops s c x R. apply no_forgotten_waiter, (inv_reachable ops s R). Qed.
Print Assumptions c11_no_forgotten_waiter.

(* no thread ever starts a pool operation after ~thread_pool has returned; when it returns every thread of the
   pool has left worker(), every client call has returned, nothing is queued, no joinable thread is left *)
Theorem c11_no_use_after_destroy : forall ops s,
  reachable ops s ->
  uad s = false /\ (destroyed s = true -> terminal s /\ exit_ s = true /\ stopped s = true /\ queue s = [] /\ threads s = []).
Proof. intros ops s R. apply no_use_after_destroy, (inv_reachable ops s R). Qed.
Print Assumptions c11_no_use_after_destroy.

Theorem c11_terminal_all_joined : forall ops s,
  reachable ops s -> terminal s ->
  destroyed s = true /\ exit_ s = true /\ queue s = [] /\ threads s = [] /\
  forall i p, T s i = Some p -> nclients s <= i -> p = WExit.
Proof. intros ops s R. apply terminal_all_joined, inv_b, (inv_reachable ops s R). Qed.
Print Assumptions c11_terminal_all_joined.

(* stop() and the destructor never deadlock, whatever the timing and whoever calls stop() (a client, the
   destructor, a job on one of the pool's own workers, several of them at once): every reachable state in which
   some thread has not finished has an enabled step — unless a client thread sits in worker() of an idle pool
   that nobody stops, or a thread waits for the outcome of a submission (a job / the client program made itself depend on
   it; e.g. a job waiting for a task queued behind it on a one-worker pool): deadlocks of the client program *)
Theorem c11_stop_no_deadlock : forall ops s,
  reachable ops s -> ~ terminal s -> (exists i, enabled s i = true) \/ user_stuck s \/ waits_for_submission s.
Proof. intros ops s R. apply stop_no_deadlock; [apply (inv_reachable ops s R)|apply (invc_reachable ops s R)]. Qed.
Print Assumptions c11_stop_no_deadlock.

(* no lost wake-up: whenever work is queued in a running pool, every sleeping worker has a wake-up pending (so a
   submission is never left in the queue next to an idle worker, and a job that waits for another submission's
   outcome is not stranded by the pool) *)
Theorem c11_no_lost_wakeup : forall ops s i,
  reachable ops s -> exit_ s = false -> queue s <> [] -> T s i = Some WSleep -> enabled s i = true.
Proof. intros ops s i R. apply no_lost_wakeup, (invc_reachable ops s R). Qed.
Print Assumptions c11_no_lost_wakeup.

(* every run is finite: from a reachable state no schedule can make more than mu s steps (mu: remaining client
   programs + job bodies + queued closures + pending wake-ups + join lists) *)
Theorem c11_runs_are_finite : forall ops s n s',
  reachable ops s -> steps s n s' -> n + mu s' <= mu s.
Proof. intros ops s n s' R. apply runs_are_finite, (inv_reachable ops s R). Qed.
Print Assumptions c11_runs_are_finite.

(* hence the run of every case file, under every schedule, ends with every thread finished: the destructor has
   joined all workers (or the client program deadlocked itself by leaving a thread in worker() of an idle pool) *)
Theorem c11_run_ends : forall ops,
  terminal (final_state ops) \/ user_stuck (final_state ops) \/ waits_for_submission (final_state ops).
Proof. intros ops. apply run_sched_ends; [apply (inv_reachable ops), r_init|apply invc_init|apply le_n]. Qed.
Print Assumptions c11_run_ends.

(* the model satisfies, at the end of every run, what the oracle demands of an implementation trace *)
Theorem c11_model_final_ok : forall ops, ~ user_stuck (final_state ops) -> ~ waits_for_submission (final_state ops) ->
  let s := final_state ops in
  destroyed s = true /\ uad s = false /\ stuck_list (thrs s) 0 = [] /\
  forall c x, nth_error (clos s) c = Some x ->
    cran x + ccanc x = 1 /\ ccanc x = cdrop x /\
    wstate x = (if Nat.eqb (cran x) 1 then 1 else 2)%Z /\
    (cran x = 1 -> cran_on x < length (thrs s) /\ (nclients s <= cran_on x \/ In (cran_on x) (extw s))).
Proof.
  intros ops NU NW. destruct (c11_run_ends ops) as [Tm|[US|WS]]; [|contradiction|contradiction].
  apply terminal_ok; [apply (inv_reachable ops), final_reachable|exact Tm].
Qed.
Print Assumptions c11_model_final_ok.

(* non-vacuity: 2 workers; a job that queries, hops to the current pool and then stops its own pool, while another
   client submits resume(suspend_point) and the destructor races with the job's stop(): the run reaches a terminal
   state, every closure has exactly one outcome *)
Example c11_nonvacuous :
  let ops := [[1;2]; [2;0;3;7;9;6]; [2;1;4]; [2;1;5;3]; [9; 0;2;1;0;3;1;1;2;0;0;3;3;1]]%Z in
  let s := final_state ops in
  terminalb s = true /\ length (clos s) = 4 /\
  forallb (fun x => Nat.eqb (cran x + ccanc x) 1) (clos s) = true /\ uad s = false.
Proof. vm_compute. repeat split. Qed.
