(* SharedInv.v — the invariant of the shared_future model and its preservation by a step of the creator, of a user and of
   the resolver *)
From Cocls Require Import Base BaseProofs SharedDefs.
Local Open Scope nat_scope.

Inductive reachable (ops : list (list Z)) : st -> Prop :=
| r_init : reachable ops (init ops)
| r_step s i : reachable ops s -> enabled s i = true -> reachable ops (fst (tstep s i)).

Definition b2n (b : bool) : nat := if b then 1 else 0.
(* handles owned by the creator / by a user at a given pc *)
Definition cpc_handles (m : cmode) (pc : cpc) : nat :=
  match pc with CDrop O => 1 | CDrop k => k | CDone => 0 | _ => own_handles m end.
Definition upc_handles (pc : upc) : nat :=
  match pc with UWait0 | UDone => 0 | UDecO => 2 | _ => 1 end.
Fixpoint sumu (l : list uthr) : nat :=
  match l with [] => 0 | u :: r => upc_handles (upcf u) + sumu r end.
Definition nh (s : st) : nat := cpc_handles (mode s) (cpcf s) + sumu (users s).

Fixpoint cnt (n : node) (l : list node) : nat :=
  match l with [] => 0 | x :: r => (if node_eqb n x then 1 else 0) + cnt n r end.
Fixpoint cntn (w : nat) (l : list nat) : nat :=
  match l with [] => 0 | x :: r => (if Nat.eqb w x then 1 else 0) + cntn w r end.
Definition chain (s : st) : list node := match slot s with SChain l => l | SReady => [] end.
Definition tcount (s : st) : nat :=
  cnt NT (chain s) + cnt NT (walk s) + match rpcf s with RClr => 1 | _ => 0 end.
(* a user whose awaiter is linked in the chain / the detached rest / the suspend point *)
Definition inlist (u : uthr) : nat :=
  match upcf u with UParked => 1 | UFlag => if uflag u then 0 else 1 | _ => 0 end.
Definition inl (us : list uthr) (w : nat) : nat :=
  match nth_error us w with Some u => inlist u | None => 0 end.
Definition occ (s : st) (w : nat) : nat :=
  cnt (NU w) (chain s) + cnt (NU w) (walk s) + cntn w (acc s).
Definition is_ready (s : st) : bool := match slot s with SReady => true | _ => false end.

Arguments sumu : simpl never.
Arguments cnt : simpl never.
Arguments cntn : simpl never.

(* which kinds can stand at which pc *)
Definition kind_pc (pc : upc) (k : ukind) : Prop :=
  match pc, k with
  | UFlag, UKAwait WBlock => True
  | UFlag, _ => False
  | UParked, UKAwait WCoro | UParked, UKAwait WCallback => True
  | UParked, _ => False
  | USub _ _, UKAwait _ => True
  | USub _ _, _ => False
  | UDec, UKAwait _ => False
  | _, _ => True
  end.
(* the sync_awaiter flag is raised only by the resolver's release of a blocked user *)
Definition kind_ok (u : uthr) : Prop :=
  kind_pc (upcf u) (ukd u) /\ (uflag u = true -> upcf u = UFlag \/ upcf u = UDone).

(* the value a state was born with (MPre: no resolver at all); the single result: that value or the resolver's payload *)
Definition born (m : cmode) : option Z := match m with MPre v => Some v | _ => None end.
Definition result (m : cmode) (k : rkind) : outcome :=
  match born m with Some v => OVal v | None => payload_of k end.
Definition expd (s : st) : outcome := result (mode s) (rk s).

(* whether a user of kind k standing at pc has picked up (polled / been resumed) *)
Definition picked (k : ukind) (pc : upc) : bool :=
  match k, pc with
  | UKPoll, UDec | UKPoll, UDone | UKAwait _, UDone => true
  | _, _ => false
  end.
(* a poll may also have seen "not ready" *)
Definition seen_ok (e : outcome) (u : uthr) : Prop :=
  if picked (ukd u) (upcf u)
  then uruns u = 1 /\ (useen u = Some e \/ ukd u = UKPoll /\ useen u = Some ONotReady)
  else uruns u = 0 /\ useen u = None.
Definition user_inv (e : outcome) (rdy : bool) (u : uthr) : Prop :=
  kind_ok u /\ seen_ok e u /\ (uflag u = true -> rdy = true).

(* where the creator stands relative to charge() *)
Inductive phase := Before | Charging | Refused | After.
Definition cphase (c : cpc) : phase :=
  match c with
  | CClaim | CDtor | CSet | CGate1 | CGate2 | CGiveE => Before
  | CSub _ _ => Charging
  | CClr => Refused
  | _ => After
  end.

(* Each clause is over the values it reads: a step that writes none of them keeps the clause by conversion. *)

(* reference count = handles + self reference, positive while the state lives; the payload dies with the state *)
Definition counted (fr n h : nat) (sr : bool) (ua pc pd : nat) : Prop :=
  (fr = 0 -> n = h + b2n sr /\ 1 <= n) /\ fr <= 1 /\ (fr = 1 -> n = 0 /\ h = 0 /\ sr = false) /\
  ua = 0 /\ pc <= 1 /\ pd = fr * pc.
(* the self reference exists exactly while charge is between `_ptr = ptr` and its outcome, or the tracer is linked *)
Definition traced (p : phase) (sr : bool) (t : nat) (rdy : bool) : Prop :=
  match p with
  | Before => sr = false /\ t = 0
  | Charging => sr = true /\ t = 0
  | Refused => sr = true /\ t = 0 /\ rdy = true
  | After => t = b2n sr /\ (rdy = true \/ sr = true)
  end.
Definition resolving (r : rpc) (rdy : bool) (wk : list node) (ac : list nat) : Prop :=
  match r with
  | RWalk | RClr => rdy = true
  | RDone _ => rdy = true /\ wk = [] /\ ac = []
  | _ => rdy = false /\ wk = [] /\ ac = []
  end.

(* a state born ready has no resolver; otherwise the payload is the declared one once the resolver has stored it *)
Definition resulted (b : option Z) (k : rkind) (r : rpc) (p : outcome) : Prop :=
  match b with
  | Some v => r = RDone false /\ p = OVal v
  | None => match r with
            | RXWait | RClaim | RG1 | RG2 | RG3 => True
            | RDone res => res = true /\ p = payload_of k
            | _ => p = payload_of k
            end
  end.

(* Prog (SharedProofs2) over the values it reads; nw: some user still has no handle *)
Definition progressing (c : cpc) (late pa rd nw : bool) : Prop :=
  match c with
  | CClaim | CGate1 | CGate2 => True
  | CDtor | CSet | CSub _ _ | CClr | CGiveE => late = true \/ pa = true
  | CDrop _ | CDone => (pa = true \/ rd = true) /\ nw = false
  | _ => pa = true \/ rd = true
  end.

(* every parked / blocked user is linked exactly once (chain, detached rest or the coroutines l still to be resumed),
   nobody else is; `linked s (acc s)` unfolds to `forall w, occ s w = inl (users s) w` *)
Definition linked (s : st) (l : list nat) : Prop :=
  forall w, cnt (NU w) (chain s) + cnt (NU w) (walk s) + cntn w l = inl (users s) w.

Lemma set_nth_length {A} (l : list A) i x : length (set_nth l i x) = length l.
Proof. apply BaseProofs.set_nth_length. Qed.

Lemma sumu_cons u r : sumu (u :: r) = upc_handles (upcf u) + sumu r.
Proof. reflexivity. Qed.

Lemma sumu_set_nth l : forall j u u', nth_error l j = Some u ->
  sumu (set_nth l j u') + upc_handles (upcf u) = sumu l + upc_handles (upcf u').
Proof.
  induction l as [|x l IH]; intros [|j] u u' H; cbn [nth_error set_nth] in *; try discriminate.
  - inversion H; subst. rewrite !sumu_cons. lia.
  - rewrite !sumu_cons. specialize (IH j u u' H). lia.
Qed.

Lemma sumu_ge l : forall j u, nth_error l j = Some u -> upc_handles (upcf u) <= sumu l.
Proof.
  induction l as [|x l IH]; intros [|j] u H; cbn [nth_error] in *; try discriminate.
  - inversion H; subst. rewrite sumu_cons. lia.
  - rewrite sumu_cons. specialize (IH j u H). lia.
Qed.

Lemma sumu_zero l : (forall u, In u l -> upc_handles (upcf u) = 0) -> sumu l = 0.
Proof.
  induction l as [|x l IH]; intros H; [reflexivity|]. rewrite sumu_cons, IH, (H x (or_introl eq_refl)); [reflexivity|].
  intros u Hu. apply H. right. exact Hu.
Qed.

Lemma inl_set_nth l j u u' w : nth_error l j = Some u ->
  inl (set_nth l j u') w = if Nat.eqb j w then inlist u' else inl l w.
Proof.
  intros H. unfold inl. rewrite nth_error_set_nth, H. destruct (Nat.eqb j w); reflexivity.
Qed.

Lemma inl_set_nth_diff l j u u' w : nth_error l j = Some u ->
  inl (set_nth l j u') w + (if Nat.eqb w j then inlist u else 0) = inl l w + (if Nat.eqb w j then inlist u' else 0).
Proof.
  intros H. rewrite (inl_set_nth l j u u' w H), (Nat.eqb_sym w j). destruct (Nat.eqb_spec j w) as [<-|]; [|reflexivity].
  unfold inl. rewrite H. lia.
Qed.

Lemma inl_set_nth_same l j u u' w : nth_error l j = Some u -> inlist u' = inlist u ->
  inl (set_nth l j u') w = inl l w.
Proof. intros H E. pose proof (inl_set_nth_diff l j u u' w H). rewrite E in *. lia. Qed.

Lemma kinds_set_nth l : forall j u u', nth_error l j = Some u -> ukd u' = ukd u ->
  map ukd (set_nth l j u') = map ukd l.
Proof.
  induction l as [|x l IH]; intros [|j] u u' H K; cbn [nth_error set_nth map] in *; try discriminate.
  - inversion H; subst. rewrite K. reflexivity.
  - f_equal. eapply IH; eassumption.
Qed.

Lemma all_set_nth (P : uthr -> Prop) l j u' :
  (forall j0 u0, nth_error l j0 = Some u0 -> P u0) -> P u' ->
  forall j0 u0, nth_error (set_nth l j u') j0 = Some u0 -> P u0.
Proof.
  intros K K' j0 u0 Q. rewrite nth_error_set_nth in Q. destruct (Nat.eqb j j0); [|eapply K; eassumption].
  destruct (nth_error l j); inversion Q; subst. exact K'.
Qed.

Lemma cnt_nil n : cnt n [] = 0. Proof. reflexivity. Qed.
Lemma cnt_cons n x r : cnt n (x :: r) = (if node_eqb n x then 1 else 0) + cnt n r. Proof. reflexivity. Qed.
Lemma cntn_nil n : cntn n [] = 0. Proof. reflexivity. Qed.
Lemma cntn_cons n x r : cntn n (x :: r) = (if Nat.eqb n x then 1 else 0) + cntn n r. Proof. reflexivity. Qed.
Lemma cntn_app n a b : cntn n (a ++ b) = cntn n a + cntn n b.
Proof. induction a as [|x a IH]; cbn [app]; rewrite ?cntn_nil, ?cntn_cons; lia. Qed.

Lemma node_eqb_NU a b : node_eqb (NU a) (NU b) = Nat.eqb a b. Proof. reflexivity. Qed.
Lemma node_eqb_NT_NU b : node_eqb NT (NU b) = false. Proof. reflexivity. Qed.
Lemma node_eqb_NU_NT b : node_eqb (NU b) NT = false. Proof. reflexivity. Qed.
Lemma node_eqb_NT : node_eqb NT NT = true. Proof. reflexivity. Qed.

Lemma inl_pos us w : 1 <= inl us w -> exists u, nth_error us w = Some u /\ inlist u = 1.
Proof.
  unfold inl. destruct (nth_error us w) as [u|]; [|lia]. intros H. exists u. split; [reflexivity|].
  unfold inlist in *. destruct (upcf u); try lia. destruct (uflag u); lia.
Qed.

Lemma inlist_handles u : inlist u = 1 -> upc_handles (upcf u) = 1.
Proof. unfold inlist. destruct (upcf u); try discriminate; reflexivity. Qed.

Lemma inlist_awaiter u : kind_ok u -> inlist u = 1 -> exists k, ukd u = UKAwait k.
Proof.
  unfold inlist. intros (K & _) H. destruct (upcf u); try discriminate; destruct (ukd u) as [| |k]; try contradiction; eauto.
Qed.

Lemma counted_alive {fr n h sr ua pc pd} : counted fr n h sr ua pc pd -> 1 <= h + b2n sr -> fr = 0 /\ 1 <= n.
Proof.
  intros (C0 & F & C1 & _) H.
  assert (fr = 0) as Z; [|split; [exact Z|apply (C0 Z)]].
  destruct fr as [|[|?]]; [reflexivity| |lia]. destruct (C1 eq_refl) as (_ & -> & ->). cbn in H. lia.
Qed.

Lemma counted_freed_once {fr n h sr ua pc pd} : counted fr n h sr ua pc pd ->
  fr <= 1 /\ pc <= 1 /\ pd <= pc /\ (fr = 0 -> pd = 0).
Proof. intros (_ & F & _ & _ & P & ->). destruct fr as [|[|?]]; lia. Qed.

Lemma counted_gone {fr n ua pc pd} : counted fr n 0 false ua pc pd -> fr = 1 /\ n = 0 /\ pd = pc.
Proof.
  intros (C0 & F & C1 & _ & _ & ->). destruct fr as [|[|?]]; [destruct (C0 eq_refl); cbn in *; lia| |lia].
  destruct (C1 eq_refl) as (-> & _). lia.
Qed.

Lemma counted_add {fr n h sr ua pc pd h' sr'} : counted fr n h sr ua pc pd -> fr = 0 ->
  h' + b2n sr' = S (h + b2n sr) -> counted fr (S n) h' sr' ua pc pd.
Proof. unfold counted. intros (C0 & C) -> E. destruct (C0 eq_refl). repeat split; try tauto; try lia. Qed.

(* h', sr': the handles and the self reference that remain after the release *)
Lemma counted_drop {fr n h sr ua pc pd h' sr'} : counted fr n h sr ua pc pd -> fr = 0 ->
  h + b2n sr = S (h' + b2n sr') ->
  counted (if Nat.eqb n 1 then S fr else fr) (n - 1) h' sr' ua pc (if Nat.eqb n 1 then pd + pc else pd).
Proof.
  unfold counted. intros (C0 & _ & _ & U & P & D) -> E. destruct (C0 eq_refl) as (N & _).
  destruct (Nat.eqb_spec n 1) as [->|]; repeat split; try lia.
  destruct sr'; [cbn in *; lia|reflexivity].
Qed.

Lemma counted_payload {fr n h sr ua pc pd pc'} : counted fr n h sr ua pc pd -> fr = 0 -> pc' <= 1 ->
  counted fr n h sr ua pc' pd.
Proof. unfold counted. intros (C0 & F & C1 & U & P & D) -> Q. repeat split; try tauto; lia. Qed.

Lemma progressing_mono {c late pa rd rd' w w'} : progressing c late pa rd w ->
  (rd = true -> rd' = true) -> (w = false -> w' = false) -> progressing c late pa rd' w'.
Proof. destruct c; cbn; tauto. Qed.

Lemma nw_set_nth l : forall j u', is_wait0 u' = false -> existsb is_wait0 l = false ->
  existsb is_wait0 (set_nth l j u') = false.
Proof.
  induction l as [|x l IH]; intros [|j] u' H E; cbn [set_nth existsb] in *; auto.
  - apply orb_false_iff in E. destruct E as (_ & E). rewrite H, E. reflexivity.
  - apply orb_false_iff in E. destruct E as (E1 & E2). rewrite E1, (IH j u' H E2). reflexivity.
Qed.

Lemma progressing_next us m pa rd : pa = true \/ rd = true ->
  progressing (next_give us m) (is_late m) pa rd (existsb is_wait0 us).
Proof. intros H. unfold next_give. destruct (existsb is_wait0 us); cbn; auto. Qed.

Lemma traced_eq {p sr t t' rdy} : traced p sr t rdy -> t' = t -> traced p sr t' rdy.
Proof. intros H ->. exact H. Qed.

Lemma traced_ready {p sr t rdy} : traced p sr t rdy -> traced p sr t true.
Proof. destruct p; cbn; tauto. Qed.

Lemma traced_clear p sr t : traced p sr (S t) true -> sr = true /\ traced p false t true.
Proof. destruct p, sr; cbn; intuition (try discriminate; try lia). Qed.

Lemma cpc_handles_next us m : cpc_handles m (next_give us m) = own_handles m.
Proof. unfold next_give. destruct (existsb is_wait0 us); [reflexivity|]. destruct m; reflexivity. Qed.

Lemma cpc_handles_next_early us m : cpc_handles m (next_early us) = own_handles m.
Proof. unfold next_early. destruct (existsb is_early us); reflexivity. Qed.

Lemma cphase_next us m : cphase (next_give us m) = After.
Proof. unfold next_give. destruct (existsb is_wait0 us); reflexivity. Qed.

Lemma cphase_next_early us : cphase (next_early us) = Before.
Proof. unfold next_early. destruct (existsb is_early us); reflexivity. Qed.

Lemma cpc_handles_pos m c : c <> CDone -> 1 <= cpc_handles m c.
Proof. destruct c as [| | | | | |[|k]| | | |]; try congruence; destruct m; cbn; lia. Qed.

(* drop_ref on a live state, field by field so that what it does not write computes *)
Definition dropped (s : st) : st :=
  let last := Nat.eqb (rc s) 1 in
  mkSt (mode s) (rk s) (cpcf s) (rpcf s) (slot s) (payload s) (rc s - 1) (selfref s)
       (if last then S (freed s) else freed s) (pctor s) (if last then pdtor s + pctor s else pdtor s)
       (uaf s) (pavail s) (walk s) (acc s) (users s).

Definition recount (s : st) (n f d : nat) : st :=
  mkSt (mode s) (rk s) (cpcf s) (rpcf s) (slot s) (payload s) n (selfref s) f (pctor s) d (uaf s) (pavail s)
       (walk s) (acc s) (users s).

Ltac simp_st :=
  cbn [mode rk cpcf rpcf slot payload rc selfref freed pctor pdtor uaf pavail walk acc users
       set_cpc set_rpc set_users set_user set_slot set_payload set_rc set_selfref set_pavail set_walk set_acc
       bump_uaf free_state dropped recount after_charge fst] in *.

Ltac unfold_st := unfold linked, nh, tcount, chain, is_ready in *; simp_st.
(* the proofs that call it refer to the clauses by these names *)
Ltac open_inv I := destruct I as [Icnt Itr Irs Ires Ipg Idc Ius]; unfold_st.
(* a clause over fields the step did not write is convertible to its hypothesis: closed by assumption *)
Ltac inv_goals := split; [constructor|]; unfold_st; try assumption; try exact Logic.I.

Definition done_user (s : st) (u : uthr) : uthr :=
  mkU (ucp u) (ukd u) UDone (uflag u) (Some (payload s)) (S (uruns u)).

(* facts about the pc a user leaves and the one it goes to, decided by its prefix and its kind *)
Ltac by_kind u PC :=
  unfold inlist; cbn [upcf set_upc uflag]; rewrite ?PC; destruct (ucp u), (ukd u) as [| |[| |]]; cbn;
  try contradiction; try discriminate; reflexivity || exact Logic.I.

(* for a shared state declared with mode m0, resolver kind r0 and users of the kinds ks *)
Section Invariant.
Context {m0 : cmode} {r0 : rkind} {ks : list ukind}.

Record Clauses (s : st) : Prop := {
  cnt_ok : counted (freed s) (rc s) (nh s) (selfref s) (uaf s) (pctor s) (pdtor s);
  tr_ok : traced (cphase (cpcf s)) (selfref s) (tcount s) (is_ready s);
  rs_ok : resolving (rpcf s) (is_ready s) (walk s) (acc s);
  res_ok : resulted (born (mode s)) (rk s) (rpcf s) (payload s);
  pg_ok : progressing (cpcf s) (is_late (mode s)) (pavail s) (match rpcf s with RDone _ => true | _ => false end)
                      (existsb is_wait0 (users s));
  dc_ok : mode s = m0 /\ rk s = r0 /\ map ukd (users s) = ks;
  us_ok : forall j u, nth_error (users s) j = Some u -> user_inv (expd s) (is_ready s) u
}.

(* `linked` stands beside the clauses because resume_all keeps it for the coroutines still to run, not for acc s *)
Definition Inv (s : st) : Prop := Clauses s /\ linked s (acc s).

Lemma kd_ok s : Clauses s -> forall j u, nth_error (users s) j = Some u -> kind_ok u.
Proof. intros I j u H. apply (us_ok s I j u H). Qed.

Lemma ready_payload s : Clauses s -> is_ready s = true -> payload s = expd s.
Proof.
  intros I RY. pose proof (rs_ok s I) as RS. pose proof (res_ok s I) as F. rewrite RY in RS. unfold expd, result.
  destruct (born (mode s)); [apply F|]. destruct (rpcf s); try apply F; destruct RS; discriminate.
Qed.

Lemma alive_of_handles s : Clauses s -> 1 <= nh s -> freed s = 0 /\ 1 <= rc s.
Proof. intros I H. apply (counted_alive (cnt_ok s I)). lia. Qed.

Lemma alive_of_selfref s : Clauses s -> selfref s = true -> freed s = 0 /\ 1 <= rc s.
Proof. intros I H. apply (counted_alive (cnt_ok s I)). rewrite H. cbn. lia. Qed.

Lemma alive_creator s : Clauses s -> cpcf s <> CDone -> freed s = 0 /\ 1 <= rc s.
Proof.
  intros I H. apply alive_of_handles; [exact I|]. unfold nh. pose proof (cpc_handles_pos (mode s) _ H). lia.
Qed.

Lemma alive_user s j u : Clauses s -> nth_error (users s) j = Some u -> 1 <= upc_handles (upcf u) ->
  freed s = 0 /\ 1 <= rc s.
Proof.
  intros I H U. apply alive_of_handles; [exact I|]. unfold nh. pose proof (sumu_ge _ _ _ H). lia.
Qed.

(* while the future is pending the state is alive: the creator is still inside the constructor / get_promise,
   or the tracer holds the self reference *)
Lemma alive_pending s : Clauses s -> is_ready s = false -> freed s = 0 /\ 1 <= rc s.
Proof.
  intros I H. pose proof (tr_ok s I) as TR. rewrite H in TR.
  destruct (cpcf s) eqn:C; try (apply alive_creator; [exact I|congruence]).
  destruct TR as (_ & [Q|Q]); [discriminate|]. apply alive_of_selfref; assumption.
Qed.

Lemma alive_tracer s : Clauses s -> 1 <= tcount s -> freed s = 0 /\ 1 <= rc s.
Proof.
  intros I H. pose proof (tr_ok s I) as TR.
  destruct (cpcf s) eqn:C; try (apply alive_creator; [exact I|congruence]).
  destruct TR as (Q & _). apply alive_of_selfref; [exact I|]. destruct (selfref s); [reflexivity|cbn in Q; lia].
Qed.

Lemma touch_alive s : freed s = 0 -> touch s = s.
Proof. unfold touch. intros ->. reflexivity. Qed.
Lemma add_ref_alive s : freed s = 0 -> add_ref s = set_rc s (S (rc s)).
Proof. intros H. unfold add_ref. rewrite touch_alive by exact H. reflexivity. Qed.
Lemma drop_ref_alive s : freed s = 0 -> 1 <= rc s -> drop_ref s = dropped s.
Proof.
  intros H R. unfold drop_ref, dropped. rewrite touch_alive by exact H.
  destruct (rc s) as [|[|n]]; [lia|reflexivity|reflexivity].
Qed.

Lemma decode_user_fresh ops u : In u (flat_map decode_user ops) ->
  upcf u = UWait0 /\ uflag u = false /\ useen u = None /\ uruns u = 0.
Proof.
  intros H. apply in_flat_map in H. destruct H as (l & _ & H). unfold decode_user in H.
  repeat match type of H with
  | In _ (match ?x with _ => _ end) => destruct x; cbn [In] in H; try contradiction
  end.
  destruct H as [ <- |[]]. repeat split.
Qed.

Lemma inl_wait0 l w : (forall u, In u l -> upcf u = UWait0) -> inl l w = 0.
Proof.
  intros H. unfold inl. destruct (nth_error l w) as [u|] eqn:E; [|reflexivity].
  apply nth_error_In in E. unfold inlist. rewrite (H u E). reflexivity.
Qed.

Lemma give_spec l : forall us, give l = Some us ->
  exists j u, nth_error l j = Some u /\ upcf u = UWait0 /\ us = set_nth l j (set_upc u UWait1).
Proof.
  induction l as [|x l IH]; intros us H; cbn [give] in H; [discriminate|].
  unfold is_wait0 in H. destruct (upcf x) eqn:E;
    try (destruct (give l) as [r|] eqn:G; [|discriminate]; inversion H; subst;
         destruct (IH r eq_refl) as (j & u & A & B & ->); exists (S j), u; repeat split; assumption).
  inversion H; subst. exists 0, x. repeat split. exact E.
Qed.

Lemma give_none l : give l = None -> existsb is_wait0 l = false.
Proof.
  induction l as [|x l IH]; intros H; cbn [give existsb] in *; [reflexivity|].
  destruct (is_wait0 x); [discriminate|]. destruct (give l); [discriminate|]. cbn. apply IH. reflexivity.
Qed.

Lemma give_early_spec l : forall us, give_early l = Some us ->
  exists j u, nth_error l j = Some u /\ upcf u = UWait0 /\ us = set_nth l j (set_upc u UWait1).
Proof.
  induction l as [|x l IH]; intros us H; cbn [give_early] in H; [discriminate|].
  destruct (is_early x) eqn:E.
  - inversion H; subst. exists 0, x. repeat split. unfold is_early, is_wait0 in E. apply andb_prop in E. destruct E as (E & _).
    destruct (upcf x); try discriminate. reflexivity.
  - destruct (give_early l) as [r|] eqn:G; [|discriminate]. inversion H; subst.
    destruct (IH r eq_refl) as (j & u & A & B & ->). exists (S j), u. repeat split; assumption.
Qed.

Lemma given_user e rdy us j u : (forall j0 u0, nth_error us j0 = Some u0 -> user_inv e rdy u0) ->
  nth_error us j = Some u -> upcf u = UWait0 ->
  let us' := set_nth us j (set_upc u UWait1) in
  sumu us' = S (sumu us) /\ map ukd us' = map ukd us /\
  (forall j0 u0, nth_error us' j0 = Some u0 -> user_inv e rdy u0) /\ forall w, inl us' w = inl us w.
Proof.
  intros K H P us'. subst us'. pose proof (sumu_set_nth us j u (set_upc u UWait1) H) as SU. rewrite P in SU. cbn in SU.
  split; [lia|]. split; [apply (kinds_set_nth us j u); [exact H|reflexivity]|]. split.
  - apply all_set_nth; [exact K|]. destruct (K j u H) as ((_ & F) & SK & FL). repeat split; [| |exact FL].
    + cbn. intros Q. destruct (F Q); congruence.
    + unfold seen_ok in *. cbn. rewrite P in SK. destruct (ukd u); exact SK.
  - intros w. apply (inl_set_nth_same us j u); [exact H|]. unfold inlist. rewrite P. reflexivity.
Qed.

Lemma inv_cstep s : Inv s -> cpcf s <> CDone -> Inv (fst (cstep s)).
Proof.
  intros [I L] E. destruct (alive_creator s I E) as (A & B).
  destruct s as [m k c r sl p n sr fr pc pd ua pa wk ac us]. open_inv I. subst fr.
  unfold cstep; simp_st. destruct c as [| | |rt e| | |k0| | | |]; try congruence; simp_st.
  - (* CClaim *) destruct m; inv_goals; right; reflexivity.
  - (* CDtor *)
    rewrite touch_alive by reflexivity. destruct m; try (inv_goals; fail); destruct sl; inv_goals.
    all: rewrite ?cpc_handles_next, ?cphase_next; try exact Icnt.
    all: try (apply progressing_next; destruct Ipg as [Q|Q]; [discriminate|left; exact Q]).
    all: destruct Itr as (-> & T); split; [exact T|left; reflexivity].
  - (* CSet *)
    rewrite add_ref_alive by reflexivity. destruct Itr as (-> & T). inv_goals.
    + apply (counted_add Icnt eq_refl). cbn. lia.
    + split; [reflexivity|exact T].
  - (* CSub *)
    rewrite touch_alive by reflexivity. destruct Itr as (-> & T). destruct sl as [l|]; simp_st; [destruct (onode_eqb (head l) e)|]; inv_goals.
    + rewrite cpc_handles_next. exact Icnt.
    + rewrite cphase_next, cnt_cons. split; [cbn; lia|right; reflexivity].
    + apply progressing_next. left. destruct Ipg as [->| ->]; auto using orb_true_r.
    + split; [reflexivity|exact T].
    + repeat split. exact T.
  - (* CClr *)
    destruct Itr as (-> & T & R). rewrite touch_alive by reflexivity. rewrite drop_ref_alive by (reflexivity || exact B). inv_goals.
    + rewrite cpc_handles_next. apply (counted_drop Icnt eq_refl). cbn. lia.
    + rewrite cphase_next. split; [exact T|left; exact R].
    + apply progressing_next. left. destruct Ipg as [->| ->]; auto using orb_true_r.
  - (* CGive *)
    destruct (give us) as [us'|] eqn:G.
    + destruct (give_spec _ _ G) as (j & u & Hj & Hu & ->). destruct (given_user _ _ us j u Ius Hj Hu) as (SU & KQ & K' & IL).
      rewrite add_ref_alive by reflexivity. inv_goals.
      * rewrite cpc_handles_next. apply (counted_add Icnt eq_refl). rewrite SU. cbn. lia.
      * rewrite cphase_next. exact Itr.
      * apply progressing_next. exact Ipg.
      * rewrite KQ. exact Idc.
      * intros w. rewrite IL. apply L.
    + inv_goals; [destruct m; exact Icnt|split; [exact Ipg|apply give_none; exact G]].
  - (* CDrop *)
    rewrite drop_ref_alive by (reflexivity || exact B). inv_goals.
    + apply (counted_drop Icnt eq_refl). destruct k0 as [|[|[|?]]]; cbn; lia.
    + destruct k0 as [|[|?]]; exact Itr.
    + destruct k0 as [|[|?]]; exact Ipg.
  - (* CGate1 *) inv_goals.
  - (* CGate2 *) inv_goals. right. reflexivity.
  - (* CGiveE *)
    destruct (give_early us) as [us'|] eqn:G.
    + destruct (give_early_spec _ _ G) as (j & u & Hj & Hu & ->). destruct (given_user _ _ us j u Ius Hj Hu) as (SU & KQ & K' & IL).
      rewrite add_ref_alive by reflexivity. inv_goals.
      * rewrite cpc_handles_next_early. apply (counted_add Icnt eq_refl). rewrite SU. cbn. lia.
      * rewrite cphase_next_early. exact Itr.
      * unfold next_early. destruct (existsb is_early _); exact Ipg.
      * rewrite KQ. exact Idc.
      * intros w. rewrite IL. apply L.
    + inv_goals.
Qed.

Lemma clauses_user_step s j u u' n f d : Clauses s -> nth_error (users s) j = Some u -> ukd u' = ukd u ->
  user_inv (expd s) (is_ready s) u' -> is_wait0 u' = false ->
  counted f n (cpc_handles (mode s) (cpcf s) + sumu (set_nth (users s) j u')) (selfref s) (uaf s) (pctor s) d ->
  Clauses (set_user (recount s n f d) j u').
Proof.
  intros [Icnt Itr Irs Ires Ipg Idc Ius] H KD K W C. constructor; try assumption; simp_st; [| |apply all_set_nth; assumption].
  - apply (progressing_mono Ipg); [auto|apply nw_set_nth; exact W].
  - rewrite (kinds_set_nth _ j u u' H KD). exact Idc.
Qed.

Lemma linked_set_user s s' j u u' l : linked s l -> nth_error (users s) j = Some u -> inlist u' = inlist u ->
  slot s' = slot s -> walk s' = walk s -> users s' = set_nth (users s) j u' -> linked s' l.
Proof.
  intros L H E SL WK US w. unfold chain. rewrite SL, WK, US, (inl_set_nth_same _ j u u' w H E). apply L.
Qed.

Lemma clauses_user_moves s j u u' : Clauses s -> nth_error (users s) j = Some u -> user_inv (expd s) (is_ready s) u' ->
  ukd u' = ukd u -> is_wait0 u' = false -> upc_handles (upcf u') = upc_handles (upcf u) -> Clauses (set_user s j u').
Proof.
  intros I H K KD W HU. apply (clauses_user_step s j u u' (rc s) (freed s) (pdtor s) I H KD K W).
  pose proof (sumu_set_nth _ j u u' H) as SU. replace (sumu (set_nth (users s) j u')) with (sumu (users s)) by lia.
  exact (cnt_ok s I).
Qed.

Lemma user_moves s j u u' : Inv s -> nth_error (users s) j = Some u -> user_inv (expd s) (is_ready s) u' ->
  ukd u' = ukd u -> is_wait0 u' = false -> inlist u' = inlist u -> upc_handles (upcf u') = upc_handles (upcf u) ->
  Inv (set_user s j u').
Proof.
  intros [I L] H K KD W E HU. split; [|apply (linked_set_user s _ j u u' _ L H E); reflexivity].
  apply (clauses_user_moves s j u); assumption.
Qed.

Lemma user_copies s j u u' : Inv s -> nth_error (users s) j = Some u -> user_inv (expd s) (is_ready s) u' ->
  ukd u' = ukd u -> is_wait0 u' = false -> inlist u' = inlist u -> freed s = 0 ->
  upc_handles (upcf u') = S (upc_handles (upcf u)) -> Inv (set_user (set_rc s (S (rc s))) j u').
Proof.
  intros [I L] H K KD W E A HU. split; [|apply (linked_set_user s _ j u u' _ L H E); reflexivity].
  apply (clauses_user_step s j u u' (S (rc s)) (freed s) (pdtor s) I H KD K W).
  apply (counted_add (cnt_ok s I) A). pose proof (sumu_set_nth _ j u u' H). unfold nh. lia.
Qed.

Lemma clauses_user_drops s j u u' : Clauses s -> nth_error (users s) j = Some u -> user_inv (expd s) (is_ready s) u' ->
  ukd u' = ukd u -> is_wait0 u' = false -> freed s = 0 -> upc_handles (upcf u) = S (upc_handles (upcf u')) ->
  Clauses (set_user (dropped s) j u').
Proof.
  intros I H K KD W A HU.
  apply (clauses_user_step s j u u' (rc (dropped s)) (freed (dropped s)) (pdtor (dropped s)) I H KD K W).
  apply (counted_drop (cnt_ok s I) A). pose proof (sumu_set_nth _ j u u' H). unfold nh. lia.
Qed.

Lemma user_drops s j u u' : Inv s -> nth_error (users s) j = Some u -> user_inv (expd s) (is_ready s) u' ->
  ukd u' = ukd u -> is_wait0 u' = false -> inlist u' = inlist u -> freed s = 0 ->
  upc_handles (upcf u) = S (upc_handles (upcf u')) -> Inv (set_user (dropped s) j u').
Proof.
  intros [I L] H K KD W E A HU. split; [|apply (linked_set_user s _ j u u' _ L H E); reflexivity].
  apply (clauses_user_drops s j u u'); assumption.
Qed.

Lemma user_inv_pc e rdy u pc' : user_inv e rdy u -> uflag u = false -> kind_pc pc' (ukd u) ->
  picked (ukd u) pc' = picked (ukd u) (upcf u) -> user_inv e rdy (set_upc u pc').
Proof.
  intros (_ & SK & _) NF K P. unfold user_inv, kind_ok, seen_ok in *. cbn. rewrite NF, P.
  repeat split; [exact K|discriminate|exact SK|discriminate].
Qed.

Lemma clauses_finish_user s j u k : Clauses s -> nth_error (users s) j = Some u -> upc_handles (upcf u) = 1 ->
  is_ready s = true -> ukd u = UKAwait k ->
  finish_user s j = set_user (dropped s) j (done_user s u) /\ Clauses (finish_user s j).
Proof.
  intros I H HU RY KD. destruct (alive_user s j u I H ltac:(lia)) as (A & B).
  assert (E : finish_user s j = set_user (dropped s) j (done_user s u)).
  { unfold finish_user. rewrite H, touch_alive by exact A. apply drop_ref_alive; [exact A|exact B]. }
  split; [exact E|]. rewrite E. apply (clauses_user_drops s j u); try assumption; try reflexivity.
  destruct (us_ok s I j u H) as (_ & SK & _). unfold user_inv, kind_ok, seen_ok in *. cbn. rewrite KD in *.
  rewrite (ready_payload s I RY). destruct (upcf u); try discriminate; destruct SK as (-> & _); repeat split; auto.
Qed.

(* own-thread completion of an await: the user is not linked anywhere *)
Lemma inv_finish_self s j u k : Inv s -> nth_error (users s) j = Some u -> upc_handles (upcf u) = 1 ->
  inlist u = 0 -> is_ready s = true -> ukd u = UKAwait k -> Inv (finish_user s j).
Proof.
  intros [I L] H HU IL RY KD. destruct (clauses_finish_user s j u k I H HU RY KD) as (E & I'). split; [exact I'|].
  rewrite E. apply (linked_set_user s _ j u (done_user s u) _ L H); [symmetry; exact IL|reflexivity..].
Qed.

Lemma inv_ustep s j : Inv s -> enabled s (S (S j)) = true -> Inv (fst (ustep s j)).
Proof.
  intros I0 E. pose proof I0 as [I L]. cbn [enabled] in E. destruct (nth_error (users s) j) as [u|] eqn:Hj; [|discriminate].
  pose proof (us_ok s I j u Hj) as UI. pose proof UI as ((K & F) & SK & FL). unfold ustep. rewrite Hj.
  destruct (upcf u) eqn:PC; try discriminate; cbn [fst].
  all: destruct (alive_user s j u I Hj ltac:(rewrite PC; cbn; lia)) as (A & B).
  all: rewrite ?touch_alive, ?add_ref_alive, ?drop_ref_alive by assumption.
  all: try (assert (NF : uflag u = false) by (destruct (uflag u); [destruct (F eq_refl); discriminate|reflexivity])).
  - (* UWait1 *)
    apply (user_moves s j u _ I0 Hj); [apply (user_inv_pc _ _ u _ UI NF)|reflexivity| | |]; by_kind u PC.
  - (* UInc *)
    apply (user_copies s j u _ I0 Hj); [apply (user_inv_pc _ _ u _ UI NF)|reflexivity| | |exact A|]; by_kind u PC.
  - (* UDecO *)
    apply (user_drops s j u _ I0 Hj); [apply (user_inv_pc _ _ u _ UI NF)|reflexivity| | |exact A|]; by_kind u PC.
  - (* UReady *)
    destruct (ukd u) as [| |k] eqn:KD; [| |destruct (slot s) eqn:SL].
    + apply (user_moves s j u _ I0 Hj); [apply (user_inv_pc _ _ u _ UI NF)|reflexivity| | |]; by_kind u PC.
    + (* a poll reads the result, or that there is none yet *)
      apply (user_moves s j u _ I0 Hj); [|symmetry; exact KD|reflexivity|unfold inlist; cbn; rewrite PC; reflexivity|rewrite PC; reflexivity].
      unfold user_inv, kind_ok, seen_ok in *. cbn. rewrite KD, PC, NF in *. cbn in *. destruct SK as (-> & _).
      repeat split; try discriminate. destruct (slot s) eqn:SL; [right; split; reflexivity|left].
      rewrite (ready_payload s I); [reflexivity|]. unfold is_ready. rewrite SL. reflexivity.
    + apply (user_moves s j u _ I0 Hj); [apply (user_inv_pc _ _ u _ UI NF)|reflexivity| | |]; by_kind u PC.
    + apply (inv_finish_self s j u k I0 Hj); try assumption; unfold inlist, is_ready; rewrite ?PC, ?SL; reflexivity.
  - (* USub *)
    destruct (ukd u) as [| |k] eqn:KD; try contradiction.
    destruct (slot s) as [l|] eqn:SL; [destruct (onode_eqb (head l) exp)|].
    + (* subscribed *)
      destruct I as [Icnt Itr Irs Ires Ipg Idc Ius]. destruct s as [m kr c r sl p n sr fr pc pd ua pa wk ac us]. unfold_st. subst sl.
      set (u' := set_upc u _).
      assert (upc_handles (upcf u') = 1 /\ inlist u' = 1 /\ user_inv (result m kr) false u')
        as (HU & IL & K').
      { subst u'. split; [|split; [|apply (user_inv_pc _ _ u _ UI NF)]]; unfold inlist; cbn; rewrite ?PC, ?NF, ?KD;
          destruct k; reflexivity || exact Logic.I. }
      pose proof (sumu_set_nth us j u u' Hj) as SU. rewrite HU, PC in SU. inv_goals.
      * replace (sumu (set_nth us j u')) with (sumu us) by (cbn in SU; lia). exact Icnt.
      * apply (progressing_mono Ipg); [auto|apply nw_set_nth]. subst u'. unfold is_wait0. cbn. destruct k; reflexivity.
      * rewrite (kinds_set_nth us j u u' Hj eq_refl). exact Idc.
      * apply all_set_nth; assumption.
      * intros w. pose proof (inl_set_nth_diff us j u u' w Hj) as D. unfold inlist at 1 in D. rewrite PC, IL in D.
        rewrite cnt_cons, node_eqb_NU. specialize (L w). destruct (Nat.eqb w j); lia.
    + apply (user_moves s j u _ I0 Hj); [apply (user_inv_pc _ _ u _ UI NF)|reflexivity| | |]; by_kind u PC.
    + apply (inv_finish_self s j u k I0 Hj); try assumption; unfold inlist, is_ready; rewrite ?PC, ?SL; reflexivity.
  - (* UFlag *)
    destruct (ukd u) as [| |k] eqn:KD; try contradiction.
    apply (inv_finish_self s j u k I0 Hj); auto; unfold inlist; rewrite PC, ?E; reflexivity.
  - (* UDec *)
    apply (user_drops s j u _ I0 Hj); [apply (user_inv_pc _ _ u _ UI NF)|reflexivity| | |exact A|]; by_kind u PC.
  - (* UAsg *)
    apply (user_moves s j u _ I0 Hj); [apply (user_inv_pc _ _ u _ UI NF)|reflexivity| | |]; by_kind u PC.
Qed.

Lemma linked_head x w l : linked x (w :: l) -> exists u, nth_error (users x) w = Some u /\ inlist u = 1.
Proof. intros L. apply inl_pos. specialize (L w). rewrite cntn_cons, Nat.eqb_refl in L. lia. Qed.

Lemma linked_pop x x' w u u' l : linked x (w :: l) -> nth_error (users x) w = Some u -> inlist u = 1 -> inlist u' = 0 ->
  slot x' = slot x -> walk x' = walk x -> users x' = set_nth (users x) w u' -> linked x' l.
Proof.
  intros L Hw IL IL' SL WK US w0. unfold chain. rewrite SL, WK, US.
  pose proof (inl_set_nth_diff (users x) w u u' w0 Hw) as D. rewrite IL, IL' in D.
  specialize (L w0). unfold chain in L. rewrite cntn_cons in L. destruct (Nat.eqb w0 w); lia.
Qed.

Lemma resume_all_inv l : forall s, Clauses s -> linked s l -> is_ready s = true ->
  exists us n f d, resume_all s l = set_users (recount s n f d) us /\
                   Clauses (resume_all s l) /\ linked (resume_all s l) [].
Proof.
  induction l as [|c t IH]; intros s I L RY; cbn [resume_all].
  - exists (users s), (rc s), (freed s), (pdtor s). split; [destruct s; reflexivity|split; assumption].
  - destruct (linked_head s c t L) as (u & Hc & IL). destruct (inlist_awaiter u (kd_ok s I c u Hc) IL) as (k & KD).
    destruct (clauses_finish_user s c u k I Hc (inlist_handles u IL) RY KD) as (E & I').
    destruct (IH (finish_user s c) I') as (us & n & f & d & E' & J).
    + rewrite E. apply (linked_pop s _ c u (done_user s u) t L Hc IL); reflexivity.
    + rewrite E. exact RY.
    + exists us, n, f, d. split; [|exact J]. rewrite E', E. reflexivity.
Qed.

Lemma inv_mf s : Inv s -> rpcf s = RWalk -> Inv (maybe_finish s).
Proof.
  intros [I L] RP. unfold maybe_finish. destruct (walk s) eqn:WK; [|split; assumption]. unfold finish.
  assert (RY : is_ready s = true) by (pose proof (rs_ok s I) as Q; rewrite RP in Q; exact Q).
  destruct (resume_all_inv (acc s) s I L RY) as (us' & n' & f' & d' & -> & J & L'). clear I L.
  destruct s as [m k c r sl p n sr fr pc pd ua pa wk ac us]. open_inv J. subst r wk. inv_goals.
  - repeat split. exact Irs.
  - destruct (born m); [destruct Ires; discriminate|split; [reflexivity|exact Ires]].
  - apply (progressing_mono Ipg); auto.
Qed.

(* w, just taken off the detached chain, is counted as if it stood before the collected coroutines *)
Lemma inv_release x w : Clauses x -> rpcf x = RWalk -> linked x (w :: acc x) -> Inv (maybe_finish (release_node x w)).
Proof.
  intros I RP L.
  assert (RY : is_ready x = true) by (pose proof (rs_ok x I) as Q; rewrite RP in Q; exact Q).
  destruct (linked_head x w _ L) as (u & Hw & IL). pose proof (us_ok x I w u Hw) as ((K & F) & SK & _).
  unfold release_node. rewrite Hw. pose proof IL as IL0. unfold inlist in IL0.
  destruct (ukd u) as [| |[| |]] eqn:KD; destruct (upcf u) eqn:PC; try discriminate; try contradiction.
  - (* coroutine *)
    apply inv_mf; [|exact RP]. split.
    + destruct I as [Icnt Itr Irs Ires Ipg Idc Ius]. constructor; try assumption. unfold_st. rewrite RP in *. exact Irs.
    + intros w0. unfold_st. specialize (L w0). rewrite cntn_cons in L. rewrite cntn_app, cntn_cons, cntn_nil. lia.
  - (* blocking *)
    destruct (uflag u) eqn:FL; [discriminate|]. apply inv_mf; [|exact RP]. split.
    + apply (clauses_user_moves x w u); [exact I|exact Hw| |symmetry; exact KD|reflexivity|cbn; rewrite PC; reflexivity].
      split; [split; [exact K|left; reflexivity]|split; [|intros _; exact RY]].
      unfold seen_ok in *. cbn. rewrite KD, PC in SK. exact SK.
    + eapply (linked_pop x _ w u _ _ L Hw IL); try reflexivity. unfold inlist. cbn. rewrite ?PC. reflexivity.
  - (* callback *)
    destruct (clauses_finish_user x w u _ I Hw (inlist_handles u IL) RY KD) as (E & I'). rewrite E in *.
    apply inv_mf; [|exact RP]. split; [exact I'|].
    apply (linked_pop x _ w u (done_user x u) _ L Hw IL); reflexivity.
Qed.

Lemma inv_rstep s : Inv s -> enabled s 1 = true -> Inv (fst (rstep s)).
Proof.
  intros I0 E. pose proof I0 as [I L]. cbn [enabled] in E. unfold rstep.
  destruct (rpcf s) eqn:RP; try discriminate; cbn [fst].
  all: destruct s as [m k c r sl p n sr fr pc pd ua pa wk ac us]; open_inv I; subst r.
  (* a state born ready has no resolver *)
  all: assert (NB : born m = None) by (destruct (born m); [destruct Ires as (Q & _); discriminate|reflexivity]);
    rewrite NB in Ires.
  - (* RXWait *) destruct m; try discriminate NB; inv_goals.
  - (* RClaim *)
    destruct (alive_pending _ (proj1 I0)) as (A & B); [apply Irs|]. unfold_st. subst fr. rewrite touch_alive by reflexivity. inv_goals; [|rewrite NB; reflexivity].
    apply (counted_payload Icnt eq_refl). destruct k; cbn; lia.
  - (* RResolve *)
    destruct (alive_pending _ (proj1 I0)) as (A & B); [apply Irs|]. unfold_st. subst fr. rewrite touch_alive by reflexivity.
    destruct Irs as (R & -> & ->). destruct sl as [l|]; [|discriminate]. apply inv_mf; [|reflexivity]. inv_goals.
    + apply (traced_ready (rdy := false)). apply (traced_eq Itr). rewrite !cnt_nil. lia.
    + rewrite NB. exact Ires.
    + intros j u H. destruct (Ius j u H) as (K & SK & _). split; [exact K|split; [exact SK|reflexivity]].
    + intros w. rewrite <- L, !cnt_nil. lia.
  - (* RWalk *)
    destruct wk as [|[|w] t].
    + apply inv_mf; [exact I0|reflexivity].
    + (* the tracer node: its `_next` is read and the callback entered *)
      destruct (alive_tracer _ (proj1 I0)) as (A & B); [unfold_st; rewrite cnt_cons; cbn; lia|]. unfold_st. subst fr.
      rewrite touch_alive by reflexivity. inv_goals; [|rewrite NB; exact Ires]. apply (traced_eq Itr). rewrite cnt_cons. cbn. lia.
    + apply inv_release; [constructor; unfold_st; rewrite ?NB; assumption|reflexivity|].
      intros w0. unfold_st. specialize (L w0). rewrite cnt_cons, node_eqb_NU in L. rewrite cntn_cons. lia.
  - (* RClr *)
    destruct (alive_tracer _ (proj1 I0)) as (A & B); [unfold_st; lia|]. unfold_st. subst fr.
    destruct sl; [discriminate|].
    destruct (traced_clear (cphase c) sr (cnt NT [] + cnt NT wk)) as (-> & Itr'); [apply (traced_eq Itr); lia|].
    rewrite touch_alive by reflexivity. rewrite drop_ref_alive by (reflexivity || exact B).
    apply inv_mf; [|reflexivity]. inv_goals.
    + apply (counted_drop Icnt eq_refl). cbn. lia.
    + apply (traced_eq Itr'). lia.
    + rewrite NB. exact Ires.
  - (* RG1 *) inv_goals. rewrite NB. exact Ires.
  - (* RG2 *) inv_goals. rewrite NB. exact Ires.
  - (* RG3 *)
    destruct (alive_pending _ (proj1 I0)) as (A & B); [apply Irs|]. unfold_st. subst fr. rewrite touch_alive by reflexivity. inv_goals; [|rewrite NB; reflexivity].
    apply (counted_payload Icnt eq_refl). destruct k; cbn; lia.
Qed.

End Invariant.

Lemma inv_init ops : @Inv (mode_of ops) (res_of ops) (map ukd (flat_map decode_user ops)) (init ops).
Proof.
  assert (W : forall u, In u (flat_map decode_user ops) -> upcf u = UWait0) by (intros u H; apply (decode_user_fresh ops u H)).
  unfold init. set (us := flat_map decode_user ops) in *. set (m := mode_of ops).
  split; [constructor|]; unfold linked, nh, tcount, chain, is_ready; simp_st.
  - rewrite (sumu_zero us) by (intros u H; rewrite (W u H); reflexivity). unfold init_cpc.
    destruct m; rewrite ?cpc_handles_next, ?cpc_handles_next_early; cbn; repeat split; lia || discriminate.
  - unfold init_cpc. destruct m; rewrite ?cphase_next, ?cphase_next_early; cbn; auto.
  - destruct m; cbn; auto.
  - destruct m; cbn; auto.
  - unfold init_cpc, next_early. destruct m; try (apply progressing_next; right; reflexivity); cbn; auto;
      destruct (existsb is_early us); cbn; auto.
  - repeat split.
  - intros j u H. apply nth_error_In in H. destruct (decode_user_fresh ops u H) as (P & F & S & N).
    unfold user_inv, kind_ok, seen_ok. rewrite P, F, S, N. destruct (ukd u); repeat split; discriminate.
  - intros w. rewrite (inl_wait0 us w W). destruct m; reflexivity.
Qed.
