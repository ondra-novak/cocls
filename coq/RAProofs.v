(* RAProofs.v — C03 part (a): for the protocols P1..P5 of RADefs.v
     pi_sufficient : ok b = true  -> for every number of threads and every schedule, no race state is reachable
     pi_necessary  : ok b = false -> a concrete schedule reaches a race
   so the boolean side condition on the memory orders is exact; P6 has no side condition, its invariant
   (P6Proofs.run_inv) holds for every order.
   Each invariant says whose view must contain the last write of the plain location (nts m x <= v x).  Atomic
   operations keep the write counters and let views grow, so only a plain write by somebody else can break it. *)
From Cocls Require Import Base BaseProofs RADefs.
Require Import Lia.

Lemma set_nth_length {A} (l : list A) i x : length (set_nth l i x) = length l.
Proof. apply BaseProofs.set_nth_length. Qed.

Lemma Forall_repeat {A} (P : A -> Prop) x n : P x -> Forall P (repeat x n).
Proof. intros H. apply Forall_forall. intros y ->%repeat_spec. exact H. Qed.

Lemma In_set_nth_other {A} (l : list A) t x y :
  In y (set_nth l t x) -> y = x \/ exists i, i <> t /\ nth_error l i = Some y.
Proof.
  intros [i Ei]%In_nth_error. rewrite nth_error_set_nth in Ei. destruct (Nat.eqb_spec t i) as [->|N].
  - left. destruct (nth_error l i); congruence.
  - right. exists i. auto.
Qed.

Lemma Forall_set_nth_inv {A} {Q : A -> Prop} {l t old x} : nth_error l t = Some old -> Forall Q (set_nth l t x) -> Q x.
Proof. intros Et F. apply (Forall_nth_error Q _ t x F). now rewrite nth_error_set_nth, Nat.eqb_refl, Et. Qed.

Lemma Forall_set_nth_rev {A} {Q : A -> Prop} {l t old x} :
  nth_error l t = Some old -> Q old -> Forall Q (set_nth l t x) -> Forall Q l.
Proof.
  intros Et Ho F. apply Forall_forall. intros y [i Ei]%In_nth_error. destruct (Nat.eq_dec i t) as [->|N]; [congruence|].
  apply (Forall_nth_error Q _ i y F). rewrite nth_error_set_nth_other by congruence. exact Ei.
Qed.

Section One.
Context {A : Type} (p : A -> bool).

Definition at_most_one (l : list A) : Prop :=
  forall i j x y, nth_error l i = Some x -> nth_error l j = Some y -> p x = true -> p y = true -> i = j.

Lemma none_at_most_one l : Forall (fun x => p x = false) l -> at_most_one l.
Proof. intros F i j x y Ei _ Px. apply (Forall_nth_error _ _ _ _ F) in Ei. congruence. Qed.

Lemma one_others l t old i y : at_most_one l -> nth_error l t = Some old -> p old = true ->
  i <> t -> nth_error l i = Some y -> p y = false.
Proof. intros U Et Po Ni Ei. destruct (p y) eqn:E; auto. exfalso. apply Ni. eapply U; eauto. Qed.

Lemma at_most_one_set_nth l t old x : at_most_one l -> nth_error l t = Some old ->
  (p x = true -> p old = true \/ Forall (fun y => p y = false) l) -> at_most_one (set_nth l t x).
Proof.
  intros U Et Hx.
  assert (O : forall i y, i <> t -> nth_error l i = Some y -> p x = true -> p y = false).
  { intros i y Ni Ei [Po|F]%Hx; [exact (one_others l t old i y U Et Po Ni Ei)|exact (Forall_nth_error _ _ _ _ F Ei)]. }
  intros i j xi xj Ei Ej Pi Pj. rewrite nth_error_set_nth, Et in Ei, Ej.
  destruct (Nat.eqb_spec t i) as [<-|Ni], (Nat.eqb_spec t j) as [<-|Nj]; auto.
  - injection Ei as <-. rewrite (O j xj) in Pj by auto. discriminate.
  - injection Ej as <-. rewrite (O i xi) in Pi by auto. discriminate.
  - eapply U; eauto.
Qed.

Lemma Forall_set_nth_one (Q : A -> Prop) l t old x : at_most_one l -> nth_error l t = Some old -> p old = true ->
  Q x -> (forall y, In y l -> p y = false -> Q y) -> Forall Q (set_nth l t x).
Proof.
  intros U Et Po Hx Hy. apply Forall_forall. intros y [->|(i & Ni & Ei)]%In_set_nth_other; auto.
  apply Hy; [exact (nth_error_In _ _ Ei)|exact (one_others l t old i y U Et Po Ni Ei)].
Qed.
End One.
Arguments at_most_one_set_nth {A p l t old x}.
Arguments Forall_set_nth_one {A p Q l t old x}.

Lemma vset_same v x n : vset v x n x = n.
Proof. unfold vset. now rewrite Nat.eqb_refl. Qed.
Lemma vset_other v x n y : y <> x -> vset v x n y = v y.
Proof. unfold vset. intros H. destruct (Nat.eqb_spec y x); congruence. Qed.
Lemma vup_ge v x n y : v y <= vup v x n y.
Proof. unfold vup. destruct (Nat.eqb y x); lia. Qed.
Lemma vjoin_l a b x : a x <= vjoin a b x. Proof. unfold vjoin; lia. Qed.
Lemma vjoin_r a b x : b x <= vjoin a b x. Proof. unfold vjoin; lia. Qed.

(* `x <> a` throughout: a view's component at the atomic location itself is a timestamp, not compared *)
Section Specs.
Context {V : Type}.
Implicit Types (m : mem V) (tv : tview).

Lemma am_set_same (f : loc -> list (msg V)) a l : am_set f a l a = l.
Proof. unfold am_set. now rewrite Nat.eqb_refl. Qed.
Lemma am_set_other (f : loc -> list (msg V)) a l b : b <> a -> am_set f a l b = f b.
Proof. unfold am_set. intros H. destruct (Nat.eqb_spec b a); congruence. Qed.

Lemma at_read_spec ab a p tv m v tv' :
  at_read ab a p tv m = Some (v, tv') ->
  exists ms, nth_error (am m a) p = Some ms /\ v = mval ms /\ cur tv a <= ts_of (am m a) p /\
    (forall x, cur tv x <= cur tv' x) /\ (forall x, mview ms x <= acq tv' x) /\
    (ab = true -> forall x, mview ms x <= cur tv' x).
Proof.
  unfold at_read. destruct (nth_error (am m a) p) as [ms|]; [|discriminate].
  destruct (Nat.leb_spec (cur tv a) (ts_of (am m a) p)) as [L|L]; [|discriminate].
  intros [= <- <-]. exists ms. cbn [cur acq]. repeat split; auto.
  - intros x. etransitivity; [|apply vup_ge]. destruct ab; [apply vjoin_l|lia].
  - intros x. etransitivity; [|apply vup_ge]. apply vjoin_r.
  - intros -> x. etransitivity; [|apply vup_ge]. apply vjoin_r.
Qed.

Lemma rmw_spec {ab rb a f tv m ms rest v tv' m'} :
  am m a = ms :: rest -> rmw ab rb a f tv m = Some (v, tv', m') ->
  v = mval ms /\ exists nv, m' = Mem (am_set (am m) a (Msg (f v) nv :: am m a)) (nts m) (race m) /\
    (forall x, mview ms x <= nv x) /\ (rb = true -> forall x, x <> a -> cur tv x <= nv x) /\
    (forall x, x <> a -> cur tv x <= cur tv' x) /\ (ab = true -> forall x, x <> a -> mview ms x <= cur tv' x).
Proof.
  unfold rmw. intros ->. intros [= <- <- <-]. split; [reflexivity|]. eexists. split; [reflexivity|]. cbn [cur].
  split. { intros x. apply vjoin_r. }
  split. { intros -> x Hx. unfold vjoin. rewrite vset_other by auto. destruct ab; [unfold vjoin|]; lia. }
  split. { intros x Hx. rewrite vset_other by auto. destruct ab; [apply vjoin_l|lia]. }
  intros -> x Hx. rewrite vset_other by auto. apply vjoin_r.
Qed.

Lemma at_write_spec rb a v tv m tv' m' :
  at_write rb a v tv m = (tv', m') ->
  exists nv, m' = Mem (am_set (am m) a (Msg v nv :: am m a)) (nts m) (race m) /\
    (rb = true -> forall x, x <> a -> nv x = cur tv x) /\
    (forall x, x <> a -> cur tv' x = cur tv x) /\ cur tv' a = length (am m a).
Proof.
  unfold at_write. intros [= <- <-]. eexists. split; [reflexivity|]. cbn [cur].
  split. { intros -> x Hx. now rewrite vset_other. }
  split. { intros x Hx. now rewrite vset_other. }
  apply vset_same.
Qed.

Lemma fresh_true v m x : fresh v m x = true <-> nts m x <= v x.
Proof. unfold fresh. apply Nat.leb_le. Qed.

Lemma na_read_spec tv m x : nts m x <= cur tv x -> na_read tv m x = m.
Proof. intros H. unfold na_read. apply fresh_true in H. rewrite H, orb_false_r. now destruct m. Qed.

Lemma na_write_spec tv m x tv' m' :
  na_write tv m x = (tv', m') ->
  am m' = am m /\ nts m' x = S (nts m x) /\ (forall y, y <> x -> nts m' y = nts m y) /\
  (nts m x <= cur tv x -> race m' = race m) /\
  cur tv' x = nts m' x /\ (forall y, y <> x -> cur tv' y = cur tv y).
Proof.
  unfold na_write. intros [= <- <-]. cbn [am nts race cur]. rewrite !vset_same.
  split; [reflexivity|]. split; [reflexivity|]. split; [intros; now apply vset_other|].
  split. { intros H. apply fresh_true in H. rewrite H. apply orb_false_r. }
  split; [reflexivity|]. intros; now apply vset_other.
Qed.
End Specs.

Module P1Proofs.
Import P1.

(* "ready", in the slot or in a waiter's flag, carries the resolver's write of the payload *)
Definition good_msg (ms : msg bool) : Prop := mval ms = true -> 1 <= mview ms X.

Definition winv (b : bits) (w : waiter) : Prop :=
  match wp w with
  | WSeen => 1 <= cur (wtv w) X
  | WRefused => 1 <= acq (wtv w) X /\ (cfa b = true -> 1 <= cur (wtv w) X)
  | _ => True
  end.

Record Inv (b : bits) (c : cfg) : Prop := {
  i_r : match rp c with R0 => nts (mm c) X = 0 | _ => nts (mm c) X = 1 /\ 1 <= cur (rtv c) X end;
  i_msgs : forall a, Forall good_msg (am (mm c) a);
  i_ws : Forall (winv b) (ws c);
  i_race : race (mm c) = false }.

Lemma inv_init b ks : Inv b (init ks).
Proof.
  constructor; cbn; auto.
  - intros _. constructor; [discriminate|constructor].
  - apply Forall_forall. intros w (k & <- & _)%in_map_iff. exact I.
Qed.

Lemma X_ne_S : X <> S. Proof. discriminate. Qed.
Lemma X_ne_F j : X <> F j. Proof. unfold F, X. lia. Qed.

Lemma good_add (f : loc -> list (msg bool)) a nm :
  (forall a', Forall good_msg (f a')) -> good_msg nm -> forall a', Forall good_msg (am_set f a (nm :: f a) a').
Proof.
  intros G Hn a'. destruct (Nat.eq_dec a' a) as [->|Na]; [rewrite am_set_same|rewrite am_set_other]; auto.
Qed.

Lemma read_true_view ab a p tv (m : mem bool) tv' :
  (forall a, Forall good_msg (am m a)) -> at_read ab a p tv m = Some (true, tv') ->
  1 <= acq tv' X /\ (ab = true -> 1 <= cur tv' X).
Proof.
  intros G (ms & En & Ev & _ & _ & Ha & Hab)%at_read_spec.
  pose proof (Forall_nth_error _ _ _ _ (G a) En (eq_sym Ev)) as Hg.
  split; [specialize (Ha X)|intros H; specialize (Hab H X)]; lia.
Qed.

Lemma set_w_inv b c j w m : Inv b c -> winv b w -> nts m = nts (mm c) -> race m = race (mm c) ->
  (forall a, Forall good_msg (am m a)) -> Inv b (set_w c j w m).
Proof.
  intros [Ir Im Iw Irc] Hw Hn Hr Hm. constructor; cbn [set_w rp rtv ws mm]; try congruence; auto.
  - now rewrite Hn.
  - now apply Forall_set_nth.
Qed.

Lemma step_inv b c ch : ok b = true -> Inv b c -> Inv b (step b c ch).
Proof.
  unfold ok. intros [[[[[Hxr Hla]%andb_true_iff Hfence]%andb_true_iff Hfsr]%andb_true_iff Hfwa]%andb_true_iff
                       Hfwfa]%andb_true_iff I.
  pose proof I as [Ir Im Iw Irc].
  assert (KEEP : forall j w, winv b w -> Inv b (set_w c j w (mm c))) by (intros; now apply set_w_inv).
  destruct ch as [[|j] arg]; unfold step; cbn [fst snd].
  - unfold step_resolver. destruct (rp c) eqn:Erp.
    + destruct (na_write (rtv c) (mm c) X) as [tv m] eqn:E.
      apply na_write_spec in E as (Eam & Ex & _ & Er & Ec & _).
      constructor; cbn [rp rtv ws mm]; auto.
      * lia.
      * intros a. now rewrite Eam.
      * rewrite Er; auto. lia.
    + destruct Ir as [In Ir].
      destruct (am (mm c) S) as [|ms rest] eqn:Ea; [unfold rmw; rewrite Ea; exact I|].
      destruct (rmw (xa b) (xr b) S (fun _ => true) (rtv c) (mm c)) as [[[v tv] m]|] eqn:E; [|exact I].
      apply (rmw_spec Ea) in E as (_ & nv & -> & _ & Hrel & Hc & _).
      specialize (Hc X X_ne_S). specialize (Hrel Hxr X X_ne_S).
      constructor; cbn [rp rtv ws mm am nts race]; auto.
      * lia.
      * apply good_add; auto. intros _. cbn. lia.
    + destruct Ir as [In Ir].
      destruct (nth_error (ws c) arg) as [w|] eqn:Ew; [|exact I].
      destruct (wp w) eqn:Ewp; try exact I.
      destruct (wk w) eqn:Ewk; try exact I.
      * rewrite na_read_spec by lia. rewrite <- Erp. now apply KEEP.
      * destruct (at_write (fsr b) (F arg) true (rtv c) (mm c)) as [tv m] eqn:E.
        apply at_write_spec in E as (nv & -> & Hrel & Hc & _).
        specialize (Hc X (X_ne_F arg)). specialize (Hrel Hfsr X (X_ne_F arg)).
        constructor; cbn [rp rtv ws mm am nts race]; auto.
        -- lia.
        -- apply good_add; auto. intros _. cbn. lia.
        -- now apply Forall_set_nth.
  - unfold step_waiter. destruct (nth_error (ws c) j) as [w|] eqn:Ew; [|exact I].
    pose proof (Forall_nth_error _ _ _ _ Iw Ew) as Hw. unfold winv in Hw.
    assert (WAIT : forall q, (forall tv, winv b (Wt (wk w) q tv)) ->
              Inv b match wk w with
                    | Sync force =>
                        match at_read (if force then fwfa b else fwa b) (F j) arg (wtv w) (mm c) with
                        | Some (true, tv) => set_w c j (Wt (wk w) WSeen tv) (mm c)
                        | Some (false, tv) => set_w c j (Wt (wk w) q tv) (mm c)
                        | None => c end
                    | _ => c end).
    { intros q Hq. destruct (wk w); try exact I.
      destruct (at_read _ (F j) arg (wtv w) (mm c)) as [[[|] tv]|] eqn:E; [| |exact I]; apply KEEP; auto.
      apply read_true_view in E as [_ Hc]; auto. apply Hc. now destruct force. }
    destruct (wp w) eqn:Ewp.
    + destruct arg as [|p].
      * destruct (wk w); [exact I| |]; now apply KEEP.
      * destruct (at_read (la b) S p (wtv w) (mm c)) as [[[|] tv]|] eqn:E; [| |exact I]; [|now apply KEEP].
        apply KEEP. apply read_true_view in E as [_ Hc]; auto. exact (Hc Hla).
    + destruct arg as [|p].
      * destruct (am (mm c) S) as [|[[|] mv] rest] eqn:Ea; try exact I.
        destruct (rmw (csa b) (csr b) S (fun _ => false) (wtv w) (mm c)) as [[[v tv] m]|] eqn:E; [|exact I].
        apply (rmw_spec Ea) in E as (_ & nv & -> & _).
        apply set_w_inv; auto. cbn [am]. apply good_add; auto. discriminate.
      * destruct (at_read (cfa b) S p (wtv w) (mm c)) as [[[|] tv]|] eqn:E; [| |exact I]; [|now apply KEEP].
        apply KEEP. now apply read_true_view in E.
    + now apply WAIT.
    + now apply WAIT.
    + (* the fence makes the pending view current, unless the failed CAS acquired already *)
      apply KEEP. destruct Hw as [Ha Hc]. unfold winv, fence. destruct (fa b); cbn.
      * etransitivity; [exact Ha|apply vjoin_r].
      * apply Hc. now rewrite orb_false_r in Hfence.
    + rewrite na_read_spec; [now apply KEEP|]. destruct (rp c); lia.
    + exact I.
Qed.

Lemma run_inv b sched : ok b = true -> forall c, Inv b c -> Inv b (run b sched c).
Proof. intros Hok. apply fold_left_inv. intros c ch. now apply step_inv. Qed.

Theorem p1_sufficient b : ok b = true -> forall ks sched, race (mm (run b sched (init ks))) = false.
Proof. intros Hok ks sched. apply (i_race b), run_inv; auto using inv_init. Qed.

(* whoever is about to read the value (ready() returned true, the subscription was refused, or wait() returned)
   has the resolver's write in its view: it reads the completely constructed value *)
Lemma seen_has_payload b c j w : Inv b c -> nth_error (ws c) j = Some w -> wp w = WSeen ->
  nts (mm c) X <= cur (wtv w) X /\ 1 <= cur (wtv w) X.
Proof.
  intros [Ir _ Iw _] E Hp. pose proof (Forall_nth_error _ _ _ _ Iw E) as Hs. unfold winv in Hs. rewrite Hp in Hs.
  destruct (rp c); lia.
Qed.

Theorem p1_reader_sees_payload b : ok b = true -> forall ks sched j w,
  nth_error (ws (run b sched (init ks))) j = Some w -> wp w = WSeen ->
  nts (mm (run b sched (init ks))) X <= cur (wtv w) X /\ 1 <= cur (wtv w) X.
Proof. intros Hok ks sched j w. apply (seen_has_payload b), run_inv; auto using inv_init. Qed.

Definition wit_poll : list choice := [(0,0); (0,0); (1,1); (1,0)].
Definition wit_refuse : list choice := [(0,0); (0,0); (1,0); (1,1); (1,0); (1,0)].
Definition wit_sync : list choice := [(1,0); (1,0); (0,0); (0,0); (0,0); (1,0); (1,0)].

Definition witness (b : bits) : list kind * list choice :=
  if negb (xr b && la b) then ([Poll], wit_poll)
  else if negb (cfa b || fa b) then ([Coro], wit_refuse)
  else if negb (fsr b && fwa b) then ([Sync false], wit_sync)
  else ([Sync true], wit_sync).

(* one schedule for each conjunct of `ok`; the orders a schedule does not exercise stay symbolic *)
Lemma poll_races b : xr b && la b = false -> race (mm (run b wit_poll (init [Poll]))) = true.
Proof. destruct b as [a r l ? ? ? ? ? ? ?]. destruct r, l; intros H; try discriminate H; destruct a; reflexivity. Qed.

Lemma refuse_races b : cfa b || fa b = false -> race (mm (run b wit_refuse (init [Coro]))) = true.
Proof.
  destruct b as [a r ? ? ? c f ? ? ?]. destruct c, f; intros H; try discriminate H; destruct a, r; reflexivity.
Qed.

Lemma sync_races b (force : bool) : fsr b && (if force then fwfa b else fwa b) = false ->
  race (mm (run b wit_sync (init [Sync force]))) = true.
Proof.
  destruct b as [a r ? cs cr ? ? s w wf].
  destruct force, s, w, wf; intros H; try discriminate H; destruct a, r, cs, cr; reflexivity.
Qed.

Theorem p1_necessary b : ok b = false ->
  race (mm (run b (snd (witness b)) (init (fst (witness b))))) = true.
Proof.
  unfold ok, witness. intros H.
  destruct (xr b && la b) eqn:E1; [|now apply poll_races].
  destruct (cfa b || fa b) eqn:E2; [|now apply refuse_races].
  destruct (fsr b) eqn:E3; [|apply (sync_races b false); now rewrite E3].
  destruct (fwa b) eqn:E4; [|apply (sync_races b false); now rewrite E3, E4].
  apply (sync_races b true). now rewrite E3.
Qed.

End P1Proofs.

Module P2Proofs.
Import P2.

(* ghost: where the token of node j is; after the walk it stays with its consumer *)
Inductive place := PSub | PSlot | PWalk (k : nat).

Definition walk_of (cn : cons) : list nat := match walk cn with Some l => l | None => [] end.
Definition pre_pub (p : spc) : bool := match p with S2 => false | _ => true end.

Definition claim (own : nat -> place) (m : mem (list nat)) (P : place) (v : view) (j : nat) : Prop :=
  own j = P /\ nts m (N j) <= v (N j).

Record Inv (own : nat -> place) (c : cfg) : Prop := {
  i_slot : match am (mm c) S with
           | ms :: _ => NoDup (mval ms) /\ Forall (claim own (mm c) PSlot (mview ms)) (mval ms)
           | [] => False end;
  i_sub : forall j s, nth_error (subs c) j = Some s -> pre_pub (sp s) = true ->
          claim own (mm c) PSub (cur (stv s)) j;
  i_cons : forall k cn, nth_error (conss c) k = Some cn ->
           NoDup (walk_of cn) /\ Forall (claim own (mm c) (PWalk k) (cur (ctv cn))) (walk_of cn);
  i_race : race (mm c) = false }.

Lemma N_ne_S j : N j <> S. Proof. unfold N, S. lia. Qed.
Lemma N_inj i j : N i = N j -> i = j. Proof. unfold N. lia. Qed.

Lemma inv_init ns nc : Inv (fun _ => PSub) (init ns nc).
Proof.
  constructor; cbn.
  - split; constructor.
  - intros j s ->%nth_error_In%repeat_spec _. split; [reflexivity|apply le_n].
  - intros k cn ->%nth_error_In%repeat_spec. cbn. split; constructor.
  - reflexivity.
Qed.

Definition pset (own : nat -> place) (j : nat) (p : place) : nat -> place := fun i => if Nat.eqb i j then p else own i.
Lemma pset_same own j p : pset own j p j = p. Proof. unfold pset. now rewrite Nat.eqb_refl. Qed.
Lemma pset_other own j p i : i <> j -> pset own j p i = own i.
Proof. unfold pset. intros H. destruct (Nat.eqb_spec i j); congruence. Qed.

Lemma node_write own m j P tv tv' m' :
  claim own m P (cur tv) j -> na_write tv m (N j) = (tv', m') ->
  am m' = am m /\ race m' = race m /\ claim own m' P (cur tv') j /\
  (forall i, i <> j -> cur tv' (N i) = cur tv (N i) /\ nts m' (N i) = nts m (N i)) /\
  (forall Q v i, Q <> P -> claim own m Q v i -> claim own m' Q v i).
Proof.
  intros [Ho Hf] (Eam & _ & Eo & Er & Ec & Eco)%na_write_spec.
  assert (NE : forall i, i <> j -> N i <> N j) by (intros i Hi H%N_inj; auto).
  split; auto. split; auto. split. { split; [auto|lia]. }
  split. { intros i Hi%NE. auto. }
  intros Q v i HQ [Hi Hv]. split; auto. rewrite Eo; [auto|apply NE; congruence].
Qed.

(* tv1: the subscriber's view after a failed CAS, or tv itself *)
Lemma sub_write own c j p tv tv1 :
  Inv own c -> nth_error (subs c) j = Some (Sb p tv) -> pre_pub p = true -> (forall x, cur tv x <= cur tv1 x) ->
  Inv own (let '(tv', m) := na_write tv1 (mm c) (N j) in Cfg (set_nth (subs c) j (Sb S1 tv')) (conss c) m).
Proof.
  intros [Hs Isub Icons Irc] Ej Hp Hmono.
  destruct (am (mm c) S) as [|ms rest] eqn:Ea; [contradiction|]. destruct Hs as [Hnd Hslot].
  destruct (Isub _ _ Ej Hp) as [Ho Hf]. cbn [stv] in Hf.
  destruct (na_write tv1 (mm c) (N j)) as [tv' m] eqn:E.
  apply (node_write own _ _ PSub) in E as (Eam & Er & Hj & Hi & Hoth); [|split; [auto|specialize (Hmono (N j)); lia]].
  constructor; cbn [subs conss mm].
  - rewrite Eam, Ea. split; auto. revert Hslot. apply Forall_impl. intros i. now apply Hoth.
  - intros i s Ei. rewrite nth_error_set_nth, Ej in Ei. destruct (Nat.eqb_spec j i) as [<-|Ni].
    + injection Ei as <-. intros _. exact Hj.
    + intros Hs. destruct (Isub _ _ Ei Hs). split; auto. rewrite (proj2 (Hi i (not_eq_sym Ni))). auto.
  - intros k cn Ek. destruct (Icons _ _ Ek) as [Hd Hw]. split; auto. revert Hw. apply Forall_impl. intros i. now apply Hoth.
  - congruence.
Qed.

Lemma step_inv b c ch own : ok b = true -> Inv own c -> exists own', Inv own' (step b c ch).
Proof.
  intros [Hcsr Hxa]%andb_true_iff I. pose proof I as [Hs Isub Icons Irc].
  destruct (am (mm c) S) as [|ms rest] eqn:Ea; [contradiction|]. destruct Hs as [Hnd Hslot].
  assert (SAME : exists own', Inv own' c) by eauto.
  destruct ch as [j|j p|j|k|k]; cbn [step].
  - destruct (nth_error (subs c) j) as [[[| |] tv]|] eqn:Ej; try exact SAME.
    exists own. now apply (sub_write own c j S0 tv tv).
  - destruct (nth_error (subs c) j) as [[[| |] tv]|] eqn:Ej; try exact SAME.
    destruct (at_read (cfa b) S p tv (mm c)) as [[v tv1]|] eqn:Er; [|exact SAME].
    apply at_read_spec in Er as (_ & _ & _ & _ & Hmono & _).
    exists own. now apply (sub_write own c j S1 tv tv1).
  - (* the release CAS puts the subscriber's view of its node into the message *)
    destruct (nth_error (subs c) j) as [[[| |] tv]|] eqn:Ej; try exact SAME.
    destruct (rmw (csa b) (csr b) S (fun l => j :: l) tv (mm c)) as [[[v tv'] m]|] eqn:E; [|exact SAME].
    apply (rmw_spec Ea) in E as (-> & nv & -> & Hnv & Hrel & _ & _).
    destruct (Isub _ _ Ej eq_refl) as [Ho Hf]. cbn [stv] in Hf.
    assert (KEPT : forall Q v v' i, Q <> PSub -> v (N i) <= v' (N i) -> claim own (mm c) Q v i ->
                   claim (pset own j PSlot) (mm c) Q v' i).
    { intros Q v v' i HQ Hv [Hi Hn]. split; [|lia]. rewrite pset_other; congruence. }
    exists (pset own j PSlot). constructor; cbn [subs conss mm am nts race]; auto.
    + rewrite am_set_same. cbn [mval mview]. split; constructor.
      * intros Hin. destruct (proj1 (Forall_forall _ _) Hslot j Hin) as [Hin' _]. congruence.
      * assumption.
      * split; [apply pset_same|]. specialize (Hrel Hcsr (N j) (N_ne_S j)). cbn [nts]. lia.
      * revert Hslot. apply Forall_impl. intros i. apply KEPT; [discriminate|apply Hnv].
    + intros i s Ei. rewrite nth_error_set_nth, Ej in Ei. destruct (Nat.eqb_spec j i) as [<-|Ni].
      * injection Ei as <-. discriminate.
      * intros Hs. unfold claim. rewrite pset_other by auto. apply (Isub _ _ Ei Hs).
    + intros k cn Ek. destruct (Icons _ _ Ek) as [Hd Hw]. split; auto. revert Hw. apply Forall_impl.
      intros i. apply KEPT; [discriminate|auto].
  - (* the acquire exchange takes every token in the slot *)
    destruct (nth_error (conss c) k) as [[[l|] tv]|] eqn:Ek; try exact SAME.
    destruct (rmw (xa b) (xr b) S (fun _ => []) tv (mm c)) as [[[v tv'] m]|] eqn:E; [|exact SAME].
    apply (rmw_spec Ea) in E as (-> & nv & -> & _ & _ & _ & Hacq).
    exists (fun i => match own i with PSlot => PWalk k | q => q end).
    constructor; cbn [subs conss mm am nts race]; auto.
    + rewrite am_set_same. split; constructor.
    + intros i s Ei Hs. destruct (Isub _ _ Ei Hs) as [Hi ?]. split; [now rewrite Hi|auto].
    + intros k' cn Ek'. rewrite nth_error_set_nth, Ek in Ek'. destruct (Nat.eqb_spec k k') as [<-|Nk].
      * injection Ek' as <-. cbn [walk_of walk ctv]. split; auto. revert Hslot. apply Forall_impl.
        intros i [Hi Hn]. split; [now rewrite Hi|]. specialize (Hacq Hxa (N i) (N_ne_S i)). cbn [nts]. lia.
      * destruct (Icons _ _ Ek') as [Hd Hw]. split; auto. revert Hw. apply Forall_impl.
        intros i [Hi Hn]. split; [now rewrite Hi|auto].
  - destruct (nth_error (conss c) k) as [[[[|j rest']|] tv]|] eqn:Ek; try exact SAME.
    destruct (Icons _ _ Ek) as [Hd Hw]. cbn [walk_of walk ctv] in Hd, Hw.
    apply NoDup_cons_iff in Hd as [Hnin Hd]. apply Forall_cons_iff in Hw as [Hj Hw].
    destruct (na_write tv (mm c) (N j)) as [tv' m] eqn:E.
    apply (node_write own _ _ (PWalk k)) in E as (Eam & Er & _ & Hi & Hoth); [|exact Hj].
    exists own. constructor; cbn [subs conss mm].
    + rewrite Eam, Ea. split; auto. revert Hslot. apply Forall_impl. intros i. now apply Hoth.
    + intros i s Ei Hs. apply Hoth; [discriminate|]. exact (Isub _ _ Ei Hs).
    + intros k' cn Ek'. rewrite nth_error_set_nth, Ek in Ek'. destruct (Nat.eqb_spec k k') as [<-|Nk].
      * injection Ek' as <-. cbn [walk_of walk ctv]. split; auto. apply Forall_forall. intros i Hin.
        assert (i <> j) by congruence. destruct (proj1 (Forall_forall _ _) Hw i Hin) as [Ho Hn].
        split; [auto|]. destruct (Hi i H) as [-> ->]. auto.
      * destruct (Icons _ _ Ek') as [Hd2 Hw2]. split; auto. revert Hw2. apply Forall_impl. intros i. apply Hoth. congruence.
    + congruence.
Qed.

Lemma run_inv b sched : ok b = true -> forall c, (exists own, Inv own c) -> exists own, Inv own (run b sched c).
Proof.
  intros Hok. apply (fold_left_inv (step b) (fun c => exists own, Inv own c)).
  intros c ch [own I]. now apply (step_inv b c ch own).
Qed.

Theorem p2_sufficient b : ok b = true -> forall ns nc sched, race (mm (run b sched (init ns nc))) = false.
Proof.
  intros Hok ns nc sched. destruct (run_inv b sched Hok (init ns nc)) as [own I]; [|apply (i_race _ _ I)].
  eexists. apply inv_init.
Qed.

Definition witness : list choice := [ChWrite 0; ChPub 0; ChXchg 0; ChWalk 0].
Theorem p2_necessary b : ok b = false -> race (mm (run b witness (init 1 1))) = true.
Proof. destruct b as [a [] f [] r]; intros H; try discriminate H; destruct a, f, r; reflexivity. Qed.

End P2Proofs.

Module P4Proofs.
Import P4.

Definition busy (t : thr) : bool := match tp t with T0 => false | _ => true end.

(* the block is with the thread between its winning exchange and its store, else with the `false` message *)
Record Inv (c : cfg) : Prop := {
  i_ne : match am (mm c) B with
         | ms :: _ => mval ms = false -> Forall (fun t => busy t = false) (ths c) /\ nts (mm c) D <= mview ms D
         | [] => False end;
  i_uniq : at_most_one busy (ths c);
  i_own : Forall (fun t => busy t = true -> nts (mm c) D <= cur (ttv t) D) (ths c);
  i_race : race (mm c) = false }.

Lemma B_ne_D : B <> D. Proof. discriminate. Qed.
Lemma D_ne_B : D <> B. Proof. discriminate. Qed.

Lemma inv_init n : Inv (init n).
Proof.
  constructor; cbn.
  - intros _. split; [now apply Forall_repeat|cbn; lia].
  - apply none_at_most_one. now apply Forall_repeat.
  - apply Forall_repeat. discriminate.
  - reflexivity.
Qed.

Lemma step_inv b c t : ok b = true -> Inv c -> Inv (step b c t).
Proof.
  intros [Hxa Hsr]%andb_true_iff I. pose proof I as [Hfree Iu Io Irc].
  destruct (am (mm c) B) as [|ms rest] eqn:Ea; [contradiction|].
  unfold step. destruct (nth_error (ths c) t) as [[p tv]|] eqn:Et; [|exact I].
  pose proof (Forall_nth_error _ _ _ _ Io Et) as Hfr. cbn in Hfr.
  destruct p.
  - destruct (rmw (xa b) (xr b) B (fun _ => true) tv (mm c)) as [[[v tv'] m]|] eqn:E; [|exact I].
    apply (rmw_spec Ea) in E as (-> & nv & -> & _ & _ & _ & Hacq).
    destruct (mval ms) eqn:Ev;
      (constructor; cbn [ths mm am nts race];
       [rewrite am_set_same; discriminate| | |exact Irc]).
    + apply (at_most_one_set_nth Iu Et). discriminate.
    + apply Forall_set_nth; auto. discriminate.
    + apply (at_most_one_set_nth Iu Et). intros _. right. now apply Hfree.
    + apply Forall_set_nth; auto. intros _. cbn. specialize (Hacq Hxa D D_ne_B). destruct Hfree; auto. lia.
  - destruct (na_write tv (mm c) D) as [tv' m] eqn:E.
    apply na_write_spec in E as (Eam & _ & _ & Er & Ec & _).
    constructor; cbn [ths mm].
    + rewrite Eam, Ea. intros [Hall _]%Hfree.
      eapply Forall_nth_error in Hall; eauto. discriminate.
    + apply (at_most_one_set_nth Iu Et). auto.
    + apply (Forall_set_nth_one Iu Et eq_refl).
      * intros _. cbn. lia.
      * intros y _ Hy. congruence.
    + rewrite Er; auto.
  - destruct (at_write (sr b) B false tv (mm c)) as [tv' m] eqn:E.
    apply at_write_spec in E as (nv & -> & Hrel & _).
    constructor; cbn [ths mm am nts race]; auto.
    + rewrite am_set_same. intros _. cbn [mview]. split.
      * now apply (Forall_set_nth_one Iu Et eq_refl).
      * rewrite (Hrel Hsr D D_ne_B). auto.
    + apply (at_most_one_set_nth Iu Et). discriminate.
    + apply Forall_set_nth; auto. discriminate.
Qed.

Lemma run_inv b sched : ok b = true -> forall c, Inv c -> Inv (run b sched c).
Proof. intros Hok. apply fold_left_inv. intros c t. now apply step_inv. Qed.

Theorem p4_sufficient b : ok b = true -> forall n sched, race (mm (run b sched (init n))) = false.
Proof. intros Hok n sched. apply i_race, run_inv; auto using inv_init. Qed.

(* thread 0 takes, uses and returns the block, then thread 1 takes and uses it *)
Definition witness : list nat := [0; 0; 0; 1; 1].
Theorem p4_necessary b : ok b = false -> race (mm (run b witness (init 2))) = true.
Proof. destruct b as [[] r []]; intros H; try discriminate H; destruct r; reflexivity. Qed.

End P4Proofs.

Module P5Proofs.
Import P5.

Lemma ts_cons_S {V} (x : msg V) l p : ts_of (x :: l) (Datatypes.S p) = ts_of l p.
Proof. unfold ts_of. cbn [length]. lia. Qed.
Lemma ts_cons_0 {V} (x : msg V) l : ts_of (x :: l) 0 = length l.
Proof. unfold ts_of. cbn [length]. lia. Qed.

(* P holds of every message of l still readable at timestamp k *)
Definition readable (P : msg bool -> Prop) (l : list (msg bool)) (k : nat) : Prop :=
  forall p ms, nth_error l p = Some ms -> k <= ts_of l p -> P ms.

Lemma readable_impl (P Q : msg bool -> Prop) l k : (forall ms, P ms -> Q ms) -> readable P l k -> readable Q l k.
Proof. intros H R p ms E L. eauto. Qed.
Lemma readable_le P l k k' : k <= k' -> readable P l k -> readable P l k'.
Proof. intros H R p ms E L. apply (R p ms E). lia. Qed.
Lemma readable_cons (P : msg bool -> Prop) x l k : P x -> readable P l k -> readable P (x :: l) k.
Proof. intros Hx R [|p] ms E L; [now injection E as <-|]. rewrite ts_cons_S in L. exact (R p ms E L). Qed.
Lemma readable_newest (P : msg bool -> Prop) x l : P x -> readable P (x :: l) (length l).
Proof.
  intros Hx [|p] ms E L; cbn in E; [now injection E as <-|]. exfalso. rewrite ts_cons_S in L.
  assert (p < length l) by (apply nth_error_Some; congruence). unfold ts_of in L. lia.
Qed.

Definition is_false (ms : msg bool) : Prop := mval ms = false.

(* who has the result: C, except while it waits; then G, then the `true` message.  While G has it C reads only `false` *)
Record Inv (c : cfg) : Prop := {
  j_st : let cansee P := readable P (am (mm c) K) (cur (ctv c) K) in
         match cp c, gp c with
         | C2, G0 => cansee (fun ms => mval ms = true -> nts (mm c) Rv <= mview ms Rv)
         | C2, _ => nts (mm c) Rv <= cur (gtv c) Rv /\ cansee is_false
         | C1, G0 => nts (mm c) Rv <= cur (ctv c) Rv /\ cansee is_false
         | _, G0 => nts (mm c) Rv <= cur (ctv c) Rv
         | _, _ => False
         end;
  j_race : race (mm c) = false }.

Lemma K_ne_Rv : K <> Rv. Proof. discriminate. Qed.
Lemma Rv_ne_K : Rv <> K. Proof. discriminate. Qed.

Lemma inv_init : Inv init.
Proof. constructor; cbn; auto. Qed.

Lemma step_inv b c ch : ok b = true -> Inv c -> Inv (step b c ch).
Proof.
  intros [Hsr Hwa]%andb_true_iff I. pose proof I as [J Jr]. cbn zeta in J.
  destruct ch as [p|]; cbn [step].
  - destruct (cp c) eqn:Ecp.
    + destruct (at_write (rr b) K false (ctv c) (mm c)) as [tv m] eqn:E.
      apply at_write_spec in E as (nv & -> & _ & Hc & HcK).
      destruct (gp c) eqn:Egp; try contradiction.
      constructor; cbn [cp ctv gp gtv mm am nts race]; auto. rewrite (Hc Rv Rv_ne_K), am_set_same, HcK.
      split; auto. now apply readable_newest.
    + destruct (gp c) eqn:Egp; try exact I. destruct J as [Hf Hrf].
      constructor; cbn [cp ctv gp gtv mm]; auto. split; auto. cbn. etransitivity; [exact Hf|apply vjoin_r].
    + destruct (at_read (wa b) K p (ctv c) (mm c)) as [[v tv]|] eqn:E; [|exact I].
      apply at_read_spec in E as (ms & En & -> & Hle & Hmono & _ & Hacq).
      destruct (mval ms) eqn:Ev; constructor; cbn [cp ctv gp gtv mm]; auto.
      * destruct (gp c); [|destruct J as [_ Hrf]; specialize (Hrf p ms En Hle); congruence..].
        specialize (J p ms En Hle Ev). specialize (Hacq Hwa Rv). lia.
      * destruct (gp c); [|destruct J; split; auto..]; eapply readable_le; eauto.
    + destruct (na_write (ctv c) (mm c) Rv) as [tv m] eqn:E.
      apply na_write_spec in E as (_ & _ & _ & Er & Ec & _).
      destruct (gp c) eqn:Egp; try contradiction.
      constructor; cbn [cp ctv gp gtv mm]; [lia|rewrite Er; auto].
  - (* G runs only while C waits *)
    destruct (gp c) eqn:Egp; [exact I| |]; (destruct (cp c) eqn:Ecp; try contradiction); destruct J as [Hf Hrf].
    + destruct (na_write (gtv c) (mm c) Rv) as [tv m] eqn:E.
      apply na_write_spec in E as (Eam & _ & _ & Er & Ec & _).
      constructor; cbn [cp ctv gp gtv mm]; [rewrite Eam; split; [lia|auto]|rewrite Er; auto].
    + destruct (at_write (sr b) K true (gtv c) (mm c)) as [tv m] eqn:E.
      apply at_write_spec in E as (nv & -> & Hrel & _).
      constructor; cbn [cp ctv gp gtv mm am nts race]; auto.
      rewrite am_set_same. apply readable_cons.
      * intros _. cbn. now rewrite (Hrel Hsr Rv Rv_ne_K).
      * revert Hrf. apply readable_impl. unfold is_false. congruence.
Qed.

Lemma run_inv b sched : ok b = true -> forall c, Inv c -> Inv (run b sched c).
Proof. intros Hok. apply fold_left_inv. intros c ch. now apply step_inv. Qed.

Theorem p5_sufficient b : ok b = true -> forall sched, race (mm (run b sched init)) = false.
Proof. intros Hok sched. apply j_race, run_inv; auto using inv_init. Qed.

Definition witness : list choice := [StepC 0; StepC 0; StepG; StepG; StepC 0; StepC 0].
Theorem p5_necessary b : ok b = false -> race (mm (run b witness init)) = true.
Proof. destruct b as [r [] []]; intros H; try discriminate H; destruct r; reflexivity. Qed.

End P5Proofs.

Module P6Proofs.
Import P6.

Definition won (t : thr) : bool := match tp t with TWin => true | _ => false end.

(* the exchange reads `true` once; the future keeps its one construction write until the winner writes it *)
Record Inv (c : cfg) : Prop := {
  k_slot : match am (mm c) O with
           | ms :: _ => mval ms = true -> Forall (fun t => won t = false) (ths c) /\ nts (mm c) Fu = 1
           | [] => False end;
  k_uniq : at_most_one won (ths c);
  k_win : Forall (fun t => won t = true -> nts (mm c) Fu = 1) (ths c);
  k_cur : Forall (fun t => 1 <= cur (ttv t) Fu) (ths c);
  k_le : nts (mm c) Fu <= 2;
  k_race : race (mm c) = false }.

Lemma Fu_ne_O : Fu <> O. Proof. discriminate. Qed.

Lemma inv_init n : Inv (init n).
Proof.
  constructor; cbn; auto.
  - intros _. split; [now apply Forall_repeat|reflexivity].
  - apply none_at_most_one. now apply Forall_repeat.
  - apply Forall_repeat. discriminate.
  - apply Forall_repeat. cbn. lia.
Qed.

Lemma step_inv b c t : Inv c -> Inv (step b c t).
Proof.
  intros I. pose proof I as [Htrue Iu Iw Icur Ile Irc].
  destruct (am (mm c) O) as [|ms rest] eqn:Ea; [contradiction|].
  unfold step. destruct (nth_error (ths c) t) as [[p tv]|] eqn:Et; [|exact I].
  pose proof (Forall_nth_error _ _ _ _ Icur Et) as Hcur. cbn in Hcur.
  destruct p; [| |exact I].
  - destruct (rmw (xa b) (xr b) O (fun _ => false) tv (mm c)) as [[[v tv'] m]|] eqn:E; [|exact I].
    apply (rmw_spec Ea) in E as (-> & nv & -> & _ & _ & Hc & _).
    specialize (Hc Fu Fu_ne_O).
    destruct (mval ms) eqn:Ev;
      (constructor; cbn [ths mm am nts race];
       [rewrite am_set_same; discriminate| | | |exact Ile|exact Irc]).
    + apply (at_most_one_set_nth Iu Et). intros _. right. now apply Htrue.
    + apply Forall_set_nth; auto. intros _. now apply Htrue.
    + apply Forall_set_nth; auto. cbn. lia.
    + apply (at_most_one_set_nth Iu Et). discriminate.
    + apply Forall_set_nth; auto. discriminate.
    + apply Forall_set_nth; auto. cbn. lia.
  - destruct (na_write tv (mm c) Fu) as [tv' m] eqn:E.
    apply na_write_spec in E as (Eam & Ex & _ & Er & Ec & _).
    pose proof (Forall_nth_error _ _ _ _ Iw Et eq_refl) as Hn1.
    constructor; cbn [ths mm].
    + rewrite Eam, Ea. intros [Hall _]%Htrue.
      apply (Forall_nth_error _ _ _ _ Hall) in Et. discriminate.
    + apply (at_most_one_set_nth Iu Et). discriminate.
    + apply (Forall_set_nth_one Iu Et eq_refl); [discriminate|]. intros y _ Hy. congruence.
    + apply Forall_set_nth; auto. cbn. lia.
    + lia.
    + rewrite Er; auto. lia.
Qed.

Lemma run_inv b sched : forall c, Inv c -> Inv (run b sched c).
Proof. apply fold_left_inv. intros c t. apply step_inv. Qed.

Theorem p6_single_writer b n sched : nts (mm (run b sched (init n))) Fu <= 2.
Proof. apply k_le, run_inv, inv_init. Qed.
End P6Proofs.

Module P3Proofs.
Import P3.

Definition crit (p : pc) : bool := match p with T0 | TS => false | _ => true end.
Definition holds_data (p : pc) : bool := match p with TC _ | TU _ => true | _ => false end.
(* a thread in TB has the data only if its subscribe CAS acquired; else the exchange installing the doorman brings it *)
Definition owns (b : bits) (p : pc) : bool := match p with TB => sa b | _ => holds_data p end.

Lemma holds_crit p : crit p = false -> holds_data p = false.
Proof. now destruct p. Qed.
Lemma owns_crit b p : crit p = false -> owns b p = false.
Proof. now destruct p. Qed.
Lemma holds_owns b p : holds_data p = true -> owns b p = true.
Proof. now destruct p. Qed.

(* the data is with the thread that holds it, and with the newest message of M whenever no thread holds it *)
Record Inv (b : bits) (c : cfg) : Prop := {
  m_slot : match am (mm c) M with
           | ms :: _ => (fst (mval ms) = false -> Forall (fun t => crit (tp t) = false) (ths c)) /\
                        (Forall (fun t => holds_data (tp t) = false) (ths c) -> nts (mm c) DATA <= mview ms DATA)
           | [] => False end;
  m_uniq : at_most_one (fun t => crit (tp t)) (ths c);
  m_own : Forall (fun t => owns b (tp t) = true -> nts (mm c) DATA <= cur (ttv t) DATA) (ths c);
  m_race : race (mm c) = false }.

Lemma DATA_ne_M : DATA <> M. Proof. discriminate. Qed.

Lemma inv_init b n : Inv b (init n).
Proof.
  constructor; cbn.
  - split; [intros _; now apply Forall_repeat|cbn; lia].
  - apply none_at_most_one. now apply Forall_repeat.
  - apply Forall_repeat. discriminate.
  - reflexivity.
Qed.

(* the locking discipline of an RMW on M: enter only a free mutex or from inside; say "free" only on leaving; a holder
   that lets go releases; a new owner was one, or acquires alone in the critical region (then the message has the data) *)
Lemma rmw_inv {b c t p tv p' ab rb f lk n0 mv rest v tv' m} :
  Inv b c -> nth_error (ths c) t = Some (Th p tv) -> am (mm c) M = Msg (lk, n0) mv :: rest ->
  rmw ab rb M f tv (mm c) = Some (v, tv', m) ->
  (crit p' = true -> crit p = true \/ lk = false) ->
  (fst (f (lk, n0)) = false -> crit p = true /\ crit p' = false) ->
  (holds_data p = true -> holds_data p' = true \/ rb = true) ->
  (owns b p' = true -> owns b p = true \/ ab = true /\ holds_data p = false /\ crit p' = true) ->
  Inv b (upd c t p' tv' m).
Proof.
  intros [Hs Iu Io Irc] Et Ea E Henter Hleave Hrel Hown.
  rewrite Ea in Hs. destruct Hs as [Hfree Hmsg]. cbn [mval mview fst] in Hfree, Hmsg.
  apply (rmw_spec Ea) in E as (-> & nv & -> & Hnv & Hr & Hc & Hacq). cbn [mval mview] in *.
  specialize (Hnv DATA). specialize (Hc DATA DATA_ne_M).
  pose proof (Forall_nth_error _ _ _ _ Io Et) as Hfr. cbn [tp ttv] in Hfr.
  assert (NOHOLD : crit p' = true -> holds_data p = false -> nts (mm c) DATA <= mv DATA).
  { intros [Hp| ->]%Henter Hh; apply Hmsg.
    - rewrite <- (set_nth_same_id _ _ _ Et). apply (Forall_set_nth_one Iu Et Hp); auto. intros y _. apply holds_crit.
    - eapply Forall_impl; [|exact (Hfree eq_refl)]. intros x. apply holds_crit. }
  constructor; cbn [upd ths mm am nts race]; auto.
  - rewrite am_set_same. cbn [mval mview]. split.
    + intros [Hp Hp']%Hleave. now apply (Forall_set_nth_one Iu Et Hp).
    + intros F. destruct (holds_data p) eqn:Hh.
      * destruct (Hrel eq_refl) as [Hp'|Hrb].
        -- apply (Forall_set_nth_inv Et) in F. cbn in F. congruence.
        -- specialize (Hr Hrb DATA DATA_ne_M). specialize (Hfr (holds_owns b p Hh)). lia.
      * apply (Forall_set_nth_rev Et Hh), Hmsg in F. lia.
  - apply (at_most_one_set_nth Iu Et). intros [Hp| ->]%Henter; auto.
  - apply Forall_set_nth; auto. cbn. intros [Ho|(Hab & Hh & Hcr)]%Hown.
    + specialize (Hfr Ho). lia.
    + specialize (Hacq Hab DATA DATA_ne_M). specialize (NOHOLD Hcr Hh). lia.
Qed.

Lemma step_inv b c ch : ok b = true -> Inv b c -> Inv b (step b c ch).
Proof.
  intros [[Hta Hur]%andb_true_iff Hxs]%andb_true_iff I.
  pose proof I as [Hs Iu Io Irc]. destruct (am (mm c) M) as [|[[lk n0] mv] rest] eqn:Ea; [contradiction|].
  destruct Hs as [Hfree Hmsg]. cbn [mval mview fst] in Hfree, Hmsg.
  destruct ch as [t arg]. unfold step.
  destruct (nth_error (ths c) t) as [[p tv]|] eqn:Et; [|exact I].
  pose proof (Forall_nth_error _ _ _ _ Io Et) as Hfr. cbn [tp ttv] in Hfr.
  assert (SLOT : forall p' tv' m, crit p = true -> holds_data p' = true -> am m = am (mm c) ->
            match am m M with
            | ms :: _ =>
              (fst (mval ms) = false -> Forall (fun x => crit (tp x) = false) (set_nth (ths c) t (Th p' tv'))) /\
              (Forall (fun x => holds_data (tp x) = false) (set_nth (ths c) t (Th p' tv')) -> nts m DATA <= mview ms DATA)
            | [] => False end).
  { intros p' tv' m Hp Hp' ->. rewrite Ea. cbn [mval mview fst]. split.
    - intros F%Hfree. apply (Forall_nth_error _ _ _ _ F) in Et. cbn in Et. congruence.
    - intros F. apply (Forall_set_nth_inv Et) in F. cbn in F. congruence. }
  destruct p as [| | |q|q].
  - destruct arg as [|pp].
    + rewrite Ea. destruct lk; [exact I|].
      destruct (rmw (ta b) (tr b) M (fun _ => (true, 0)) tv (mm c)) as [[[v tv'] m]|] eqn:E; [|exact I].
      apply (rmw_inv I Et Ea E); cbn; auto; discriminate.
    + destruct (at_read (tfa b) M pp tv (mm c)) as [[[[|] n1] tv']|]; try exact I.
      constructor; cbn [upd ths mm]; auto.
      * rewrite Ea. cbn [mval mview fst]. split.
        -- intros H. apply Forall_set_nth; auto.
        -- intros F. apply Hmsg. revert F. now apply (Forall_set_nth_rev Et).
      * apply (at_most_one_set_nth Iu Et). discriminate.
      * apply Forall_set_nth; auto. discriminate.
  - (* if the mutex was free it is now held, the doorman still to be installed *)
    destruct (rmw (sa b) (sr b) M (fun v : bool * nat => if fst v then (true, S (snd v)) else (true, 0)) tv (mm c))
      as [[[v tv'] m]|] eqn:E; [|exact I].
    destruct (rmw_spec Ea E) as [-> _]. cbn [mval].
    destruct lk; apply (rmw_inv I Et Ea E); cbn; auto; discriminate.
  - (* the data came with the subscribe CAS or comes with this exchange *)
    destruct (rmw (xa b) (xr b) M (fun _ => (true, 0)) tv (mm c)) as [[[[l n] tv'] m]|] eqn:E; [|exact I].
    apply (rmw_inv I Et Ea E); cbn; auto; try discriminate.
    intros _. destruct (xa b); auto.
  - destruct (na_write tv (mm c) DATA) as [tv' m] eqn:E.
    apply na_write_spec in E as (Eam & _ & _ & Er & Ec & _). specialize (Hfr eq_refl).
    constructor; cbn [upd ths mm].
    + now apply SLOT.
    + apply (at_most_one_set_nth Iu Et). auto.
    + apply (Forall_set_nth_one Iu Et eq_refl).
      * intros _. cbn. lia.
      * intros y _ Hy. rewrite (owns_crit b _ Hy). discriminate.
    + rewrite Er; auto.
  - destruct q as [|q].
    2: { constructor; cbn [upd ths mm]; [now apply SLOT| | |exact Irc].
         - apply (at_most_one_set_nth Iu Et). auto.
         - apply Forall_set_nth; auto. }
    (* requests were stacked meanwhile: t takes them and stays the holder *)
    assert (XCHG : Inv b match rmw (xa b) (xr b) M (fun _ => (true, 0)) tv (mm c) with
                        | Some ((_, S n), tv', m) => upd c t (TC n) tv' m
                        | Some ((_, 0), tv', m) => upd c t (TU 0) tv' m
                        | None => c end).
    { destruct (rmw (xa b) (xr b) M (fun _ => (true, 0)) tv (mm c)) as [[[[l [|n]] tv'] m]|] eqn:E; [| |exact I];
        apply (rmw_inv I Et Ea E); cbn; auto; discriminate. }
    rewrite Ea. destruct lk, n0; try exact XCHG.
    destruct (rmw (ua b) (ur b) M (fun _ => (false, 0)) tv (mm c)) as [[[v tv'] m]|] eqn:E; [|exact I].
    apply (rmw_inv I Et Ea E); cbn; auto; discriminate.
Qed.

Lemma run_inv b sched : ok b = true -> forall c, Inv b c -> Inv b (run b sched c).
Proof. intros Hok. apply fold_left_inv. intros c ch. now apply step_inv. Qed.

Theorem p3_sufficient b : ok b = true -> forall n sched, race (mm (run b sched (init n))) = false.
Proof. intros Hok n sched. apply (m_race b), run_inv; auto using inv_init. Qed.

(* thread 0 locks, writes and unlocks; thread 1 then locks, on the fast path or through subscribe, and writes *)
Definition wit_fast : list (nat * nat) := [(0,0); (0,0); (0,0); (1,0); (1,0)].
Definition wit_sub : list (nat * nat) := [(0,0); (1,1); (0,0); (0,0); (1,0); (1,0); (1,0)].
Definition witness (b : bits) : list (nat * nat) := if ta b && ur b then wit_sub else wit_fast.

Lemma fast_races b : ta b && ur b = false -> race (mm (run b wit_fast (init 2))) = true.
Proof.
  destruct b as [a r ? ? ? u l ? ?]. destruct a, l; intros H; try discriminate H; destruct r, u; reflexivity.
Qed.

Lemma sub_races b : xa b || sa b = false -> race (mm (run b wit_sub (init 2))) = true.
Proof.
  destruct b as [a r f s sr u l x xr]. destruct x, s; intros H; try discriminate H;
    destruct a, r, f, sr, u, l, xr; reflexivity.
Qed.

Theorem p3_necessary b : ok b = false -> race (mm (run b (witness b) (init 2))) = true.
Proof.
  unfold ok, witness. intros H. destruct (ta b && ur b) eqn:E; [now apply sub_races|now apply fast_races].
Qed.

(* owner discipline: additional plain reads of the owner-private data *)
Lemma peek_inv pk b c ch : ok b = true -> (forall p, pk p = true -> holds_data p = true) -> Inv b c -> Inv b (step_peek pk b c ch).
Proof.
  intros Hok Hpk I. unfold step_peek. destruct (Nat.eqb (snd ch) peek_arg); [|now apply step_inv].
  destruct (nth_error (ths c) (fst ch)) as [[p tv]|] eqn:Et; [|exact I].
  destruct (pk p) eqn:Ep; [|exact I].
  rewrite na_read_spec; [now destruct c|].
  apply (Forall_nth_error _ _ _ _ (m_own b c I) Et), holds_owns, Hpk, Ep.
Qed.

Theorem p3_owner_access_race_free pk b : ok b = true -> (forall p, pk p = true -> holds_data p = true) ->
  forall n sched, race (mm (run_peek pk b sched (init n))) = false.
Proof.
  intros Hok Hpk n sched. apply (m_race b). unfold run_peek. apply fold_left_inv; [|apply inv_init].
  intros c ch. now apply peek_inv.
Qed.


(* a plain read of the owner-private data by a thread that is only trying to lock races, whatever the memory orders *)
Theorem p3_nonowner_access_races pk b n : 2 <= n -> pk T0 = true \/ pk TS = true ->
  exists sched, race (mm (run_peek pk b sched (init n))) = true.
Proof.
  destruct n as [|[|n]]; [lia..|]. intros _ [H|H].
  - exists [(0,0); (0,0); (1, peek_arg)]. cbn. rewrite H. reflexivity.
  - exists [(0,0); (1,1); (0,0); (1, peek_arg)]. cbn. rewrite H. destruct (tfa b), (tr b), (ta b); reflexivity.
Qed.

End P3Proofs.
