(* AdaptersProofs.v — what follows from the invariants of the callback-adapter model (AdaptersInv.v, AdaptersLog.v) in every
   reachable state and in every terminal one; every schedule ends (AdaptersWeight.v). *)
From Cocls Require Import Base BaseProofs AdaptersDefs AdaptersInv AdaptersLog AdaptersWeight.
Require Import ZifyBool.
Local Open Scope nat_scope.

Theorem inv_reachable c s : valid c = true -> reachable c s -> Inv c s.
Proof. intros V R. induction R; [apply inv_init; exact V|apply inv_step; assumption]. Qed.

Theorem loginv_reachable c s : valid c = true -> reachable c s -> LogInv c s.
Proof.
  intros V R. induction R; [apply loginv_init|].
  apply loginv_step; [apply inv_reachable; assumption|assumption|assumption].
Qed.

(* counts of a state whose first two threads are empty *)
Lemma N_th2 p s : th0 s = [] -> th1 s = [] -> N p s = cnt p (th2 s).
Proof. intros A B. unfold N. rewrite A, B. reflexivity. Qed.

(* no deadlock: when no thread can move, all threads have run to completion *)
Theorem terminal_done c s : valid c = true -> reachable c s -> terminal s -> th0 s = [] /\ th1 s = [] /\ th2 s = [].
Proof.
  intros V R T. destruct (inv_reachable c s V R) as [[IS _ _ IC _ IJ _] [Hpark Hxw How0 How1 How2 Hxw20 Hxw21 Hxw22]].
  unfold terminal, all_enabled, enabled in T. cbn [thr] in T.
  apply app_eq_nil in T. destruct T as [T0 T]. apply app_eq_nil in T. destruct T as [T1 T2].
  (* threads 0 and 1 hold no instruction that can wait, except thread 1 for a promise that has been parked *)
  assert (A : th0 s = []).
  { destruct (th0 s) as [|ins rest]; [reflexivity|].
    destruct ins; cbn [cnt p_xw p_ow p_xw2] in Hxw, How0, Hxw20; try discriminate; lia. }
  rewrite A in Hpark. cbn [cnt Nat.add] in Hpark.
  assert (B : th1 s = []).
  { destruct (th1 s) as [|ins rest]; [reflexivity|].
    destruct ins; cbn [cnt p_xw p_ow p_xw2] in Hpark, How1, Hxw21; try discriminate; try lia.
    destruct (parked s); [discriminate|]. cbn [b2n] in Hpark. specialize (Hpark eq_refl). lia. }
  split; [exact A|]. split; [exact B|].
  destruct (th2 s) as [|ins rest] eqn:C; [reflexivity|]. exfalso.
  (* thread 2 alone is left: the source promise is consumed, the future ready, its completion has run *)
  pose proof (i_claim IS) as Hclaim. pose proof (i_res IS) as Hres. pose proof (i_dtk IS) as Hdtk. cbn beta in *.
  rewrite !(N_th2 _ s A B), C in *.
  destruct ins; try discriminate.
  - rewrite B in Hpark. cbn [cnt p_xw Nat.add] in Hpark.
    destruct (parked s); [discriminate|]. cbn [b2n] in Hpark. specialize (Hpark eq_refl). lia.
  - (* so a re-arming handler has parked the second promise *)
    pose proof (j_park IJ) as Hpark2. pose proof (j_xwc IJ) as Hxwc. cbn beta in *.
    rewrite !(N_th2 _ s A B), C in *.
    assert (RS : cnt p_claim rest = 0 /\ cnt p_res rest = 0 /\ cnt p_dtk rest = 0 /\ cnt p_park2 rest = 0).
    { destruct Hxw22 as [W|[W|W]]; [inversion W; subst rest; cbn; auto|inversion W; subst rest; cbn; auto|cbn [cnt p_xw2] in W; lia]. }
    destruct RS as (R1 & R2 & R3 & R4).
    cbn [cnt p_claim p_res p_dtk p_park2 p_xw2 Nat.add] in *. rewrite ?R1, ?R2, ?R3, ?R4 in *.
    destruct (owner s); [cbn [b2n] in Hclaim; lia|]. destruct (slot s); cbn [rdy sub b2n] in *; try lia.
    destruct (parked2 s); [discriminate|]. cbn [b2n] in *.
    assert (nfire s = 1) as F by lia. rewrite F, Nat.mul_1_r in Hpark2. lia.
  - (* and a forwarding converter has handed over the outer promise, or the outer future is ready *)
    pose proof (i_owc IC) as Howc. pose proof (i_oprom IC) as Hoprom. pose proof (i_ph IC) as Hph.
    pose proof (i_tok IC) as Htok. pose proof (i_nores IC) as Hnores. pose proof (i_stage IC) as Hstage. cbn beta in *.
    rewrite !(N_th2 _ s A B), C in *.
    destruct How2 as [W|W]; [|cbn [cnt p_ow] in W; lia]. inversion W; subst rest.
    cbn [cnt p_claim p_res p_dtk p_cvA p_cvB p_cvC p_cvP p_cvD p_cvR p_ow p_oc Nat.add] in *.
    destruct (owner s); [cbn [b2n] in Hclaim; lia|]. destruct (slot s); cbn [rdy sub b2n] in *; try lia.
    assert (F : nfire s = 1) by lia. rewrite F, Nat.mul_1_r in *.
    assert (CV1 : cv c = 1) by (unfold rp, cv in *; destruct (is_conv c); cbn [andb b2n] in *; lia).
    destruct (oheld s); [discriminate|]. cbn [on] in *. destruct (oslot s); cbn [rdy] in *; try discriminate; lia.
Qed.

Record Final (c : cfg) (s : st) : Prop := {
  f_ready : slot s = SReady;
  f_owner : owner s = false;
  f_payload : payload s = wout c s;
  f_won : won s = 1 \/ won s = 2;
  f_fired : nfire s = 1;
  f_freed : frees s = allocs s;
  f_allocs : allocs s = hb c;
  f_nores : nores s = cv c;
  f_ndeliv : ndeliv s = cv c;
  f_nconv : nconv s = if isv (payload s) then cv c else 0;
  f_outer : is_conv c = true -> oslot s = SReady /\ opayload s = expected c s;
  f_oprom : oprom s = false;
  f_fired2 : nfire2 s = re c;
  f_payload2 : payload2 s = out_of (kind_re c)
}.

Theorem terminal_final c s : valid c = true -> reachable c s -> terminal s -> Final c s.
Proof.
  intros V R T. destruct (terminal_done c s V R T) as (A & B & C).
  (* nothing is waiting any more: every count is 0 *)
  assert (I : InvN c s (fun _ => 0)).
  { apply (InvN_ext c s (fun p => N p s)); [|exact (inv_n (inv_reachable c s V R))].
    intros p. unfold N. rewrite A, B, C. reflexivity. }
  destruct I as [[Hclaim Hres Hdtk Hwalk Hfired Halloc Hfree] [Hpay _ _] [_ Hwon _ _ _ _ _ _ _ _ _ _ _ _] [Hstage Hoprom Htok Hph _ _ _ _ Hoht _ Hnores Hotk _ _] [_ _ _ _ Hopay Hnconv] [Hclaim2 Hres2 Hdtk2 _ _ _ _] [_ Hpay2 _ _]].
  assert (RE1 : re c <= 1) by (unfold re; destruct (c_re c); lia).
  destruct (owner s) eqn:FO; [cbn [b2n] in Hclaim; lia|]. destruct (slot s) eqn:FS; cbn [rdy sub b2n Nat.add] in *; try lia.
  assert (F : nfire s = 1) by lia. rewrite F, ?Nat.mul_1_r in *.
  destruct (oprom s) eqn:FOP; [cbn [b2n] in Hoprom; lia|]. destruct (pheld s); [cbn [b2n] in Hph; lia|].
  cbn [b2n Nat.add] in *.
  destruct (owner2 s); [cbn [b2n] in Hclaim2; lia|]. cbn [b2n Nat.add] in *.
  assert (OS : rdy (oslot s) = cv c /\ sub (oslot s) = 0) by (destruct (oslot s), (oheld s); cbn [rdy sub on] in *; lia).
  destruct OS as [OS1 OS2].
  constructor; auto; try lia.
  - destruct (isv (payload s)); lia.
  - intros Q. unfold cv in *. rewrite Q in *. cbn [b2n] in *.
    split; [destruct (oslot s); cbn [rdy] in OS1; try discriminate; reflexivity|apply Hopay; lia].
  - destruct (slot2 s); cbn [rdy sub] in *; lia.
Qed.

Lemma filter_cb_conv_log c o t : filter is_cb (conv_log c o t) = [].
Proof. unfold conv_log. destruct o; reflexivity. Qed.

Lemma filter_cb_cb_log c o t : length (filter is_cb (cb_log c o t)) = 1.
Proof.
  unfold cb_log. cbn [map app filter is_cb snd length].
  destruct (has_functor (c_ad c)); [|reflexivity]. cbn [map filter is_cb snd].
  destruct (has_sd (c_stor c)); reflexivity.
Qed.

Definition ncb (s : st) : nat := length (filter is_cb (log s)).

Lemma ncb_shape c s : valid c = true -> reachable c s ->
  ncb s = (if atomic_cb c && Nat.eqb (nfire s) 1 then 1 else 0) + (if Nat.eqb (nfire2 s) 1 then 1 else 0).
Proof.
  intros V R. destruct (loginv_reachable c s V R) as (t1 & t2 & t3 & t4 & L).
  unfold ncb. rewrite L, !filter_app, !app_length.
  destruct (Nat.eqb (nconv s) 1); [rewrite filter_cb_conv_log|]; cbn [filter length Nat.add];
  (destruct (Nat.eqb (ndeliv s) 1); cbn [filter is_cb snd length Nat.add]);
  (destruct (atomic_cb c && Nat.eqb (nfire s) 1); [rewrite filter_cb_cb_log|cbn [filter length]]);
  (destruct (Nat.eqb (nfire2 s) 1); reflexivity).
Qed.

(* the user callback is entered at most once per awaited operation (a re-arming handler awaits two), in every reachable state *)
Theorem fires_at_most_once c s : valid c = true -> reachable c s -> ncb s <= 1 + re c /\ nfire s <= 1 /\ nfire2 s <= re c.
Proof.
  intros V R. rewrite (ncb_shape c s V R).
  pose proof (inv_reachable c s V R) as II. pose proof (i_fired (inv_s (inv_n II))) as Hfired. pose proof (j_fired (inv_j (inv_n II))) as Hfired2. cbn beta in *.
  pose proof (j_dtk (inv_j (inv_n II))) as Hdtk2. cbn beta in *.
  assert (NF : nfire s <= 1) by (destruct (slot s); cbn [rdy] in Hfired; lia).
  assert (RE1 : re c * nfire s <= re c) by (unfold re; destruct (c_re c); lia).
  assert (N2 : nfire2 s <= re c) by lia.
  repeat split; try lia.
  destruct (atomic_cb c && Nat.eqb (nfire s) 1); destruct (Nat.eqb (nfire2 s) 1) eqn:Q; try lia;
    apply Nat.eqb_eq in Q; lia.
Qed.

(* ... and exactly once per awaited operation when the scenario has run to completion (never zero, never twice) *)
Theorem fires_exactly_once c s : valid c = true -> reachable c s -> terminal s ->
  ncb s = b2n (has_cb (c_ad c)) + re c.
Proof.
  intros V R T. rewrite (ncb_shape c s V R). pose proof (terminal_final c s V R T) as F.
  rewrite (f_fired c s F), (f_fired2 c s F).
  unfold atomic_cb, re. destruct (has_cb (c_ad c)); destruct (c_re c); reflexivity.
Qed.

(* every callback invocation sees exactly the outcome the source future holds, with the helper block allocated and
   not yet freed; that outcome is the one of the resolver that won the claim ... *)
Theorem right_outcome c s t o al fr : valid c = true -> reachable c s ->
  In (t, ECb o al fr) (log s) ->
  ((o = payload s /\ o = wout c s) \/ (re c = 1 /\ o = payload2 s /\ o = out_of (kind_re c))) /\ al = hb c /\ fr = 0.
Proof.
  intros V R H. destruct (loginv_reachable c s V R) as (t1 & t2 & t3 & t4 & L). rewrite L in H.
  pose proof (inv_reachable c s V R) as II.
  apply in_app_or in H. destruct H as [H|H].
  { destruct (Nat.eqb (nconv s) 1); [|destruct H]. unfold conv_log in H.
    destruct (payload s); cbn [In] in H; try contradiction. destruct H as [H|[]]. discriminate. }
  apply in_app_or in H. destruct H as [H|H].
  { destruct (Nat.eqb (ndeliv s) 1); [|destruct H]. destruct H as [H|[]]. discriminate. }
  apply in_app_or in H. destruct H as [H|H].
  - destruct (atomic_cb c && Nat.eqb (nfire s) 1) eqn:Q; [|destruct H].
    assert (P : payload s = wout c s).
    { pose proof (i_res (inv_s (inv_n II))) as Hres. pose proof (i_pay (inv_p (inv_n II))) as Hpay. pose proof (i_fired (inv_s (inv_n II))) as Hfired. cbn beta in *.
      apply Hpay. apply andb_prop in Q. destruct Q as [_ Q]. apply Nat.eqb_eq in Q. rewrite Q in Hfired.
      destruct (slot s); cbn [rdy] in *; try lia. destruct (owner s); [cbn [b2n] in Hres; lia|reflexivity]. }
    unfold cb_log in H. cbn [map app] in H.
    destruct H as [H|[H|H]]; try discriminate.
    + inversion H. subst. auto.
    + destruct (has_functor (c_ad c)); [|destruct H]. cbn [map] in H. destruct H as [H|H]; [discriminate|].
      destruct (has_sd (c_stor c)); [destruct H as [H|[]]|destruct H]; discriminate.
  - destruct (Nat.eqb (nfire2 s) 1) eqn:Q; [|destruct H]. apply Nat.eqb_eq in Q.
    pose proof (j_fired (inv_j (inv_n II))) as Hfired2. pose proof (j_res (inv_j (inv_n II))) as Hres2. pose proof (j_pay (inv_k (inv_n II))) as Hpay2. cbn beta in *.
    pose proof (j_dtk (inv_j (inv_n II))) as Hdtk2. pose proof (j_cfg (inv_k (inv_n II))) as Hcfg. cbn beta in *.
    pose proof (i_fired (inv_s (inv_n II))) as Hfired. assert (NF : nfire s <= 1) by (destruct (slot s); cbn [rdy] in Hfired; lia). cbn beta in *.
    assert (RE1 : re c <= 1) by (unfold re; destruct (c_re c); lia).
    assert (REN : re c * nfire s <= re c) by (unfold re; destruct (c_re c); lia).
    assert (R1 : re c = 1) by lia.
    assert (P2 : payload2 s = out_of (kind_re c)).
    { apply Hpay2. destruct (slot2 s); cbn [rdy] in *; try lia. destruct (owner2 s); [cbn [b2n] in Hres2; lia|reflexivity]. }
    unfold cb2_log in H. destruct H as [H|[H|[]]]; [|discriminate]. inversion H. subst.
    unfold hb. rewrite (Hcfg R1). cbn [has_helper b2n]. rewrite <- P2. auto.
Qed.

(* ... i.e. of the call that returned true: at most one call returns true; the competitor's call returned true iff it
   won; without a competitor the outcome is the declared one; with one, the primary's call returned true iff it won *)
Theorem winner_facts c s : valid c = true -> reachable c s ->
  (ret1 s = Some true -> ret2 s = Some true -> False) /\
  (ret1 s = Some true -> wout c s = out_of (c_k c)) /\
  (ret2 s = Some true -> exists k2, c_k2 c = Some k2 /\ wout c s = out_of k2) /\
  (c_k2 c = None -> wout c s = out_of (c_k c) /\ ret2 s = None) /\
  (c_k2 c <> None -> owner s = false -> (ret1 s = Some true /\ ret2 s <> Some true) \/ (ret2 s = Some true /\ ret1 s <> Some true)).
Proof.
  intros V R.
  pose proof (inv_reachable c s V R) as II. pose proof (i_won0 (inv_r (inv_n II))) as Hwon0. pose proof (i_won (inv_r (inv_n II))) as Hwon. pose proof (i_ret1 (inv_r (inv_n II))) as Hret1. pose proof (i_ret2 (inv_r (inv_n II))) as Hret2. cbn beta in *.
  pose proof (i_c0 (inv_r (inv_n II))) as Hc0. pose proof (i_c2k (inv_r (inv_n II))) as Hc2k. pose proof (i_r2k (inv_r (inv_n II))) as Hr2k. pose proof (i_w1 (inv_r (inv_n II))) as Hw1. cbn beta in *.
  unfold wout, kind_of. split; [|split; [|split; [|split]]].
  - intros A B. apply Hret1 in A. apply Hret2 in B. congruence.
  - intros A. apply Hret1 in A. rewrite A. reflexivity.
  - intros B. assert (ret2 s <> None) as NB by congruence. apply Hr2k in NB. apply Hret2 in B. rewrite B.
    destruct (c_k2 c) as [k2|]; [|congruence]. exists k2. auto.
  - intros K. split.
    + destruct (won s) as [|[|[|w]]] eqn:W; try reflexivity.
      exfalso. assert (ret2 s = Some true) as B by (apply Hret2; reflexivity). apply Hr2k; [congruence|exact K].
    + destruct (ret2 s) as [b|] eqn:B; [|reflexivity]. exfalso. apply Hr2k; [discriminate|exact K].
  - intros K O. destruct (Hwon O) as [W|W].
    + left. destruct (Hw1 W) as [A|A]; [|contradiction]. split; [exact A|]. intros B. apply Hret2 in B. congruence.
    + right. assert (ret2 s = Some true) as B by (apply Hret2; exact W). split; [exact B|]. intros A. apply Hret1 in A. congruence.
Qed.

(* the helper block is released at most once, never before the callback has returned, and exactly once at the end *)
Theorem released_once c s : valid c = true -> reachable c s ->
  frees s <= allocs s /\ allocs s = hb c /\
  (frees s >= 1 -> atomic_cb c = true -> exists pre post t, log s = pre ++ cb_log c (payload s) t ++ post) /\
  (terminal s -> frees s = allocs s).
Proof.
  intros V R. pose proof (inv_reachable c s V R) as II. pose proof (i_dtk (inv_s (inv_n II))) as Hdtk. pose proof (i_fired (inv_s (inv_n II))) as Hfired. pose proof (i_alloc (inv_s (inv_n II))) as Halloc. pose proof (i_free (inv_s (inv_n II))) as Hfree. cbn beta in *.
  assert (NF : nfire s <= 1) by (destruct (slot s); cbn [rdy] in Hfired; lia).
  repeat split.
  - rewrite Halloc. destruct (nfire s) as [|[|n]]; lia.
  - exact Halloc.
  - intros F A. destruct (loginv_reachable c s V R) as (t1 & t2 & t3 & t4 & L).
    assert (nfire s = 1) by (destruct (nfire s) as [|[|n]]; lia).
    rewrite H, A in L. cbn [Nat.eqb andb] in L. rewrite L, app_assoc. eauto.
  - intros T. exact (f_freed c s (terminal_final c s V R T)).
Qed.

(* converter adapter: at the end the outer future holds exactly the converted value / the converter's exception /
   the source's exception, it was resolved once, delivered once, and the converter ran once iff there was a value *)
Theorem conv_final c s : valid c = true -> is_conv c = true -> reachable c s -> terminal s ->
  oslot s = SReady /\ opayload s = conv_result c (wout c s) /\ nores s = 1 /\ ndeliv s = 1 /\
  nconv s = b2n (isv (wout c s)) /\
  exists t1 t2, log s = conv_log c (wout c s) t1 ++ [(t2, EODeliv (conv_result c (wout c s)))].
Proof.
  intros V C R T. destruct (terminal_final c s V R T) as [_ _ P _ F _ _ NR ND NC O _].
  destruct (O C) as [O1 O2]. unfold cv, expected in *. rewrite C in *. cbn [b2n] in *. rewrite <- P.
  repeat split; try assumption.
  destruct (loginv_reachable c s V R) as (t1 & t2 & t3 & t4 & L).
  pose proof (terminal_final c s V R T) as FF. pose proof (j_cfg (inv_k (inv_n (inv_reachable c s V R)))) as Hcfg. cbn beta in *.
  rewrite ND, F, (f_fired2 c s FF) in L. unfold atomic_cb, expected in L. unfold is_conv in C. destruct (c_ad c) eqn:AD; try discriminate.
  assert (RE0 : re c = 0) by (unfold re in *; destruct (c_re c); [specialize (Hcfg eq_refl); discriminate Hcfg|reflexivity]).
  rewrite RE0 in L. cbn [has_cb andb Nat.eqb] in L. rewrite !app_nil_r in L.
  rewrite NC in L. exists t1, t2. rewrite L. unfold conv_log.
  destruct (payload s); cbn [isv Nat.eqb]; reflexivity.
Qed.

(* safety half, in every reachable state: the outer future is resolved at most once, the converter runs at most once
   and only on a value, and a ready outer future holds the expected result *)
Theorem conv_safe c s : valid c = true -> reachable c s ->
  nores s <= 1 /\ nconv s <= b2n (isv (payload s)) /\ ndeliv s <= nores s /\
  (oslot s = SReady -> opayload s = conv_result c (payload s)).
Proof.
  intros V R. pose proof (inv_reachable c s V R) as II. pose proof (i_fired (inv_s (inv_n II))) as Hfired. pose proof (i_tok (inv_c (inv_n II))) as Htok. pose proof (i_nores (inv_c (inv_n II))) as Hnores. pose proof (i_opay (inv_d (inv_n II))) as Hopay. pose proof (i_nconv (inv_d (inv_n II))) as Hnconv. pose proof (i_ndeliv (inv_c (inv_n II))) as Hndeliv. pose proof (i_stage (inv_c (inv_n II))) as Hstage. cbn beta in *.
  assert (NF : nfire s <= 1) by (destruct (slot s); cbn [rdy] in Hfired; lia).
  assert (CV : cv c * nfire s <= 1).
  { unfold cv, b2n. destruct (is_conv c); lia. }
  assert (CV1 : cv c <= 1) by (unfold cv, b2n; destruct (is_conv c); lia).
  repeat split; try lia.
  - destruct (isv (payload s)); cbn [b2n]; lia.
  - intros Q. rewrite Q in Hnores. cbn [rdy] in Hnores. apply Hopay. lia.
Qed.

Lemma in_all_enabled s i : In i (all_enabled s) -> enabled s i = true.
Proof.
  unfold all_enabled. intros H. apply in_app_or in H. destruct H as [H|H].
  - destruct (enabled s 0) eqn:Q; [|destruct H]. destruct H as [<-|[]]. exact Q.
  - apply in_app_or in H. destruct H as [H|H].
    + destruct (enabled s 1) eqn:Q; [|destruct H]. destruct H as [<-|[]]. exact Q.
    + destruct (enabled s 2) eqn:Q; [|destruct H]. destruct H as [<-|[]]. exact Q.
Qed.

Lemma sched_pick_enabled s e en sched :
  all_enabled s = e :: en ->
  enabled s (nth (Z.to_nat ((match sched with [] => 0%Z | x :: _ => Z.abs x end) mod zlen (e :: en))) (e :: en) 0) = true.
Proof. intros EN. apply in_all_enabled. rewrite EN. apply nth_mod_In. discriminate. Qed.

Theorem run_sched_reachable c fuel : forall s sched tr,
  reachable c s -> reachable c (fst (run_sched c fuel s sched tr)).
Proof.
  induction fuel as [|f IH]; intros s sched tr R; cbn [run_sched]; [exact R|].
  destruct (all_enabled s) as [|e en] eqn:EN; [exact R|].
  pose proof (sched_pick_enabled s e en sched EN) as E.
  set (i := nth _ (e :: en) 0) in *.
  destruct (tstep c s i) as [s1 p] eqn:TS.
  apply IH. replace s1 with (fst (tstep c s i)) by (rewrite TS; reflexivity).
  apply r_step; assumption.
Qed.

Lemma wl_pos l : l <> [] -> wl l >= 1.
Proof. destruct l as [|x t]; [congruence|]. intros _. cbn [wl]. destruct x; cbn [w]; lia. Qed.

Lemma weight_zero_terminal s : weight s = 0 -> terminal s.
Proof.
  unfold weight, terminal, all_enabled, enabled. cbn [thr]. intros H.
  destruct (th0 s) as [|a l0]; [|pose proof (wl_pos (a :: l0) ltac:(discriminate)); lia].
  destruct (th1 s) as [|b l1]; [|pose proof (wl_pos (b :: l1) ltac:(discriminate)) as P; change (wl []) with 0 in H; lia].
  destruct (th2 s) as [|d l2]; [reflexivity|].
  pose proof (wl_pos (d :: l2) ltac:(discriminate)) as P. change (wl []) with 0 in H. lia.
Qed.

Theorem run_terminates c fuel : forall s sched tr,
  valid c = true -> reachable c s -> weight s <= fuel -> terminal (fst (run_sched c fuel s sched tr)).
Proof.
  induction fuel as [|f IH]; intros s sched tr V R W; cbn [run_sched].
  - cbn [fst]. apply weight_zero_terminal. lia.
  - destruct (all_enabled s) as [|e en] eqn:EN; [exact EN|].
    pose proof (sched_pick_enabled s e en sched EN) as E.
    set (i := nth _ (e :: en) 0) in *.
    pose proof (weight_step c s i (inv_reachable c s V R) E) as WS.
    destruct (tstep c s i) as [s1 p] eqn:TS. cbn [fst] in WS.
    apply IH; [exact V| |lia].
    replace s1 with (fst (tstep c s i)) by (rewrite TS; reflexivity).
    apply r_step; assumption.
Qed.

Lemma weight_init c : weight (init c) <= 90.
Proof.
  unfold weight, init. cbn [th0 th1 th2].
  assert (M : wl (mk_prog c) <= 12) by (unfold mk_prog; destruct (c_mode c) as [|[|m]]; [|destruct (c_k c)|]; cbn; lia).
  assert (P : wl (res_prog c) <= 11) by (unfold res_prog; destruct (c_k c), (c_k2 c); cbn; lia).
  assert (G : wl (reg_prog c) <= 30) by (unfold reg_prog; destruct (c_ad c); rewrite ?wl_app; cbn [wl w app]; lia).
  rewrite wl_app. destruct (is_mode c 3), (is_mode c 2); cbn [wl w];
    (destruct (c_k2 c); [|destruct (is_conv c && Nat.eqb (c_cb c) 4); [|destruct (c_re c) as [[| |]|]]]); cbn [wl w]; lia.
Qed.

(* every schedule of every valid configuration ends, within 90 steps, in a terminal state *)
Theorem every_schedule_terminates c sched fuel : valid c = true -> 90 <= fuel ->
  terminal (fst (run_sched c fuel (init c) sched [])).
Proof.
  intros V F. apply run_terminates; [exact V|apply r_init|]. pose proof (weight_init c). lia.
Qed.
