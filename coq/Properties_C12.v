(* Properties_C12.v — C12: scheduler: never early, in deadline order, each sleep completed exactly once, cancel hits
   exactly its target, no crash / hang, destruction cancels, an idle worker wakes on time.
   Only statements; every proof is a line or two from the lemmas of TimerProofs / Timer2Proofs / Timer3Proofs / Timer4Proofs.
   Quantification: every history of schedule / sleep_until / get_expired / remove / cancel / cancel(e) / ~scheduler
   calls of any length, arbitrary (equal, past, negative) time points, arbitrary idents (duplicates), arbitrary clock
   readings; every interleaving of the worker with foreign schedule / cancel / tick / spurious wake-up / stop events;
   every sequence of interval-generator / stop-token operations. *)
From Cocls Require Import Base BaseProofs TimerDefs TimerProofs Timer2Proofs Timer3Proofs Timer4Proofs.
Require Import Sorted.
Local Open Scope Z_scope.

(* libstdc++ push_heap / pop_heap as transcribed keep the min-heap order and the multiset, for arrays of every size *)
Theorem c12_heap_push : forall l e, heap_ok l ->
  heap_ok (heap_push l e) /\ Permutation (heap_push l e) (e :: l) /\ length (heap_push l e) = S (length l).
Proof. exact heap_push_ok. Qed.
Print Assumptions c12_heap_push.

Theorem c12_heap_pop : forall t rest, heap_ok (t :: rest) ->
  exists l', pop_item (t :: rest) = Ok l' /\ heap_ok l' /\ Permutation (t :: l') (t :: rest) /\ length l' = length rest.
Proof.
  intros t rest H. destruct (pop_item_ok t rest H) as (l' & E & H' & P & L). exists l'. auto using perm_skip.
Qed.
Print Assumptions c12_heap_pop.

(* in every reachable state `_scheduled` is a heap, so `_scheduled[0]` really is a minimum of the whole array *)
Theorem c12_heap_invariant : forall s, reachable s ->
  heap_ok (sched s) /\ forall t rest e, sched s = t :: rest -> In e (sched s) -> e_tp t <= e_tp e.
Proof.
  intros s R. pose proof (inv_heap s (reachable_inv s R)) as H. split; [exact H|].
  intros t rest e E. rewrite E in *. apply heap_top_min_in. exact H.
Qed.
Print Assumptions c12_heap_invariant.

(* no history reaches an out-of-bounds index (ErrOOB) or any other abnormal outcome; one observation per call *)
Theorem c12_no_crash : forall ops, exists os s, run_from st0 ops = (os, Some s) /\ length os = length ops.
Proof. intros ops. destruct (run_from_ok ops st0 inv_st0) as (os & s & E & _ & L). eauto. Qed.
Print Assumptions c12_no_crash.

(* every call in a reachable state is a transition of the multiset specification `spec_step` over the pending sleeps *)
Theorem c12_refines_multiset : forall s x, reachable s ->
  exists s' o, step s x = Ok (s', o) /\ reachable s' /\
               (alive s = true -> spec_step (pending (sched s)) x o (pending (sched s'))) /\
               (alive s = false -> s' = s /\ o = rejected).
Proof. exact refines_multiset. Qed.
Print Assumptions c12_refines_multiset.

Theorem c12_never_early : forall ops os sf, run_from st0 ops = (os, Some sf) ->
  forall x ob t now, In (x, ob) (combine ops os) -> In (t, ByExpiry now) (o_evs (ob_out ob)) ->
  x = OExpired now /\ e_tp t <= now.
Proof.
  intros ops os sf E x ob t now IN IE.
  destruct (run_In _ _ _ _ (run_from_runs ops st0 os sf inv_st0 E) x ob IN) as (s1 & s2 & I1 & ES).
  destruct (expiry_step s1 x s2 (ob_out ob) I1 ES t now IE) as (A & B & _). auto.
Qed.
Print Assumptions c12_never_early.

(* nobody is overtaken: when `a` expires, every sleep scheduled before and not yet completed has a time point >= a's *)
Theorem c12_deadline_order : forall pre os1 s1 x s2 o a now b,
  run_from st0 pre = (os1, Some s1) -> step s1 x = Ok (s2, o) -> In (a, ByExpiry now) (o_evs o) ->
  In b (sched_run pre os1) -> ~ In b (completed_run os1) -> e_tp a <= e_tp b.
Proof.
  intros pre os1 s1 x s2 o a now b E ES IE IB NB.
  apply (deadline_order st0 pre os1 s1 x s2 o a now b (run_from_runs _ _ _ _ inv_st0 E) ES IE); [|exact NB].
  apply in_or_app. left. exact IB.
Qed.
Print Assumptions c12_deadline_order.

(* between two schedule calls the sleeps completed by expiry come out sorted by time point *)
Theorem c12_deadline_sorted : forall s ops os s', reachable s -> forallb (fun x => negb (is_sched x)) ops = true ->
  run_from s ops = (os, Some s') -> StronglySorted Z.le (expiry_tps os).
Proof. intros s ops os s' R NS E. apply (nosched_run _ _ _ _ (run_from_runs ops s os s' (reachable_inv s R) E) NS). Qed.
Print Assumptions c12_deadline_sorted.

Theorem c12_each_once : forall ops os sf, run_from st0 ops = (os, Some sf) ->
  NoDup (ppids (sched_run ops os)) /\
  Permutation (sched_run ops os) (completed_run os ++ pending (sched sf)) /\
  (forall t h p, In (t, h) (events_run os) -> e_p t = Some p -> get (futs sf) p = Some (stat_of h)) /\
  (forall e p, In e (pending (sched sf)) -> e_p e = Some p -> get (futs sf) p = Some FPending) /\
  (alive sf = false -> Permutation (sched_run ops os) (completed_run os)).
Proof. exact each_once. Qed.
Print Assumptions c12_each_once.

Theorem c12_each_exactly_once : forall ops os sf, run_from st0 ops = (os, Some sf) -> alive sf = false ->
  forall p, In p (ppids (sched_run ops os)) -> count_occ Nat.eq_dec (ppids (completed_run os)) p = 1%nat.
Proof.
  intros ops os sf E D p IP. destruct (each_once ops os sf E) as (ND & _ & _ & _ & P).
  rewrite <- (proj1 (Permutation_count_occ Nat.eq_dec _ _) (ppids_perm _ _ (P D)) p).
  apply NoDup_count_occ'; assumption.
Qed.
Print Assumptions c12_each_exactly_once.

(* cancel(id, e): true => exactly one pending sleep carrying id completed with e, every other future and the rest of
   the pending multiset untouched; false <=> nothing pending carries id, and then nothing changes *)
Theorem c12_cancel_exact : forall s id c, reachable s -> alive s = true ->
  exists s' o, step s (OCancelE id c) = Ok (s', o) /\ cancel_exact_spec s id (ByCancel c) s' o /\
               (o_r1 o = 0 <-> forall u, In u (pending (sched s)) -> e_id u <> id).
Proof. intros s id c R A. unfold step. rewrite A. apply remove_exact_gen, reachable_inv, R. Qed.
Print Assumptions c12_cancel_exact.

Theorem c12_cancel_default_exact : forall s id, reachable s -> alive s = true ->
  exists s' o, step s (OCancel id) = Ok (s', o) /\ cancel_exact_spec s id (ByCancel 0) s' o /\
               (o_r1 o = 0 <-> forall u, In u (pending (sched s)) -> e_id u <> id).
Proof. intros s id R A. unfold step. rewrite A. apply remove_exact_gen, reachable_inv, R. Qed.
Print Assumptions c12_cancel_default_exact.

Theorem c12_remove_exact : forall s id, reachable s -> alive s = true ->
  exists s' o, step s (ORemove id) = Ok (s', o) /\ cancel_exact_spec s id ByRemove s' o /\
               (o_r1 o = 0 <-> forall u, In u (pending (sched s)) -> e_id u <> id).
Proof. intros s id R A. unfold step. rewrite A. apply remove_exact_gen, reachable_inv, R. Qed.
Print Assumptions c12_remove_exact.

Theorem c12_destroy_cancels : forall s, reachable s -> alive s = true ->
  exists s' o, step s ODestroy = Ok (s', o) /\
    sched s' = [] /\ alive s' = false /\
    o_evs o = map (fun e => (e, ByDestroy)) (pending (sched s)) /\
    (forall p, get (futs s) p = Some FPending -> get (futs s') p = Some FDropped) /\
    (forall p v, get (futs s) p = Some v -> v <> FPending -> get (futs s') p = Some v) /\
    (forall p, get (futs s') p <> Some FPending) /\
    (forall x, step s' x = Ok (s', rejected)).
Proof. intros s R. apply destroy_cancels, reachable_inv, R. Qed.
Print Assumptions c12_destroy_cancels.

(* worker (worker_coro), every interleaving of foreign schedule / cancel / tick / spurious wake-up / stop events with the
   worker's own steps, with either wait primitive `aw`: never out of bounds; once the clock has reached the time point of
   ANY array entry an unfinished worker is runnable (after entering the wait it had decided on); never early *)
Theorem c12_idle_wakes_on_time : forall aw evs, let w := wrun aw wst0 evs in
  w_err w = false /\
  (forall e, In e (w_sched w) -> e_tp e <= w_now w -> w_mode w <> WFin -> runnable (wstep aw w WBlock) = true) /\
  (forall t now, In (t, now) (w_done w) -> e_tp t <= now).
Proof.
  intros aw evs. pose proof (wrun_inv aw evs wst0 (winv0 aw)) as I.
  split; [apply I|]. split; [apply idle_wakes_on_time, I|apply I].
Qed.
Print Assumptions c12_idle_wakes_on_time.

Theorem c12_worker_resolves_due : forall aw evs, let w := wrun aw wst0 evs in
  w_stop w = false -> runnable w = true ->
  (exists e, In e (pending (w_sched w)) /\ e_tp e <= w_now w) ->
  exists t, w_done (wstep aw w WIter) = (t, w_now w) :: w_done w /\ In t (pending (w_sched w)) /\
            (forall u, In u (pending (w_sched w)) -> e_tp t <= e_tp u) /\
            Permutation (pending (w_sched w)) (t :: pending (w_sched (wstep aw w WIter))).
Proof. intros aw evs. apply worker_resolves_due, wrun_inv, winv0. Qed.
Print Assumptions c12_worker_resolves_due.

(* thread mode / start(awaitable) mode, each once: accepted = completed by the worker + taken by remove/cancel + pending *)
Theorem c12_worker_each_once : forall aw evs, let w := wrun aw wst0 evs in
  Permutation (w_in w) (map fst (w_done w) ++ w_rm w ++ pending (w_sched w)).
Proof. intros aw evs. apply (wi_cons aw _ (wrun_inv aw evs wst0 (winv0 aw))). Qed.
Print Assumptions c12_worker_each_once.

(* current code (stop-token-aware wait): a stop request landing in ANY window ends the worker, so ~scheduler returns *)
Theorem c12_stop_ends_worker : forall evs, let w := wrun true wst0 evs in
  w_stop w = true -> w_mode (wrun true w [WBlock; WIter]) = WFin.
Proof. intros evs. apply stop_ends_worker, wrun_inv, winv0. Qed.
Print Assumptions c12_stop_ends_worker.

(* F-C12d: with the old plain wait_until the stop request can be lost for ever *)
Theorem c12_lost_stop_before_repair : let w := wrun false wst0 [WIter; WStop; WBlock] in
  w_stop w = true /\ forall evs, Forall quiet evs -> w_mode (wrun false w evs) = WWait None false.
Proof. exact lost_stop_old. Qed.
Print Assumptions c12_lost_stop_before_repair.

(* interval() + stop token: request_stop never self-deadlocks, nothing crashes *)
Theorem c12_interval_no_deadlock : forall ops,
  length (interval_run ops) = length ops /\
  Forall (fun ob => exists t, ob = 0 :: t \/ ob = 1 :: t) (interval_run ops).
Proof. intros ops. apply (irun_no_deadlock tag), ginv0. Qed.
Print Assumptions c12_interval_no_deadlock.

(* cancellation through a stop token, up to three interval generators with independent stop tokens on one scheduler:
   pairwise distinct idents => after ANY operation sequence a stop request returns, cancels exactly the signalled
   generator's own pending sleep (iff it sleeps) and ends that generator; every other generator keeps its state and its
   pending sleep *)
Theorem c12_interval_stop_hits_own : forall tg ops g, (forall a b, tg a = tg b -> a = b) ->
  let s := istate tg ist0 ops in
  stop_of s g = false ->
  exists s1 ob, istep' false tg s (IStop g) = IOk s1 ob /\
    (gen_of s g = GSleeping ->
       exists t, In t (pending (i_sched s)) /\ e_p t = Some g /\ e_id t = tg g /\
                 Permutation (pending (i_sched s)) (t :: pending (i_sched s1)) /\ gen_of s1 g = GDone) /\
    (gen_of s g <> GSleeping -> Permutation (pending (i_sched s)) (pending (i_sched s1)) /\ gen_of s1 g = gen_of s g) /\
    (forall g', g' <> g -> gen_of s1 g' = gen_of s g' /\ stop_of s1 g' = stop_of s g').
Proof. intros tg ops g INJ. apply (stop_hits_own tg _ g INJ), istate_ginv, ginv0. Qed.
Print Assumptions c12_interval_stop_hits_own.

(* ... instantiated with the idents of the code (`&tag`, a variable of each generator's own coroutine frame) *)
Theorem c12_interval_stop_cancels : forall ops g, let s := istate tag ist0 ops in
  stop_of s g = false ->
  exists s1 ob, istep' false tag s (IStop g) = IOk s1 ob /\
    (gen_of s g = GSleeping ->
       exists t, In t (pending (i_sched s)) /\ e_p t = Some g /\ e_id t = tag g /\
                 Permutation (pending (i_sched s)) (t :: pending (i_sched s1)) /\ gen_of s1 g = GDone) /\
    (gen_of s g <> GSleeping -> Permutation (pending (i_sched s)) (pending (i_sched s1)) /\ gen_of s1 g = gen_of s g) /\
    (forall g', g' <> g -> gen_of s1 g' = gen_of s g' /\ stop_of s1 g' = stop_of s g').
Proof. intros ops g. apply (stop_hits_own tag _ g tag_inj), istate_ginv, ginv0. Qed.
Print Assumptions c12_interval_stop_cancels.

(* callback-style sleepers ("you can schedule anything": make_promise(handler) passed to schedule) whose completion handler
   re-enters the scheduler — cancels another sleep and/or arms a new one — from inside cancel / remove+resolve /
   get_expired+resolve, nested to any depth: every call returns (no out-of-bounds access, no unbounded re-entry), the
   array stays a heap and holds each pending promise exactly once *)
Theorem c12_tx_no_crash : forall ops,
  length (tx_run ops) = length ops /\ Forall (fun ob => exists t, ob = 0 :: t \/ ob = 1 :: t) (tx_run ops).
Proof. intros ops. apply tx_no_crash, xinv0. Qed.
Print Assumptions c12_tx_no_crash.

(* the property oracle run on implementation traces accepts every trace of the model: it is not stricter than what is proved *)
Theorem c12_oracle_sound : forall ops, timer_oracle ops (timer_run ops) = true.
Proof. exact oracle_sound. Qed.
Print Assumptions c12_oracle_sound.

(* non-vacuity: a reachable state with duplicate idents, an emptied slot inside the array, equal and past time points;
   two cancels of a triplicate id hit two different sleeps (array order), the third is cancelled by the destructor; expiry order; destructor cancels the rest *)
Example c12_nonvacuous :
  let ops := [OSchedule 0 5 10; OSchedule 1 7 30; OSleep 2 7 20; OSchedule 3 7 30; OSchedule 4 1 (-3);
              OCancelE 7 4; OCancel 7; OExpired 10; OExpired 10; OExpired 10; OCancel 5; ODestroy] in
  let r := run_from st0 ops in
  (exists sf, snd r = Some sf /\ alive sf = false /\ sched sf = [] /\
     map (get (futs sf)) [0%nat; 1%nat; 2%nat; 3%nat; 4%nat] =
       [Some FValue; Some FDropped; Some (FExc 4); Some (FExc 0); Some FValue]) /\
  expiry_tps (fst r) = [-3; 10] /\
  map (fun ev => e_p (fst ev)) (events_run (fst r)) = [Some 2%nat; Some 3%nat; Some 4%nat; Some 0%nat; Some 1%nat] /\
  ppids (sched_run ops (fst r)) = [0%nat; 1%nat; 2%nat; 3%nat; 4%nat].
Proof. vm_compute. split; [eexists; repeat split|repeat split]. Qed.
