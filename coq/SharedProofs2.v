(* SharedProofs2.v — read off the invariant: progress (nobody is left waiting for the creator), terminal states; and
   the executable runner only visits reachable states *)
From Cocls Require Import Base BaseProofs SharedDefs SharedProofs.
Local Open Scope nat_scope.

Definition nw (s : st) : bool := existsb is_wait0 (users s).
Definition rdone (s : st) : bool := match rpcf s with RDone _ => true | _ => false end.

Record Prog (s : st) : Prop := {
  (* the promise reaches the resolver: at the latest when the creator leaves charge() *)
  e1 : match cpcf s with
       | CClaim | CGate1 | CGate2 => True
       | CDtor | CSet | CSub _ _ | CClr | CGiveE => is_late (mode s) = true \/ pavail s = true
       | _ => pavail s = true \/ rdone s = true
       end;
  (* every user got its handle before the creator drops its own *)
  e2 : match cpcf s with CDrop _ | CDone => nw s = false | _ => True end
}.

Lemma existsb_false_nth {A} (f : A -> bool) l : forall n x, existsb f l = false -> nth_error l n = Some x -> f x = false.
Proof.
  induction l as [|y l IH]; intros [|n] x E H; cbn [nth_error existsb] in *; try discriminate;
    apply orb_false_iff in E; destruct E as (E1 & E2).
  - inversion H; subst. exact E1.
  - eapply IH; eassumption.
Qed.

Lemma drop_ref_frame s :
  cpcf (drop_ref s) = cpcf s /\ rpcf (drop_ref s) = rpcf s /\ mode (drop_ref s) = mode s /\ rk (drop_ref s) = rk s /\
  pavail (drop_ref s) = pavail s /\ users (drop_ref s) = users s /\ slot (drop_ref s) = slot s /\
  payload (drop_ref s) = payload s /\ walk (drop_ref s) = walk s /\ acc (drop_ref s) = acc s.
Proof. unfold drop_ref, touch. destruct (freed s); cbn; destruct (rc s) as [|[|?]]; repeat split. Qed.
Lemma touch_frame s :
  cpcf (touch s) = cpcf s /\ rpcf (touch s) = rpcf s /\ mode (touch s) = mode s /\ rk (touch s) = rk s /\
  pavail (touch s) = pavail s /\ users (touch s) = users s /\ slot (touch s) = slot s /\
  payload (touch s) = payload s /\ walk (touch s) = walk s /\ acc (touch s) = acc s.
Proof. unfold touch. destruct (freed s); repeat split. Qed.
Lemma add_ref_frame s :
  cpcf (add_ref s) = cpcf s /\ rpcf (add_ref s) = rpcf s /\ mode (add_ref s) = mode s /\ rk (add_ref s) = rk s /\
  pavail (add_ref s) = pavail s /\ users (add_ref s) = users s /\ slot (add_ref s) = slot s /\
  payload (add_ref s) = payload s /\ walk (add_ref s) = walk s /\ acc (add_ref s) = acc s.
Proof. unfold add_ref, touch. destruct (freed s); repeat split. Qed.

(* Prog is the clause `progressing` of the invariant as a record over the state; nw and rdone are its last two arguments *)
Lemma prog_of_inv {m0 r0 ks} s : @Clauses m0 r0 ks s -> Prog s.
Proof. intros I. pose proof (pg_ok s I) as P. constructor; unfold nw, rdone; destruct (cpcf s); cbn in P; tauto. Qed.

Theorem decl_const ops s : reachable ops s ->
  mode s = mode_of ops /\ rk s = res_of ops /\ map ukd (users s) = map ukd (flat_map decode_user ops).
Proof. intros R. exact (dc_ok s (proj1 (inv_reachable ops s R))). Qed.

Definition terminal (s : st) : Prop := forall i, enabled s i = false.

Theorem terminal_all_done {m0 r0 ks} s : @Inv m0 r0 ks s -> terminal s ->
  cpcf s = CDone /\ rdone s = true /\ (forall j u, nth_error (users s) j = Some u -> upcf u = UDone) /\
  freed s = 1 /\ pdtor s = pctor s /\ rc s = 0 /\ selfref s = false /\ walk s = [] /\ acc s = [] /\ slot s = SReady.
Proof.
  intros [IA OC] TM. destruct (prog_of_inv s IA) as [E1 E2]. pose proof (TM 0) as T0. pose proof (TM 1) as T1. cbn [enabled] in T0, T1.
  assert (TU : forall j u, nth_error (users s) j = Some u ->
                 match upcf u with UWait0 | UParked | UDone => false | UFlag => uflag u | _ => true end = false).
  { intros j u H. specialize (TM (S (S j))). cbn [enabled] in TM. rewrite H in TM. exact TM. }
  clear TM. destruct s as [m k c r sl p n sr fr pc pd ua pa wk ac us]. open_inv IA. unfold nw, rdone in *. simp_st.
  destruct c; try discriminate. destruct r; try discriminate; [destruct E1; congruence|].
  destruct Irs as (RY & -> & ->). destruct sl; [discriminate|].
  assert (UD : forall j u, nth_error us j = Some u -> upcf u = UDone).
  { intros j u H. specialize (TU j u H). specialize (OC j). unfold inl in OC. rewrite H in OC. unfold inlist in OC.
    pose proof (existsb_false_nth is_wait0 _ _ _ E2 H) as W0. unfold is_wait0 in W0.
    destruct (upcf u); try discriminate; try reflexivity. rewrite TU in OC. discriminate. }
  destruct Itr as (TC & _). destruct sr; [discriminate|]. rewrite (sumu_zero us) in Icnt by (intros u H; apply In_nth_error in H as (j & H); rewrite (UD j u H); reflexivity).
  destruct (counted_gone Icnt) as (-> & -> & ->). repeat split. exact UD.
Qed.

Lemma enabled_list_In s n : forall from i,
  In i (enabled_list s n from) <-> from <= i < from + n /\ enabled s i = true.
Proof.
  induction n as [|n IH]; intros from i; cbn [enabled_list]; [split; [contradiction|lia]|].
  rewrite in_app_iff, IH. split.
  - intros [H|H]; [|split; [lia|apply H]].
    destruct (enabled s from) eqn:E; [|contradiction]. destruct H as [<-|[]]. split; [lia|exact E].
  - intros (L & E). destruct (Nat.eq_dec i from) as [->|N]; [left; rewrite E; left; reflexivity|right; split; [lia|exact E]].
Qed.

Lemma all_enabled_In s i : In i (all_enabled s) <-> enabled s i = true.
Proof.
  unfold all_enabled. rewrite enabled_list_In. split; [intros (_ & E); exact E|]. intros E. split; [|exact E].
  destruct i as [|[|j]]; cbn [length plus]; try lia. cbn [enabled] in E.
  destruct (nth_error (users s) j) eqn:Q; [|discriminate].
  assert (j < length (users s)) by (apply nth_error_Some; congruence). lia.
Qed.

Lemma all_enabled_nil_terminal s : all_enabled s = [] -> terminal s.
Proof.
  intros H i. destruct (enabled s i) eqn:E; [|reflexivity]. apply all_enabled_In in E. rewrite H in E. destruct E.
Qed.

Lemma run_sched_reachable ops fuel : forall s sched tr,
  reachable ops s -> reachable ops (fst (run_sched fuel s sched tr)).
Proof.
  induction fuel as [|f IH]; intros s sched tr R; cbn [run_sched]; [exact R|].
  destruct (all_enabled s) as [|e0 en] eqn:EN; [exact R|].
  set (k := match sched with [] => 0%Z | x :: _ => Z.abs x end).
  set (i := nth (Z.to_nat (k mod zlen (e0 :: en))) (e0 :: en) 0).
  assert (In i (e0 :: en)) as HI by (apply nth_mod_In; discriminate).
  rewrite <- EN in HI. apply all_enabled_In in HI.
  destruct (tstep s i) as [s1 p] eqn:TS. apply IH.
  replace s1 with (fst (tstep s i)) by (rewrite TS; reflexivity). apply r_step; assumption.
Qed.

Theorem final_state_reachable ops : reachable ops (fst (final_state ops)).
Proof. unfold final_state. apply run_sched_reachable. apply r_init. Qed.

Theorem awaiters_linked_once ops s w : reachable ops s -> occ s w = inl (users s) w.
Proof. intros R. exact (proj2 (inv_reachable ops s R) w). Qed.
