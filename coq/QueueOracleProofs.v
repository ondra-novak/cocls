(* QueueOracleProofs.v — the oracle of the controlled-thread engines (QueueDefs.tq_oracle) accepts every trace the
   interleaving model itself produces: for queue<T> and limited_queue<T> (lim), every case file with fewer than 777 threads (777
   marks the deadlock line of an observation) and every schedule, tq_oracle lim ops (tq_run lim ops) = true.
   The core is a simulation: replaying the critical sections of the model's own trace on the ATOMIC thread-level FIFO
   (astep) yields a specification state that agrees with the model state up to the promises that are in flight
   (taken in a critical section, resolved after the unlock). *)
From Cocls Require Import Base BaseProofs QueueDefs QueueProofs QueueConcProofs QueueOrderProofs.
Require Import ZifyBool.
Local Open Scope Z_scope.

(* a blocked push as the sequential specification sees it: (value, producer) *)
Definition vblk (b : titem * nat) : Z * nat := (it_v (fst b), snd b).
Definition enc_r (l : list (nat * outcome)) : list (nat * Z) := map (fun x => (fst x, enc_outcome (snd x))) l.
Definition enc_i (l : list (nat * (nat * outcome))) : list (nat * Z) :=
  map (fun x => (fst (snd x), enc_outcome (snd (snd x)))) l.

Definition entered (t : thr) : nat :=
  match t with
  | TProd _ k _ _ _ => k
  | TCons _ issued _ => issued
  | TUnb _ _ pc rets => length rets + (match pc with URes => 1 | UIdle => 0 end)
  | TUnbPush _ _ pc rets => length rets + (match pc with URes => 1 | UIdle => 0 end)
  | TSize _ _ rets => length rets
  | TDestroy d => if d then 1 else 0
  end.

Definition same_kind (t0 t : thr) : Prop :=
  match t0, t with
  | TProd v _ _ _ _, TProd v' _ _ _ _ => v = v'
  | TCons _ _ _, TCons _ _ _ => True
  | TUnb _ e _ _, TUnb _ e' _ _ => e = e'
  | TUnbPush _ e _ _, TUnbPush _ e' _ _ => e = e'
  | TSize _ _ _, TSize _ _ _ => True
  | TDestroy _, TDestroy _ => True
  | _, _ => False
  end.
Definition kinds (thrs0 l : list thr) : Prop :=
  length thrs0 = length l /\ forall i t0 t, nth_error thrs0 i = Some t0 -> nth_error l i = Some t -> same_kind t0 t.

(* the specification logs a result in the critical section, the thread reports it when the operation is over: the log
   of thread i is what i has reported plus (the lag) the result of the operation it is inside *)
Definition has {B} (o : option B) : Z := match o with Some _ => 1 | None => 0 end.
Definition lag_p (s : tstate) (i : nat) (pc : ppc) : list Z :=
  match pc with
  | PRes true => [2]
  | PRes false => [has (afind i (t_infl s))]
  | PWait true => [2]
  | _ => []
  end.
Definition lag_u (pc : upc) (x : Z) : list Z := match pc with URes => [x] | UIdle => [] end.
Definition report (lim : bool) (r : Z) : Z := if lim then (if r <=? 2 then 0 else r) else r.
Definition Rcls (lim : bool) (r c : Z) : Prop := class_ok lim (report lim r, c) = true.

Definition local_ok (lim : bool) (s : tstate) (a : astate) (i : nat) (t : thr) : Prop :=
  match t with
  | TProd vals k pc nb rets =>
      (exists pre, sel i (a_pcls a) = pre ++ lag_p s i pc /\ Forall2 (Rcls lim) rets pre) /\
      length (sel i (a_pcls a)) = k /\
      (t_limit s = None -> pc <> PRes true /\ pc <> PWait true)
  | TCons _ _ _ => True
  | TUnb _ _ pc rets => sel i (a_ures a) = rets ++ lag_u pc (has (afind i (t_infl s)))
  | TUnbPush _ _ pc rets => sel i (a_ures a) = rets ++ lag_u pc (has (afind i (t_cinfl s)))
  | TSize _ _ rets => sel i (a_ures a) = rets
  | TDestroy _ => True
  end.

Record obook (thrs0 l : list thr) (cnt : list nat) : Prop := mkObook {
  ob_kinds : kinds thrs0 l;
  ob_len : length cnt = length l;
  ob_cnt : forall i t, nth_error l i = Some t -> nth i cnt 0%nat = entered t
}.

Record osim (lim : bool) (thrs0 : list thr) (s : tstate) (a : astate) : Prop := mkOsim {
  os_lim : lim = false -> t_limit s = None;
  os_limit : a_limit a = t_limit s;
  os_dead : a_dead a = t_dead s;
  os_fifo : a_fifo a = map adm (map it_v (t_items s)) ++ map blk (map vblk (t_blocked s));
  os_pend : a_pend a = t_waiters s;
  os_book : obook thrs0 (t_thr s) (a_cnt a);
  os_cres : forall c, sel c (a_cres a) = sel c (enc_r (t_rlog s)) ++ sel c (enc_i (t_infl s));
  os_local : forall i t, nth_error (t_thr s) i = Some t -> local_ok lim s a i t
}.

Lemma afind_snoc_other {B} i j (l : list (nat * B)) x : i <> j -> afind i (l ++ [(j, x)]) = afind i l.
Proof.
  intros NE. induction l as [|[k b] t IH]; cbn [app afind].
  - destruct (Nat.eqb i j) eqn:E; [apply Nat.eqb_eq in E; congruence|reflexivity].
  - destruct (Nat.eqb i k); [reflexivity|exact IH].
Qed.
Lemma afind_snoc_same {B} i (l : list (nat * B)) x : afind i l = None -> afind i (l ++ [(i, x)]) = Some x.
Proof.
  induction l as [|[k b] t IH]; cbn [app afind]; [rewrite Nat.eqb_refl; reflexivity|].
  destruct (Nat.eqb i k); [discriminate|exact IH].
Qed.
Lemma afind_remove_other {B} i j (l : list (nat * B)) : i <> j -> afind i (aremove j l) = afind i l.
Proof.
  intros NE. induction l as [|[k b] t IH]; cbn [aremove afind]; [reflexivity|].
  destruct (Nat.eqb j k) eqn:E.
  - apply Nat.eqb_eq in E. subst k. assert (Nat.eqb i j = false) as -> by (apply Nat.eqb_neq; exact NE). reflexivity.
  - cbn [afind]. destruct (Nat.eqb i k); [reflexivity|exact IH].
Qed.
Lemma sel_app i a b : sel i (a ++ b) = sel i a ++ sel i b.
Proof. unfold sel. rewrite filter_app, map_app. reflexivity. Qed.
Lemma sel_one_same i x : sel i [(i, x)] = [x].
Proof. unfold sel. cbn [filter fst]. rewrite Nat.eqb_refl. reflexivity. Qed.
Lemma sel_one_other i j x : i <> j -> sel i [(j, x)] = [].
Proof. intros NE. unfold sel. cbn [filter fst]. assert (Nat.eqb i j = false) as -> by (apply Nat.eqb_neq; exact NE). reflexivity. Qed.
Lemma sel_nil i : sel i [] = [].
Proof. reflexivity. Qed.

Ltac af := cbn [a_fifo a_pend a_limit a_dead a_cres a_pcls a_ures a_cnt] in *.

(* a step of thread i leaves everything keyed by another thread j alone *)
Lemma tstep_frame s i j : j <> i ->
  afind j (t_infl (fst (tstep s i))) = afind j (t_infl s) /\
  afind j (t_cinfl (fst (tstep s i))) = afind j (t_cinfl s) /\
  t_limit (fst (tstep s i)) = t_limit s /\
  nth_error (t_thr (fst (tstep s i))) j = nth_error (t_thr s) j.
Proof.
  intros NE. unfold tstep.
  destruct (nth_error (t_thr s) i) as [[vals k [|rb|b] nb rets | n issued [| |] | n e [|] rets | n e [|] rets | n [|] rets | d]|] eqn:T;
    [..|repeat split];
    repeat match goal with
           | |- context [match t_waiters s with _ => _ end] => destruct (t_waiters s)
           | |- context [match t_items s with _ => _ end] => destruct (t_items s)
           | |- context [match t_blocked s with _ => _ end] => destruct (t_blocked s) as [|[? ?] ?]
           | |- context [if full s then _ else _] => destruct (full s)
           | |- context [if rb then _ else _] => destruct rb
           end;
    unfold resolve_pop, resolve_push, with_thr, set_thr;
    repeat match goal with
           | |- context [match afind i (t_infl s) with _ => _ end] => destruct (afind i (t_infl s)) as [[? ?]|]
           | |- context [match afind i (t_cinfl s) with _ => _ end] => destruct (afind i (t_cinfl s)) as [[? ?]|]
           end;
    tf; repeat split;
    rewrite ?afind_snoc_other, ?afind_remove_other, ?nth_error_set_nth_other by congruence; reflexivity.
Qed.

Lemma astep_frame thrs0 a i j : j <> i ->
  sel j (a_pcls (astep thrs0 a i)) = sel j (a_pcls a) /\ sel j (a_ures (astep thrs0 a i)) = sel j (a_ures a).
Proof.
  intros NE. unfold astep. destruct (a_dead a); [split; reflexivity|].
  destruct (nth_error thrs0 i) as [[vals k pc nb rets | n issued pc | n e pc rets | n e pc rets | n pc rets | d]|]; [..|split; reflexivity];
    repeat match goal with
           | |- context [match a_pend a with _ => _ end] => destruct (a_pend a)
           | |- context [match a_fifo a with _ => _ end] => destruct (a_fifo a) as [|[? ?] ?]
           | |- context [if a_full a then _ else _] => destruct (a_full a)
           | |- context [match drop_first ?x with _ => _ end] => destruct (drop_first x) as [? [?|]]
           end;
    af; rewrite ?sel_app, ?sel_one_other, ?app_nil_r by congruence; split; reflexivity.
Qed.

Lemma local_frame lim s a s' a' j t : local_ok lim s a j t ->
  afind j (t_infl s') = afind j (t_infl s) -> afind j (t_cinfl s') = afind j (t_cinfl s) -> t_limit s' = t_limit s ->
  sel j (a_pcls a') = sel j (a_pcls a) -> sel j (a_ures a') = sel j (a_ures a) -> local_ok lim s' a' j t.
Proof.
  intros H E1 E2 E3 E4 E5. destruct t as [vals k pc nb rets | n issued pc | n e pc rets | n e pc rets | n pc rets | d];
    unfold local_ok, lag_p in *; rewrite ?E1, ?E2, ?E3, ?E4, ?E5; exact H.
Qed.

Lemma bump_length l i : length (bump l i) = length l.
Proof. revert i; induction l as [|x l IH]; intros [|i]; cbn [bump length]; auto. Qed.
Lemma bump_same l i : (i < length l)%nat -> nth i (bump l i) 0%nat = S (nth i l 0%nat).
Proof. revert i; induction l as [|x l IH]; intros [|i] H; cbn [length] in H; try lia; cbn [bump nth]; [reflexivity|]. apply IH. lia. Qed.
Lemma bump_other l i j : i <> j -> nth j (bump l i) 0%nat = nth j l 0%nat.
Proof.
  revert i j; induction l as [|x l IH]; intros [|i] [|j] H; cbn [bump nth]; try reflexivity; try congruence.
  apply IH. congruence.
Qed.

Lemma kinds_set thrs0 l i t t' : kinds thrs0 l -> nth_error l i = Some t -> same_kind t t' -> kinds thrs0 (set_nth l i t').
Proof.
  intros [L K] T SD. split; [rewrite set_nth_length; exact L|].
  intros j t0 tj H0 Hj. destruct (Nat.eq_dec i j) as [<-|NE].
  - rewrite (nth_error_set_same _ _ _ _ T) in Hj. injection Hj as <-. specialize (K i t0 t H0 T).
    destruct t0, t, t'; cbn [same_kind] in *; try contradiction; congruence.
  - rewrite nth_error_set_nth_other in Hj by exact NE. exact (K j t0 tj H0 Hj).
Qed.

(* only the critical sections (70) and the destruction (73) are steps of the specification *)
Definition cs_code (code : Z) : bool := (code =? 70) || (code =? 73).
Definition anext (thrs0 : list thr) (a : astate) (i : nat) (code : Z) : astate :=
  if cs_code code then astep thrs0 a i else a.
Lemma is_cs_line i code : is_cs [Z.of_nat i; code] = if cs_code code then Some i else None.
Proof.
  unfold is_cs, cs_code. assert (0 <=? Z.of_nat i = true) as -> by lia. rewrite andb_true_r.
  destruct ((code =? 70) || (code =? 73)); [rewrite Nat2Z.id|]; reflexivity.
Qed.

Lemma enc_r_app a b : enc_r (a ++ b) = enc_r a ++ enc_r b.
Proof. apply map_app. Qed.
Lemma enc_i_app a b : enc_i (a ++ b) = enc_i a ++ enc_i b.
Proof. apply map_app. Qed.

Lemma tstep_self s i : t_enabled s i = true ->
  exists t t', nth_error (t_thr s) i = Some t /\ t_thr (fst (tstep s i)) = set_nth (t_thr s) i t' /\ same_kind t t' /\
    entered t' = (entered t + if cs_code (snd (tstep s i)) then 1 else 0)%nat /\
    (cs_code (snd (tstep s i)) = true -> t_dead s = false) /\ (70 <= snd (tstep s i) <= 73).
Proof.
  unfold t_enabled, t_enabled0, tstep. destruct (nth_error (t_thr s) i) as [t|]; [|discriminate]. intros EN.
  exists t. destruct t as [vals k [|rb|b] nb rets | n issued [| |] | n e [|] rets | n e [|] rets | n [|] rets | d];
    try (apply andb_true_iff in EN as [EN _]; try (apply andb_true_iff in EN as [DD EN]; apply negb_true_iff in DD; subst d);
         apply negb_true_iff in EN);
    repeat match goal with
           | |- context [match t_waiters s with _ => _ end] => destruct (t_waiters s)
           | |- context [match t_items s with _ => _ end] => destruct (t_items s)
           | |- context [match t_blocked s with _ => _ end] => destruct (t_blocked s) as [|[? ?] ?]
           | |- context [if full s then _ else _] => destruct (full s)
           end;
    eexists; (split; [reflexivity|]); cbn [fst snd with_thr t_thr]; rewrite ?resolve_pop_thr, ?resolve_push_thr;
    (split; [reflexivity|]); try destruct rb; cbn; rewrite ?app_length; cbn; repeat split; auto; try discriminate; lia.
Qed.

Lemma astep_cnt thrs a i : a_dead a = false -> (i < length thrs)%nat -> a_cnt (astep thrs a i) = bump (a_cnt a) i.
Proof.
  intros D LT. unfold astep. rewrite D. destruct (nth_error thrs i) as [t|] eqn:E; [|apply nth_error_None in E; lia].
  destruct t; [destruct (a_pend a); [destruct (a_full a)|] | destruct (a_fifo a) as [|[? ?] ?] | destruct (a_pend a)
              | destruct (drop_first (a_fifo a)) as [? [?|]] | | ]; reflexivity.
Qed.

Lemma obook_set thrs0 l cnt i t t' (d : bool) : obook thrs0 l cnt -> nth_error l i = Some t -> same_kind t t' ->
  entered t' = (entered t + if d then 1 else 0)%nat -> obook thrs0 (set_nth l i t') (if d then bump cnt i else cnt).
Proof.
  intros [K L C] T SK E. assert (i < length cnt)%nat as LT by (rewrite L; apply nth_error_Some; congruence). split.
  - exact (kinds_set _ _ _ _ _ K T SK).
  - rewrite set_nth_length. destruct d; rewrite ?bump_length; exact L.
  - intros j tj Hj. destruct (Nat.eq_dec i j) as [<-|NE].
    + rewrite (nth_error_set_same _ _ _ _ T) in Hj. injection Hj as <-. rewrite E, <- (C i t T).
      destruct d; [rewrite bump_same by exact LT|]; lia.
    + rewrite nth_error_set_nth_other in Hj by exact NE. rewrite <- (C j tj Hj). destruct d; [apply bump_other; exact NE|reflexivity].
Qed.

Lemma obook_step thrs0 s a i : obook thrs0 (t_thr s) (a_cnt a) -> a_dead a = t_dead s -> t_enabled s i = true ->
  obook thrs0 (t_thr (fst (tstep s i))) (a_cnt (anext thrs0 a i (snd (tstep s i)))).
Proof.
  intros B D EN. destruct (tstep_self s i EN) as (t & t' & T & -> & SK & E & DD & _).
  assert (a_cnt (anext thrs0 a i (snd (tstep s i))) = if cs_code (snd (tstep s i)) then bump (a_cnt a) i else a_cnt a) as ->.
  { unfold anext. destruct (cs_code (snd (tstep s i))); [|reflexivity]. apply astep_cnt; [rewrite D; apply DD; reflexivity|].
    rewrite (proj1 (ob_kinds _ _ _ B)). apply nth_error_Some. congruence. }
  exact (obook_set _ _ _ _ _ _ _ B T SK E).
Qed.

Lemma afind_none_notin {B} i (l : list (nat * B)) : afind i l = None <-> ~ In i (map fst l).
Proof.
  induction l as [|[k b] t IH]; cbn [afind map fst In]; [tauto|].
  destruct (Nat.eqb i k) eqn:E.
  - apply Nat.eqb_eq in E. subst k. split; [discriminate|]. intros H. exfalso. apply H. left. reflexivity.
  - apply Nat.eqb_neq in E. rewrite IH. split; [intros H [X|X]; [congruence|exact (H X)]|intros H X; apply H; right; exact X].
Qed.
Lemma keys_snoc {B} i (l : list (nat * B)) x : NoDup (map fst l) -> afind i l = None -> NoDup (map fst (l ++ [(i, x)])).
Proof.
  intros N A. rewrite map_app. cbn [map fst]. apply afind_none_notin in A.
  revert N A. generalize (map fst l). intros m. induction m as [|y m IH]; intros N A; cbn [app].
  - constructor; [intros []|constructor].
  - inversion N as [|? ? NI N']; subst. constructor.
    + intros X. apply in_app_or in X as [X|[X|[]]]; [exact (NI X)|]. apply A. left. symmetry. exact X.
    + apply IH; [exact N'|]. intros X. apply A. right. exact X.
Qed.
Lemma keys_remove {B} i (l : list (nat * B)) : NoDup (map fst l) -> NoDup (map fst (aremove i l)) /\ afind i (aremove i l) = None.
Proof.
  induction l as [|[k b] t IH]; cbn [aremove map fst afind]; intros N; [split; [constructor|reflexivity]|].
  inversion N as [|? ? NI N']; subst. destruct (Nat.eqb i k) eqn:E.
  - apply Nat.eqb_eq in E. subst k. split; [exact N'|]. apply afind_none_notin. exact NI.
  - destruct (IH N') as [N1 A1]. cbn [map fst afind]. rewrite E. split; [|exact A1].
    constructor; [|exact N1]. intros X. apply NI. clear -X. induction t as [|[k' b'] t IHt]; cbn [aremove map fst In] in *; [exact X|].
    destruct (Nat.eqb i k'); [right; exact X|]. cbn [map fst In] in X. destruct X as [X|X]; [left; exact X|right; exact (IHt X)].
Qed.

Definition holds_pop (t : option thr) : Prop :=
  match t with Some (TProd _ _ (PRes false) _ _) => True | Some (TUnb _ _ URes _) => True | _ => False end.
Definition holds_push (t : option thr) : Prop :=
  match t with Some (TCons _ _ CRes) => True | Some (TUnbPush _ _ URes _) => True | _ => False end.

(* an in-flight entry is keyed by the thread that took the promise and exists exactly between that thread's critical
   section and its resolution step *)
Record tlink (s : tstate) : Prop := mkTlink {
  lk_nd1 : NoDup (map fst (t_infl s));
  lk_nd2 : NoDup (map fst (t_cinfl s));
  lk_1 : forall i, afind i (t_infl s) <> None -> holds_pop (nth_error (t_thr s) i);
  lk_2 : forall i, afind i (t_cinfl s) <> None -> holds_push (nth_error (t_thr s) i)
}.

Lemma tlink_init limit thrs : tlink (t_init limit thrs).
Proof. split; cbn; try constructor; intros i H; exfalso; apply H; reflexivity. Qed.

Lemma tlink_step s i : tlink s -> tlink (fst (tstep s i)).
Proof.
  intros [N1 N2 L1 L2].
  assert (forall j, j <> i -> afind j (t_infl (fst (tstep s i))) <> None -> holds_pop (nth_error (t_thr (fst (tstep s i))) j)) as O1.
  { intros j NE. destruct (tstep_frame s i j NE) as (F1 & F2 & F3 & F4). rewrite F1, F4. apply L1. }
  assert (forall j, j <> i -> afind j (t_cinfl (fst (tstep s i))) <> None -> holds_push (nth_error (t_thr (fst (tstep s i))) j)) as O2.
  { intros j NE. destruct (tstep_frame s i j NE) as (F1 & F2 & F3 & F4). rewrite F2, F4. apply L2. }
  (* in every branch a list of promises is unchanged, gets an entry for i (absent before: i held none), or loses i's *)
  revert O1 O2. unfold tstep.
  destruct (nth_error (t_thr s) i) as [[vals k [|rb|b] nb rets | n issued [| |] | n e [|] rets | n e [|] rets | n [|] rets | d]|] eqn:T;
    [..|intros _ _; split; assumption];
    assert (afind i (t_infl s) = None \/ holds_pop (Some (TProd [] 0 (PRes false) 0 []))) as A1 by
      (destruct (afind i (t_infl s)) eqn:E; [right; exact I|left; reflexivity]);
    pose proof (L1 i) as L1i; pose proof (L2 i) as L2i; rewrite T in L1i, L2i; cbn [holds_pop holds_push] in L1i, L2i;
    repeat match goal with
           | |- context [match t_waiters s with _ => _ end] => destruct (t_waiters s)
           | |- context [match t_items s with _ => _ end] => destruct (t_items s)
           | |- context [match t_blocked s with _ => _ end] => destruct (t_blocked s) as [|[? ?] ?]
           | |- context [if full s then _ else _] => destruct (full s)
           | |- context [if rb then _ else _] => destruct rb
           end;
    unfold resolve_pop, resolve_push, with_thr, set_thr;
    repeat match goal with
           | |- context [match afind i (t_infl s) with _ => _ end] => destruct (afind i (t_infl s)) as [[? ?]|] eqn:?AF
           | |- context [match afind i (t_cinfl s) with _ => _ end] => destruct (afind i (t_cinfl s)) as [[? ?]|] eqn:?AF
           end;
    tf; intros O1 O2; split; tf;
    try assumption;
    try (apply keys_snoc; [assumption|]; destruct (afind i (t_infl s)) eqn:?E; [exfalso; apply L1i; discriminate|reflexivity]);
    try (apply keys_snoc; [assumption|]; destruct (afind i (t_cinfl s)) eqn:?E; [exfalso; apply L2i; discriminate|reflexivity]);
    try (apply (keys_remove i); assumption);
    try (intros j Hj; destruct (Nat.eq_dec j i) as [->|NE]; [|first [exact (O1 j NE Hj)|exact (O2 j NE Hj)]];
         rewrite (nth_error_set_same _ _ _ _ T); cbn [holds_pop holds_push];
         first [ exact I
               | exfalso; apply Hj; apply (keys_remove i); assumption
               | exfalso; first [apply L1i; exact Hj | apply L2i; exact Hj]
               | exfalso; congruence
               | exfalso; rewrite afind_snoc_other in Hj by congruence; first [apply L1i; exact Hj | apply L2i; exact Hj] ]).
Qed.

Lemma astep_kinds thrs0 l a i : kinds thrs0 l -> astep thrs0 a i = astep l a i.
Proof.
  intros [L K]. unfold astep. destruct (a_dead a); [reflexivity|].
  destruct (nth_error thrs0 i) as [t0|] eqn:E0; destruct (nth_error l i) as [t|] eqn:E; [|exfalso..|reflexivity].
  - specialize (K i t0 t E0 E). destruct t0, t; cbn [same_kind] in K; try contradiction; subst; reflexivity.
  - apply nth_error_None in E. assert (i < length thrs0)%nat by (apply nth_error_Some; congruence). lia.
  - apply nth_error_None in E0. assert (i < length l)%nat by (apply nth_error_Some; congruence). lia.
Qed.

Lemma a_full_eq lim thrs0 s a : osim lim thrs0 s a -> tcons s -> a_full a = full s.
Proof.
  intros [_ Olimit _ Ofifo _ _ _ _] [_ Full _ _ _ _ _]. unfold a_full, full. rewrite Olimit, Ofifo.
  destruct (t_limit s) as [l|] eqn:EL; [|reflexivity]. unfold zlen. rewrite app_length, !map_length.
  destruct (t_blocked s) as [|b bl] eqn:B; [cbn [length]; f_equal; lia|].
  assert (full s = true) as F by (apply Full; discriminate). unfold full in F. rewrite EL in F. unfold zlen in F.
  cbn [length] in *. lia.
Qed.

Lemma enc_i_remove_seq i l c o x : afind i l = Some (c, o) -> (count_n c (cons_of l) <= 1)%nat ->
  sel x (enc_i l) = sel x [(c, enc_outcome o)] ++ sel x (enc_i (aremove i l)).
Proof.
  induction l as [|[k [c' o']] t IH]; cbn [afind aremove]; [discriminate|].
  destruct (Nat.eqb i k) eqn:E.
  - intros H _. injection H as -> ->. cbn [enc_i map fst snd]. fold (enc_i t).
    change ((c, enc_outcome o) :: enc_i t) with ([(c, enc_outcome o)] ++ enc_i t). rewrite sel_app. reflexivity.
  - intros H LE. rewrite cons_of_cons, count_n_cons in LE.
    pose proof (cons_of_remove i t c o c H) as CR. rewrite Nat.eqb_refl in CR.
    assert (Nat.eqb c c' = false) as NE by (destruct (Nat.eqb c c'); [lia|reflexivity]).
    assert (count_n c (cons_of t) <= 1)%nat as LE' by lia.
    specialize (IH H LE'). cbn [enc_i map fst snd]. fold (enc_i t). fold (enc_i (aremove i t)).
    change ((c', enc_outcome o') :: enc_i t) with ([(c', enc_outcome o')] ++ enc_i t).
    change ((c', enc_outcome o') :: enc_i (aremove i t)) with ([(c', enc_outcome o')] ++ enc_i (aremove i t)).
    rewrite !sel_app, IH. apply Nat.eqb_neq in NE.
    destruct (Nat.eq_dec x c) as [->|NX].
    + rewrite (sel_one_other c c') by congruence. reflexivity.
    + rewrite (sel_one_other x c) by congruence. reflexivity.
Qed.
Lemma enc_i_none c l : count_n c (cons_of l) = 0%nat -> sel c (enc_i l) = [].
Proof.
  induction l as [|[k [c' o']] t IH]; [reflexivity|]. rewrite cons_of_cons, count_n_cons.
  destruct (Nat.eqb c c') eqn:E; [lia|]. intros H. cbn [enc_i map fst snd]. fold (enc_i t).
  change ((c', enc_outcome o') :: enc_i t) with ([(c', enc_outcome o')] ++ enc_i t). rewrite sel_app, (IH H).
  apply Nat.eqb_neq in E. rewrite sel_one_other by congruence. reflexivity.
Qed.

Lemma a_size_eq lim thrs0 s a : osim lim thrs0 s a -> a_size a = zlen (t_items s).
Proof. intros OS. unfold a_size. rewrite (os_fifo _ _ _ _ OS), filter_admitted. unfold zlen. rewrite !map_length. reflexivity. Qed.
Lemma enc_r_cancel (w : list nat) : enc_r (map (fun c => (c, OCancel)) w) = map (fun c => (c, -1000000)) w.
Proof. unfold enc_r. rewrite map_map. reflexivity. Qed.
Lemma sel_cancel_none c (w : list nat) x : count_n c w = 0%nat -> sel c (map (fun c => (c, x)) w) = [].
Proof.
  induction w as [|y w IH]; [reflexivity|]. rewrite count_n_cons. destruct (Nat.eqb c y) eqn:E; [lia|]. intros H.
  cbn [map]. change ((y, x) :: map (fun c0 => (c0, x)) w) with ([(y, x)] ++ map (fun c0 => (c0, x)) w).
  rewrite sel_app, (IH H). apply Nat.eqb_neq in E. rewrite sel_one_other by exact E. reflexivity.
Qed.

Lemma Forall2_snoc {A B} (R : A -> B -> Prop) l l' x y : Forall2 R l l' -> R x y -> Forall2 R (l ++ [x]) (l' ++ [y]).
Proof. intros H Hx. apply Forall2_app; [exact H|constructor; [exact Hx|constructor]]. Qed.

Lemma Rcls_01 lim r : (r = 0 \/ r = 1) -> Rcls lim r r.
Proof. intros [->| ->]; destruct lim; reflexivity. Qed.

(* the local clause of thread i itself after a step: it only has to be re-established for the new entry *)
Ltac local_self i T OTH :=
  let j := fresh "j" in let tj := fresh "tj" in let Hj := fresh "Hj" in
  intros j tj Hj; destruct (Nat.eq_dec j i) as [->|?NE]; [|exact (OTH j tj NE Hj)];
  unfold set_thr in Hj; rewrite (nth_error_set_same _ _ _ _ T) in Hj; injection Hj as <-.

Lemma osim_step lim thrs0 s a i : osim lim thrs0 s a -> tcons s -> tord s -> tlink s -> t_enabled s i = true ->
  osim lim thrs0 (fst (tstep s i)) (anext thrs0 a i (snd (tstep s i))).
Proof.
  intros OS TC TO TL EN. pose proof OS as [Olim Olimit Odead Ofifo Opend Obook Ocres Oloc]. pose proof (ob_kinds _ _ _ Obook) as Okinds.
  pose proof TC as [L Full Wait _ _ _ _]. pose proof TO as [J K1 K2 K3]. pose proof TL as [N1 N2 L1 L2].
  pose proof (a_full_eq _ _ _ _ OS TC) as AF.
  (* locals of the other threads *)
  assert (forall j t, j <> i -> nth_error (t_thr (fst (tstep s i))) j = Some t ->
                      local_ok lim (fst (tstep s i)) (anext thrs0 a i (snd (tstep s i))) j t) as OTH.
  { intros j t NE Hj. destruct (tstep_frame s i j NE) as (F1 & F2 & F3 & F4). rewrite F4 in Hj.
    apply (local_frame lim s a); [exact (Oloc j t Hj)|assumption..| |]; unfold anext;
      destruct (cs_code (snd (tstep s i))); try reflexivity; apply (astep_frame thrs0 a i j NE). }
  pose proof (obook_step thrs0 s a i Obook Odead EN) as BOOK.
  assert (anext thrs0 a i (snd (tstep s i)) = anext (t_thr s) a i (snd (tstep s i))) as EA
    by (unfold anext; destruct (cs_code (snd (tstep s i))); [apply astep_kinds; exact Okinds|reflexivity]).
  rewrite EA in *. clear EA. revert OTH BOOK. unfold tstep. unfold t_enabled, t_enabled0 in EN.
  pose proof (L1 i) as L1i. pose proof (L2 i) as L2i.
  thread_cases s i T;
    [..|discriminate]; cbn [holds_pop holds_push] in L1i, L2i; pose proof (Oloc i _ T) as LI; cbn [local_ok] in LI.
  - (* producer, critical section *)
    apply andb_true_iff in EN as [ND EN]. apply negb_true_iff in ND.
    assert (afind i (t_infl s) = None) as AN by (destruct (afind i (t_infl s)); [exfalso; apply L1i; discriminate|reflexivity]).
    destruct LI as ((pre & EP & FP) & LP & NP). cbn [lag_p] in EP. rewrite app_nil_r in EP.
    destruct (t_waiters s) as [|c w] eqn:W; [destruct (full s) eqn:F|]; cbn [fst snd]; intros OTH BOOK;
      change (anext (t_thr s) a i 70) with (astep (t_thr s) a i) in *; unfold astep in *; rewrite Odead, ND, T, Opend in *; rewrite ?W in *; rewrite ?AF in *;
      rewrite (ob_cnt _ _ _ Obook i _ T) in *; cbn [entered] in *.
    + (* blocks *)
      split; tf; af; try assumption; try reflexivity.
      * rewrite Ofifo, !map_app, app_assoc. reflexivity.
      * local_self i T OTH. cbn [local_ok lag_p]. tf. af. rewrite sel_app, sel_one_same. split; [|split].
        -- exists pre. split; [rewrite EP; reflexivity|exact FP].
        -- rewrite app_length, LP. apply Nat.add_1_r.
        -- intros E. exfalso. unfold full in F. tf. rewrite E in F. discriminate.
    + (* enqueues: nobody is blocked *)
      pose proof (tcons_room s TC F) as EB.
      split; tf; af; try assumption; try reflexivity.
      * rewrite Ofifo, EB. cbn [map]. rewrite !app_nil_r, !map_app. reflexivity.
      * local_self i T OTH. cbn [local_ok lag_p]. tf. af. rewrite sel_app, sel_one_same, AN. cbn [has]. split; [|split].
        -- exists pre. split; [rewrite EP; reflexivity|exact FP].
        -- rewrite app_length, LP. apply Nat.add_1_r.
        -- intros _. split; discriminate.
    + (* hand-over *)
      split; tf; af; try assumption; try reflexivity.
      * intros c0. rewrite enc_i_app, !sel_app, Ocres. cbn [enc_i map fst snd enc_outcome it_v]. rewrite app_assoc. reflexivity.
      * local_self i T OTH. cbn [local_ok lag_p]. tf. af. rewrite sel_app, sel_one_same, (afind_snoc_same _ _ _ AN). cbn [has]. split; [|split].
        -- exists pre. split; [rewrite EP; reflexivity|exact FP].
        -- rewrite app_length, LP. apply Nat.add_1_r.
        -- intros _. split; discriminate.
  - (* producer, after the unlock *)
    cbn [fst snd]. change (anext (t_thr s) a i 71) with a. unfold resolve_pop, with_thr.
    destruct LI as ((pre & EP & FP) & LP & NP).
    destruct rb.
    + assert (afind i (t_infl s) = None) as AN by (destruct (afind i (t_infl s)); [exfalso; apply L1i; discriminate|reflexivity]).
      rewrite AN. intros OTH BOOK. split; tf; try assumption.
      * local_self i T OTH. cbn [local_ok lag_p] in *. tf. split; [|split]; [exists pre; split; assumption|assumption|].
        intros E; exfalso; destruct (NP E) as [X _]; apply X; reflexivity.
    + cbn [lag_p] in EP. destruct (afind i (t_infl s)) as [[c o]|] eqn:AI; cbn [has] in EP; tf; intros OTH BOOK; split; tf; try assumption.
      * intros c0. rewrite enc_r_app, sel_app, Ocres. rewrite (enc_i_remove_seq i _ c o c0 AI) by exact (Nat.le_trans _ _ _ (outst_infl c s) (K1 c)).
        cbn [enc_r map fst snd]. rewrite <- app_assoc. reflexivity.
      * local_self i T OTH. cbn [local_ok lag_p has] in *. split; [|split].
        -- exists (pre ++ [1]). rewrite app_nil_r. split; [exact EP|]. apply Forall2_snoc; [exact FP|]. apply Rcls_01. right; reflexivity.
        -- exact LP.
        -- intros _. split; discriminate.
      * local_self i T OTH. cbn [local_ok lag_p has] in *. split; [|split].
        -- exists (pre ++ [0]). rewrite app_nil_r. split; [exact EP|]. apply Forall2_snoc; [exact FP|]. apply Rcls_01. left; reflexivity.
        -- exact LP.
        -- intros _. split; discriminate.
  - (* producer, wake *)
    cbn [fst snd]. change (anext (t_thr s) a i 72) with a. destruct LI as ((pre & EP & FP) & LP & NP). intros OTH BOOK. split; tf; try assumption.
    + local_self i T OTH. cbn [local_ok lag_p] in *. tf. split; [|split]; [|exact LP|intros _; split; discriminate].
      destruct b.
      * exists (pre ++ [2]). rewrite app_nil_r. split; [exact EP|]. apply Forall2_snoc; [exact FP|].
        destruct lim; [|exfalso; destruct (NP (Olim eq_refl)) as [_ X]; apply X; reflexivity].
        unfold Rcls, class_ok. cbn [Z.eqb]. apply orb_true_r.
      * exists pre. rewrite app_nil_r in *. split; assumption.
  - (* consumer, critical section *)
    apply andb_true_iff in EN as [ND EN]. apply negb_true_iff in ND.
    assert (outst i s = 0)%nat as OI by (apply (not_cons_outst s i _ TO T); intros ? ? ? X; congruence).
    destruct (t_items s) as [|it t] eqn:IT; [|destruct (t_blocked s) as [|[y p] b] eqn:B]; cbn [fst snd]; intros OTH BOOK;
      change (anext (t_thr s) a i 70) with (astep (t_thr s) a i) in *; unfold astep in *; rewrite Odead, ND, T, Ofifo in *.
    + pose proof (tcons_empty s TC IT) as EB.
      rewrite EB in *. cbn [map app] in *. split; tf; af; try assumption; try reflexivity.
      * rewrite Opend. reflexivity.
      * local_self i T OTH. exact I.
    + (* immediate, nobody blocked *)
      cbn [map app] in *. rewrite app_nil_r in *. unfold adm at 1. unfold adm at 1 in OTH. rewrite admit_first_none in *. cbn [fst] in *.
      split; tf; af; try assumption; try reflexivity.
      * cbn [map]. rewrite app_nil_r. reflexivity.
      * intros c0. rewrite enc_r_app, !sel_app, Ocres. cbn [enc_r map fst snd enc_outcome].
        destruct (Nat.eq_dec c0 i) as [->|NE].
        -- rewrite (enc_i_none i) by (apply Nat.le_0_r; rewrite <- OI; apply outst_infl). rewrite !app_nil_r. reflexivity.
        -- rewrite !(sel_one_other c0 i) by exact NE. rewrite !app_nil_r. reflexivity.
      * local_self i T OTH. exact I.
    + (* immediate, the oldest blocked push is admitted *)
      change (map adm (map it_v (it :: t))) with ((it_v it, @None nat) :: map adm (map it_v t)) in *.
      change (map vblk ((y, p) :: b)) with ((it_v y, p) :: map vblk b) in *. cbn [app] in *.
      rewrite admit_first_blocked in *. cbn [fst] in *.
      split; tf; af; try assumption; try reflexivity.
      * rewrite (map_app it_v). reflexivity.
      * intros c0. rewrite enc_r_app, !sel_app, Ocres. cbn [enc_r map fst snd enc_outcome].
        destruct (Nat.eq_dec c0 i) as [->|NE].
        -- rewrite (enc_i_none i) by (apply Nat.le_0_r; rewrite <- OI; apply outst_infl). rewrite !app_nil_r. reflexivity.
        -- rewrite !(sel_one_other c0 i) by exact NE. rewrite !app_nil_r. reflexivity.
      * local_self i T OTH. exact I.
  - (* consumer, after the unlock *)
    cbn [fst snd]. change (anext (t_thr s) a i 71) with a. unfold resolve_push, with_thr.
    destruct (afind i (t_cinfl s)) as [[p code]|]; tf; intros OTH BOOK; split; tf; try assumption;
      local_self i T OTH; exact I.
  - (* consumer, wake *)
    cbn [fst snd]. change (anext (t_thr s) a i 72) with a. intros OTH BOOK; split; tf; try assumption;
      local_self i T OTH; exact I.
  - (* unblock_pop, critical section *)
    apply andb_true_iff in EN as [ND EN]. apply negb_true_iff in ND.
    assert (afind i (t_infl s) = None) as AN by (destruct (afind i (t_infl s)); [exfalso; apply L1i; discriminate|reflexivity]).
    cbn [lag_u] in LI. rewrite app_nil_r in LI.
    destruct (t_waiters s) as [|c w] eqn:W; cbn [fst snd]; intros OTH BOOK;
      change (anext (t_thr s) a i 70) with (astep (t_thr s) a i) in *; unfold astep in *; rewrite Odead, ND, T, Opend in *; rewrite ?W in *.
    + split; tf; af; try assumption; try reflexivity.
      * local_self i T OTH. cbn [local_ok lag_u]. tf. af. rewrite sel_app, sel_one_same, AN, LI. reflexivity.
    + split; tf; af; try assumption; try reflexivity.
      * intros c0. rewrite enc_i_app, !sel_app, Ocres. cbn [enc_i map fst snd enc_outcome]. rewrite app_assoc. reflexivity.
      * local_self i T OTH. cbn [local_ok lag_u]. tf. af. rewrite sel_app, sel_one_same, (afind_snoc_same _ _ _ AN), LI. reflexivity.
  - (* unblock_pop, after the unlock *)
    cbn [fst snd]. change (anext (t_thr s) a i 71) with a. unfold resolve_pop, with_thr. cbn [lag_u] in LI.
    destruct (afind i (t_infl s)) as [[c o]|] eqn:AI; cbn [has] in LI; tf; intros OTH BOOK; split; tf; try assumption.
    + intros c0. rewrite enc_r_app, sel_app, Ocres. rewrite (enc_i_remove_seq i _ c o c0 AI) by exact (Nat.le_trans _ _ _ (outst_infl c s) (K1 c)).
      cbn [enc_r map fst snd]. rewrite <- app_assoc. reflexivity.
    + local_self i T OTH. cbn [local_ok lag_u has]. rewrite app_nil_r. exact LI.
    + local_self i T OTH. cbn [local_ok lag_u has]. rewrite app_nil_r. exact LI.
  - (* unblock_push, critical section *)
    apply andb_true_iff in EN as [ND EN]. apply negb_true_iff in ND.
    assert (afind i (t_cinfl s) = None) as AN by (destruct (afind i (t_cinfl s)); [exfalso; apply L2i; discriminate|reflexivity]).
    cbn [lag_u] in LI. rewrite app_nil_r in LI.
    destruct (t_blocked s) as [|[y p] b] eqn:B; cbn [fst snd]; intros OTH BOOK;
      change (anext (t_thr s) a i 70) with (astep (t_thr s) a i) in *; unfold astep in *; rewrite Odead, ND, T, Ofifo in *.
    + cbn [map] in *. rewrite app_nil_r in *. rewrite drop_first_none in *.
      split; tf; af; try assumption; try reflexivity.
      * cbn [map]. rewrite app_nil_r. reflexivity.
      * local_self i T OTH. cbn [local_ok lag_u]. tf. af. rewrite sel_app, sel_one_same, AN, LI. reflexivity.
    + change (map vblk ((y, p) :: b)) with ((it_v y, p) :: map vblk b) in *. rewrite drop_first_blocked in *.
      split; tf; af; try assumption; try reflexivity.
      * local_self i T OTH. cbn [local_ok lag_u]. tf. af. rewrite sel_app, sel_one_same, (afind_snoc_same _ _ _ AN), LI. reflexivity.
  - (* unblock_push, after the unlock *)
    cbn [fst snd]. change (anext (t_thr s) a i 71) with a. unfold resolve_push, with_thr. cbn [lag_u] in LI.
    destruct (afind i (t_cinfl s)) as [[p code]|] eqn:AI; cbn [has] in LI; tf; intros OTH BOOK; split; tf; try assumption;
      local_self i T OTH; cbn [local_ok lag_u has]; rewrite app_nil_r; exact LI.
  - (* size *)
    apply andb_true_iff in EN as [ND EN]. apply negb_true_iff in ND.
    cbn [fst snd]; intros OTH BOOK; change (anext (t_thr s) a i 70) with (astep (t_thr s) a i) in *; unfold astep in *; rewrite Odead, ND, T in *.
    split; tf; af; try assumption; try reflexivity.
    + local_self i T OTH. cbn [local_ok]. af. rewrite sel_app, sel_one_same, LI, (a_size_eq _ _ _ _ OS). reflexivity.
  - cbn [fst snd]. change (anext (t_thr s) a i 71) with a. intros OTH BOOK; split; tf; try assumption;
      local_self i T OTH; exact LI.
  - (* destroy *)
    apply andb_true_iff in EN as [EN _]. apply andb_true_iff in EN as [DD ND]. apply negb_true_iff in ND. apply negb_true_iff in DD. subst d.
    cbn [fst snd]; intros OTH BOOK; change (anext (t_thr s) a i 73) with (astep (t_thr s) a i) in *; unfold astep in *; rewrite Odead, ND, T in *.
    split; tf; af; try assumption; try reflexivity.
    + intros c0. rewrite enc_r_app, !sel_app, Ocres, enc_r_cancel, Opend.
      destruct (count_n c0 (t_waiters s)) eqn:CW.
      * rewrite (sel_cancel_none c0 _ _ CW). rewrite !app_nil_r. reflexivity.
      * rewrite (enc_i_none c0) by (pose proof (K1 c0) as X; unfold outst in X; rewrite CW in X; clear -X; lia). rewrite !app_nil_r. reflexivity.
    + local_self i T OTH. exact I.
Qed.

Lemma areplay_snoc thrs0 a0 tr i code : areplay thrs0 a0 (tr ++ [[Z.of_nat i; code]]) = anext thrs0 (areplay thrs0 a0 tr) i code.
Proof.
  unfold areplay. rewrite fold_left_app. cbn [fold_left]. rewrite is_cs_line. unfold anext.
  destruct (cs_code code); reflexivity.
Qed.

Record rinv (lim : bool) (thrs0 : list thr) (a0 : astate) (s : tstate) (tr : list (list Z)) : Prop := mkRinv {
  ri_cons : tcons s;
  ri_ord : tord s;
  ri_link : tlink s;
  ri_sim : osim lim thrs0 s (areplay thrs0 a0 tr);
  ri_tr : Forall (fun l => is_trace2 l = true) tr
}.

(* fewer than 777 threads: a trace line must not start with the deadlock marker (is_trace2) *)
Lemma rinv_run lim thrs0 a0 : (length thrs0 < 777)%nat ->
  forall fuel s sched tr, rinv lim thrs0 a0 s tr ->
  rinv lim thrs0 a0 (fst (t_run_sched fuel s sched tr)) (snd (t_run_sched fuel s sched tr)).
Proof.
  intros LT. induction fuel as [|f IH]; intros s sched tr R; cbn [t_run_sched]; [exact R|].
  destruct (t_pick s _) as [i|] eqn:PK; [|exact R].
  pose proof (t_pick_enabled _ _ _ PK) as EN. destruct R as [C O K S F].
  destruct (tstep_self s i EN) as (t & _ & T & _ & _ & _ & _ & CO).
  pose proof (osim_step lim thrs0 s _ i S C O K EN) as S1.
  pose proof (tcons_step s i C) as C1. pose proof (tord_step s i O EN) as O1. pose proof (tlink_step s i K) as K1.
  destruct (tstep s i) as [s1 code]. cbn [fst snd] in *. apply IH. split; try assumption.
  - rewrite areplay_snoc. exact S1.
  - apply Forall_app. split; [exact F|]. constructor; [|constructor].
    assert (i < length thrs0)%nat by (rewrite (proj1 (ob_kinds _ _ _ (os_book _ _ _ _ S))); apply nth_error_Some; congruence).
    unfold is_trace2. lia.
Qed.

Lemma same_kind_refl t : same_kind t t.
Proof. destruct t; cbn; auto. Qed.

Lemma osim_init lim limit thrs : (lim = false -> limit = None) -> Forall t_new thrs ->
  osim lim thrs (t_init limit thrs) (a_init limit (length thrs)).
Proof.
  intros HL F. rewrite Forall_forall in F. split; cbn [t_init a_init]; tf; af; try reflexivity; try assumption.
  - split; [split; [reflexivity|]|apply repeat_length|].
    + intros i t0 t H0 H1. cbn in H1. assert (t0 = t) as -> by congruence. apply same_kind_refl.
    + intros i t H. unfold t_init, a_init in *. tf. af. rewrite nth_repeat. specialize (F t (nth_error_In _ _ H)). destruct t; cbn [t_new entered] in *.
      * destruct F as (-> & _). reflexivity.
      * destruct F as (-> & _). reflexivity.
      * destruct F as [-> ->]. reflexivity.
      * destruct F as [-> ->]. reflexivity.
      * destruct F as [-> ->]. reflexivity.
      * subst. reflexivity.
  - intros i t H. unfold t_init, a_init in *. tf. specialize (F t (nth_error_In _ _ H)). destruct t; cbn [t_new local_ok] in *; af; tf; try exact I.
    + destruct F as (-> & -> & ->). cbn [lag_p sel a_pcls filter map]. split; [|split].
      * exists []. split; [reflexivity|constructor].
      * reflexivity.
      * intros _. split; discriminate.
    + destruct F as [-> ->]. reflexivity.
    + destruct F as [-> ->]. reflexivity.
    + destruct F as [-> ->]. reflexivity.
Qed.

Lemma rinv_init lim limit thrs : (lim = false -> limit = None) -> limit_ok limit -> Forall t_new thrs ->
  rinv lim thrs (a_init limit (length thrs)) (t_init limit thrs) [].
Proof.
  intros HL LO F. split.
  - apply tcons_init; [exact LO|]. eapply Forall_impl; [|exact F]. apply t_new_fresh.
  - apply tord_init. eapply Forall_impl; [|exact F]. apply t_new_fresh.
  - apply tlink_init.
  - apply osim_init; assumption.
  - constructor.
Qed.

Lemma take_trace_app tr rest : Forall (fun l => is_trace2 l = true) tr ->
  match rest with [] => True | l :: _ => is_trace2 l = false end -> take_trace (tr ++ rest) = (tr, rest).
Proof.
  intros F H. induction F as [|l tr Hl F IH]; cbn [app take_trace].
  - destruct rest as [|l r]; [reflexivity|]. cbn [take_trace]. rewrite H. reflexivity.
  - rewrite Hl, IH. reflexivity.
Qed.

Lemma obs_all_length lim s l : forall off, length (t_thr_obs_all lim s l off) = length l.
Proof. induction l as [|t l IH]; intros off; cbn [t_thr_obs_all length]; [reflexivity|]. rewrite IH. reflexivity. Qed.
Lemma obs_all_nth lim s l : forall off i t, nth_error l i = Some t ->
  nth i (t_thr_obs_all lim s l off) [] = t_thr_obs lim s (off + i) t.
Proof.
  induction l as [|x l IH]; intros off [|i] t H; cbn [nth_error] in H; try discriminate; cbn [t_thr_obs_all nth].
  - injection H as <-. rewrite Nat.add_0_r. reflexivity.
  - rewrite (IH (S off) i t H). f_equal. lia.
Qed.

Lemma stuck_ge dead l : forall off x, In x (t_stuck dead l off) -> Z.of_nat off <= x.
Proof.
  induction l as [|t l IH]; intros off x H; cbn [t_stuck] in H; [contradiction|].
  apply in_app_or in H as [H|H].
  - destruct (t_finished dead t); [contradiction|]. destruct H as [<-|[]]. lia.
  - specialize (IH (S off) x H). lia.
Qed.
Lemma stuck_mem dead l : forall off i t, nth_error l i = Some t ->
  memz (Z.of_nat (off + i)) (t_stuck dead l off) = negb (t_finished dead t).
Proof.
  induction l as [|x l IH]; intros off [|i] t H; cbn [nth_error] in H; try discriminate; cbn [t_stuck].
  - injection H as <-. rewrite Nat.add_0_r. destruct (t_finished dead x); cbn [app negb].
    + destruct (memz (Z.of_nat off) (t_stuck dead l (S off))) eqn:M; [|reflexivity].
      apply memz_In in M. apply stuck_ge in M. lia.
    + cbn [memz]. rewrite Z.eqb_refl. reflexivity.
  - assert (memz (Z.of_nat (off + S i)) (if t_finished dead x then [] else [Z.of_nat off]) = false) as E.
    { destruct (t_finished dead x); [reflexivity|]. cbn [memz]. assert (Z.of_nat (off + S i) =? Z.of_nat off = false) as -> by lia. reflexivity. }
    replace (off + S i)%nat with (S off + i)%nat in * by lia. rewrite <- (IH (S off) i t H).
    generalize (t_stuck dead l (S off)). intros r. destruct (t_finished dead x); [reflexivity|].
    cbn [app memz] in *. apply orb_false_iff in E as [E _]. rewrite E. reflexivity.
Qed.

Lemma prefix_b_app a b : prefix_b a (a ++ b) = true.
Proof. induction a as [|x a IH]; cbn [app prefix_b]; [reflexivity|]. rewrite Z.eqb_refl, IH. reflexivity. Qed.
Lemma zlist_eqb'_refl l : zlist_eqb' l l = true.
Proof. induction l as [|x l IH]; cbn [zlist_eqb']; [reflexivity|]. rewrite Z.eqb_refl, IH. reflexivity. Qed.

Lemma received_sel s c : t_received s c = sel c (enc_r (t_rlog s)).
Proof.
  unfold t_received, sel, enc_r. induction (t_rlog s) as [|[k o] l IH]; [reflexivity|].
  cbn [filter map fst snd]. destruct (Nat.eqb c k); cbn [map snd]; rewrite IH; reflexivity.
Qed.
Lemma received_len s c : length (t_received s c) = nres c s.
Proof.
  unfold t_received, nres, count_n. rewrite map_length. induction (t_rlog s) as [|[k o] l IH]; [reflexivity|].
  cbn [filter map fst]. destruct (Nat.eqb c k); cbn [length]; rewrite IH; reflexivity.
Qed.

Lemma combine_app_r {A B} (a : list A) (b c : list B) : length a = length b -> combine a (b ++ c) = combine a b.
Proof.
  revert b; induction a as [|x a IH]; intros [|y b] H; cbn [length] in H; try discriminate; cbn [app combine]; [reflexivity|].
  rewrite IH by lia. reflexivity.
Qed.
Lemma F2_length {A B} (R : A -> B -> Prop) l l' : Forall2 R l l' -> length l = length l'.
Proof. induction 1; cbn [length]; congruence. Qed.
Lemma classes_from_F2 lim rets pre lag : Forall2 (Rcls lim) rets pre ->
  classes_ok lim (map (report lim) rets) (pre ++ lag) = true.
Proof.
  intros F. unfold classes_ok. pose proof (F2_length _ _ _ F) as EL.
  rewrite map_length, app_length. apply andb_true_iff. split; [apply Nat.leb_le; lia|].
  rewrite combine_app_r by (rewrite map_length; exact EL).
  induction F as [|r c rets pre HR F IH]; cbn [map combine forallb]; [reflexivity|].
  unfold Rcls in HR. rewrite HR. cbn [andb]. apply IH. apply (F2_length _ _ _ F).
Qed.

Lemma report_map (lim : bool) (rets : list Z) : (if lim then map (fun r => if r <=? 2 then 0 else r) rets else rets) = map (report lim) rets.
Proof. unfold report. destruct lim; [reflexivity|]. symmetry. apply map_id. Qed.

Lemma cnt_ok_lag (fin : bool) n m lag : m = (n + lag)%nat -> (lag <= 1)%nat -> (fin = true -> lag = 0%nat) ->
  (if negb fin then Nat.leb n m && Nat.leb m (S n) else Nat.eqb n m) = true.
Proof.
  intros -> L F. destruct fin; cbn [negb]; [rewrite (F eq_refl), Nat.add_0_r; apply Nat.eqb_refl|].
  apply andb_true_iff. split; apply Nat.leb_le; lia.
Qed.

Lemma thread_ok_holds lim thrs0 s a : osim lim thrs0 s a -> tord s ->
  forall i t0, nth_error thrs0 i = Some t0 ->
  thread_ok lim thrs0 a (t_thr_obs_all lim s (t_thr s) 0) (t_stuck (t_dead s) (t_thr s) 0) i t0 = true.
Proof.
  intros OS TO i t0 T0. pose proof OS as [Olim Olimit Odead Ofifo Opend [[KL KK] Ocl Ocnt] Ocres Oloc]. pose proof TO as [J K1 K2 K3].
  assert (exists t, nth_error (t_thr s) i = Some t) as (t & T).
  { destruct (nth_error (t_thr s) i) eqn:E; [eexists; reflexivity|]. apply nth_error_None in E.
    assert (i < length thrs0)%nat by (apply nth_error_Some; congruence). lia. }
  pose proof (KK i t0 t T0 T) as SK. pose proof (Oloc i t T) as LO.
  unfold thread_ok, result_line. rewrite (obs_all_nth lim s _ 0 i t T), (stuck_mem _ _ 0 i t T), (Ocnt i t T). cbn [Nat.add].
  destruct t as [vals k pc nb rets | n issued pc | n e pc rets | n e pc rets | n pc rets | d]; destruct t0;
    cbn [same_kind] in SK; try contradiction; cbn [t_thr_obs local_ok entered] in *; rewrite Z.eqb_refl; cbn [andb Z.leb Z.compare Pos.compare Pos.compare_cont].
  - (* producer *)
    rewrite report_map. destruct LO as ((pre & EP & FP) & LP & NP). rewrite EP, (classes_from_F2 lim _ _ _ FP). cbn [andb].
    rewrite EP, app_length in LP. apply (cnt_ok_lag _ _ _ (length (lag_p s i pc))).
    + rewrite map_length, (F2_length _ _ _ FP). symmetry. exact LP.
    + destruct pc as [|[]|[]]; cbn; lia.
    + destruct pc as [|[]|[]]; cbn [t_finished lag_p length]; intros; (reflexivity || discriminate).
  - (* consumer *)
    rewrite received_sel, Ocres, prefix_b_app. cbn [andb]. rewrite <- received_sel, received_len.
    apply (cnt_ok_lag _ _ _ (outst i s)); [symmetry; exact (K3 i _ _ _ T)|exact (K1 i)|].
    intros FIN. apply (not_cons_outst s i _ TO T). intros ? ? ? X. injection X as <- <- <-.
    destruct pc; [reflexivity|discriminate..].
  - (* unblock_pop *)
    rewrite LO, prefix_b_app. cbn [andb].
    apply (cnt_ok_lag _ _ _ (match pc with URes => 1 | UIdle => 0 end)%nat); [reflexivity|destruct pc; lia|].
    destruct pc; [reflexivity|discriminate].
  - (* unblock_push *)
    rewrite LO, prefix_b_app. cbn [andb].
    apply (cnt_ok_lag _ _ _ (match pc with URes => 1 | UIdle => 0 end)%nat); [reflexivity|destruct pc; lia|].
    destruct pc; [reflexivity|discriminate].
  - (* size *)
    rewrite LO. rewrite <- (app_nil_r rets) at 2. rewrite prefix_b_app. cbn [andb].
    apply (cnt_ok_lag _ _ _ 0%nat); [lia|lia|reflexivity].
  - (* destroy *)
    destruct d; reflexivity.
Qed.

Lemma threads_ok_holds lim thrs0 s a : osim lim thrs0 s a -> tord s ->
  forall l off, (forall j t0, nth_error l j = Some t0 -> nth_error thrs0 (off + j) = Some t0) ->
  threads_ok lim thrs0 a (t_thr_obs_all lim s (t_thr s) 0) (t_stuck (t_dead s) (t_thr s) 0) l off = true.
Proof.
  intros OS TO. induction l as [|t l IH]; intros off H; cbn [threads_ok]; [reflexivity|].
  rewrite (thread_ok_holds lim thrs0 s a OS TO off t) by (specialize (H 0%nat t eq_refl); rewrite Nat.add_0_r in H; exact H).
  cbn [andb]. apply IH. intros j t0 Hj. specialize (H (S j) t0 Hj). replace (S off + j)%nat with (off + S j)%nat by lia. exact H.
Qed.

Lemma not_trace_777 r : is_trace2 (777 :: r) = false.
Proof. destruct r as [|c [|? ?]]; cbn [is_trace2]; try reflexivity. rewrite Z.eqb_refl. cbn [negb]. apply andb_false_r. Qed.
Lemma not_trace_thr lim s i t : is_trace2 (t_thr_obs lim s i t) = false.
Proof.
  destruct t; cbn [t_thr_obs is_trace2]; try reflexivity;
    match goal with
    | |- context [if lim then ?x else ?y] => destruct (if lim then x else y) as [|? [|? ?]]; reflexivity
    | |- context [t_received s i] => destruct (t_received s i) as [|? [|? ?]]; reflexivity
    | |- _ => idtac
    end;
    match goal with |- match ?r with _ => _ end = false => destruct r as [|? [|? ?]]; reflexivity end.
Qed.
Lemma not_trace_final s : is_trace2 (t_final_obs s) = false.
Proof.
  unfold t_final_obs. destruct (t_items s) as [|it t]; cbn [map app].
  - destruct (map (fun b => it_v (fst b)) (t_blocked s)) as [|? ?]; reflexivity.
  - reflexivity.
Qed.

Lemma limit_of_ok lim ops limit : t_limit_of lim ops = Some limit -> (lim = false -> limit = None) /\ limit_ok limit.
Proof.
  unfold t_limit_of. destruct lim.
  - destruct (flat_map t_decode_limit ops) as [|n r]; [discriminate|]. destruct (1 <=? n) eqn:E; [|discriminate].
    intros H. injection H as <-. split; [discriminate|]. cbn. lia.
  - intros H. injection H as <-. split; [reflexivity|exact I].
Qed.

(* the oracle accepts every trace of the model itself: any case file, any threads (fewer than 777, the marker of the
   deadlock line), any schedule *)
Theorem tq_oracle_accepts_model lim ops :
  (length (flat_map (t_decode_thr lim) ops) < 777)%nat -> tq_oracle lim ops (tq_run lim ops) = true.
Proof.
  intros LT. unfold tq_oracle, tq_run, t_exec. destruct (t_limit_of lim ops) as [limit|] eqn:EL; [|reflexivity].
  destruct (limit_of_ok _ _ _ EL) as [HL LO].
  set (thrs := flat_map (t_decode_thr lim) ops) in *.
  pose proof (rinv_run lim thrs (a_init limit (length thrs)) LT (t_fuel thrs) (t_init limit thrs) (flat_map t_decode_sched ops) []
                       (rinv_init lim limit thrs HL LO (t_decode_new lim ops))) as R.
  destruct (t_run_sched (t_fuel thrs) (t_init limit thrs) (flat_map t_decode_sched ops) []) as [s tr]. cbn [fst snd] in R.
  destruct R as [C O K SIM F].
  assert (length (t_thr s) = length thrs) as EN by (symmetry; exact (proj1 (ob_kinds _ _ _ (os_book _ _ _ _ SIM)))).
  unfold t_obs_of.
  set (lines := t_thr_obs_all lim s (t_thr s) 0).
  assert (length lines = length thrs) as LL by (unfold lines; rewrite obs_all_length; exact EN).
  assert (is_trace2 (hd [] (lines ++ [t_final_obs s])) = false) as HH.
  { unfold lines. destruct (t_thr s) as [|t l]; cbn [t_thr_obs_all app hd]; [apply not_trace_final|apply not_trace_thr]. }
  assert (split_stuck (lines ++ [t_final_obs s]) = ([], lines ++ [t_final_obs s])) as SS0.
  { unfold lines. destruct (t_thr s) as [|t l]; cbn [t_thr_obs_all app]; [reflexivity|]. destruct t; reflexivity. }
  assert (Nat.eqb (length (lines ++ [t_final_obs s])) (S (length thrs)) = true) as E1
    by (rewrite app_length; cbn [length]; apply Nat.eqb_eq; lia).
  assert (firstn (length thrs) (lines ++ [t_final_obs s]) = lines) as E2
    by (rewrite <- LL, firstn_app, Nat.sub_diag, firstn_all; cbn [firstn]; apply app_nil_r).
  assert (nth (length thrs) (lines ++ [t_final_obs s]) [] = t_final_obs s) as E3
    by (rewrite app_nth2 by lia; rewrite LL, Nat.sub_diag; reflexivity).
  assert ((zlen (t_items s) =? a_size (areplay thrs (a_init limit (length thrs)) tr)) &&
          zlist_eqb' (map it_v (t_items s) ++ map (fun b => it_v (fst b)) (t_blocked s))
                     (map fst (a_fifo (areplay thrs (a_init limit (length thrs)) tr))) = true) as E4.
  { rewrite (a_size_eq _ _ _ _ SIM), Z.eqb_refl. cbn [andb]. rewrite (os_fifo _ _ _ _ SIM), map_app, !map_map.
    apply zlist_eqb'_refl. }
  destruct (t_stuck (t_dead s) (t_thr s) 0) as [|x st] eqn:ST.
  - cbn [app]. rewrite take_trace_app; [|exact F|destruct (lines ++ [t_final_obs s]); [exact I|exact HH]].
    rewrite SS0, E1, E2, E3. cbn [andb]. unfold t_final_obs at 1.
    fold lines in ST. unfold lines. rewrite <- ST. rewrite (threads_ok_holds lim thrs s _ SIM O thrs 0 (fun j t0 H => H)). cbn [andb]. exact E4.
  - cbn [app]. rewrite take_trace_app; [|exact F|apply not_trace_777].
    cbn [split_stuck]. rewrite E1, E2, E3. cbn [andb]. unfold t_final_obs at 1.
    unfold lines. rewrite <- ST. rewrite (threads_ok_holds lim thrs s _ SIM O thrs 0 (fun j t0 H => H)). cbn [andb]. exact E4.
Qed.
