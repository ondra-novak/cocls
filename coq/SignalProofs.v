(* SignalProofs.v — invariants and theorems about the signal model (SignalDefs.v): one description per function that runs
   listeners, over the composable relation co_eff; one analysis of the single transitions (step0_shape, step0_op_eff) and
   the run invariants on it (allocation balance, uniq, exactly once); the CAS subscribe loop against the collector's
   exchange (cs_thread, cs_run); Section Reawait (a listener that only re-awaits misses no value); hook-up; hold then release. *)
(* for cnt and its lemmas only *)
From Cocls Require Import Base BaseProofs SignalXProofs SignalDefs.
Local Open Scope Z_scope.

Definition cbs (w : list (nat * bool)) : list nat := map fst (filter (fun p => snd p) w).
Definition cos (w : list (nat * bool)) : list nat := map fst (filter (fun p => negb (snd p)) w).

Definition deliv (e : ev) : list (nat * Z) :=
  match e with ERecv i v => [(i, v)] | ECall i v => [(i, v)] | _ => [] end.
Definition delivs (l : list ev) : list (nat * Z) := flat_map deliv l.

Definition freed (e : ev) : list nat := match e with EFree i => [i] | _ => [] end.
Definition freeds (l : list ev) : list nat := flat_map freed l.

Definition is_cb_ev (e : ev) : bool := match e with ECall _ _ | EFree _ | ETerm _ => true | _ => false end.
Definition co_evs (l : list ev) : list ev := filter (fun e => negb (is_cb_ev e)) l.

(* the log of a coroutine that awaits a disconnected emitter with r retries left *)
Fixpoint dead_await (r : nat) (i : nat) : list ev :=
  EAwait i :: ECancel i r :: match r with O => [EFin i] | S r' => dead_await r' i end.
(* ... and of one that is resumed from its wait by the disconnect *)
Definition dead_resumed (r : nat) (i : nat) : list ev := tl (dead_await r i).

(* order in which the coroutines of a suspend point run: array order from ordinary code, last first when awaited *)
Definition sp_order (awaited : bool) (l : list nat) : list nat :=
  if awaited then match l with [] => [] | _ => last l O :: removelast l end else l.

Definition cids (c : list (nat * bool)) : list nat := map fst c.
Definition cq (s : st) : list nat := cids (chain s) ++ cids (queue s).
Definition ids (s : st) : list nat := cq s ++ concat (held s).

Lemma delivs_app a b : delivs (a ++ b) = delivs a ++ delivs b.
Proof. unfold delivs. apply flat_map_app. Qed.
Lemma freeds_app a b : freeds (a ++ b) = freeds a ++ freeds b.
Proof. unfold freeds. apply flat_map_app. Qed.
Lemma co_evs_app a b : co_evs (a ++ b) = co_evs a ++ co_evs b.
Proof. unfold co_evs. apply filter_app. Qed.

Lemma cbs_app a b : cbs (a ++ b) = cbs a ++ cbs b.
Proof. unfold cbs. rewrite filter_app, map_app. reflexivity. Qed.
Lemma cos_app a b : cos (a ++ b) = cos a ++ cos b.
Proof. unfold cos. rewrite filter_app, map_app. reflexivity. Qed.
Lemma cbs_cons_t i t : cbs ((i, true) :: t) = i :: cbs t. Proof. reflexivity. Qed.
Lemma cbs_cons_f i t : cbs ((i, false) :: t) = cbs t. Proof. reflexivity. Qed.
Lemma cos_cons_t i t : cos ((i, true) :: t) = cos t. Proof. reflexivity. Qed.
Lemma cos_cons_f i t : cos ((i, false) :: t) = i :: cos t. Proof. reflexivity. Qed.
Lemma cids_app a b : cids (a ++ b) = cids a ++ cids b. Proof. apply map_app. Qed.
Lemma cids_ready_items sp : cids (ready_items sp) = sp.
Proof. unfold cids, ready_items. rewrite map_map. apply map_id. Qed.

Lemma cbs_cos_cnt c x : (cnt x (cbs c) + cnt x (cos c) = cnt x (cids c))%nat.
Proof.
  induction c as [|[i b] t IH]; [reflexivity|].
  change (cids ((i, b) :: t)) with (i :: cids t). rewrite (cnt_cons x i (cids t)).
  destruct b.
  - rewrite cbs_cons_t, cos_cons_t, (cnt_cons x i (cbs t)). lia.
  - rewrite cbs_cons_f, cos_cons_f, (cnt_cons x i (cos t)). lia.
Qed.

Lemma sp_order_cnt b l x : cnt x (sp_order b l) = cnt x l.
Proof.
  destruct b, l as [|a t]; try reflexivity.
  assert (NE : a :: t <> []) by discriminate.
  change (cnt x (last (a :: t) 0%nat :: removelast (a :: t)) = cnt x (a :: t)).
  rewrite (cnt_cons x (last (a :: t) 0%nat) (removelast (a :: t))).
  rewrite (app_removelast_last 0%nat NE) at 3. rewrite cnt_app. lia.
Qed.

Definition quiet_ev (e : ev) : bool := match e with EAwait _ | ECancel _ _ | EFin _ => true | _ => false end.

Lemma quiet_log e : forallb quiet_ev e = true -> delivs e = [] /\ freeds e = [] /\ co_evs e = e.
Proof.
  induction e as [|x e IH]; [repeat split|]. cbn [forallb]. intros H. apply andb_prop in H. destruct H as (X & H).
  destruct (IH H) as (D & F & C). unfold co_evs in *. destruct x; try discriminate; cbn; rewrite ?C; auto.
Qed.

Lemma dead_await_quiet r i : forallb quiet_ev (dead_await r i) = true.
Proof. induction r; cbn; auto. Qed.
Lemma dead_resumed_quiet r i : forallb quiet_ev (dead_resumed r i) = true.
Proof. pose proof (dead_await_quiet r i) as H. destruct r; exact H. Qed.

Arguments frees : simpl never.
Lemma frees_app a b : frees (a ++ b) = frees a + frees b.
Proof. unfold frees. rewrite filter_app. apply zlen_app. Qed.
Lemma frees_freeds e : frees e = zlen (freeds e).
Proof.
  unfold frees, freeds, zlen. induction e as [|x e IH]; [reflexivity|].
  cbn [filter flat_map]. destruct x; cbn [is_free freed app length]; lia.
Qed.
Lemma freeds_map_free l : freeds (map EFree l) = l.
Proof. induction l as [|x t IH]; cbn; [reflexivity|]. f_equal. exact IH. Qed.
Lemma delivs_map_free l : delivs (map EFree l) = [].
Proof. induction l as [|x t IH]; cbn; [reflexivity|]. exact IH. Qed.
Lemma co_evs_map_free l : co_evs (map EFree l) = [].
Proof. induction l as [|x t IH]; cbn; [reflexivity|]. exact IH. Qed.

(* fields that only the driver changes *)
Definition same_val (s s' : st) : Prop :=
  strong s' = strong s /\ cur s' = cur s /\ owned s' = owned s /\ ext s' = ext s /\
  m_coro s' = m_coro s /\ m_void s' = m_void s /\ held s' = held s.

Lemma same_val_refl s : same_val s s. Proof. repeat split. Qed.
Lemma same_val_trans a b c : same_val a b -> same_val b c -> same_val a c.
Proof. unfold same_val. intros (?&?&?&?&?&?&?) (?&?&?&?&?&?&?). repeat split; congruence. Qed.
Lemma same_val_setl s i l : same_val s (setl s i l). Proof. repeat split. Qed.
Lemma same_val_subscribe s i b : same_val s (subscribe s i b). Proof. repeat split. Qed.
Lemma same_val_set_queue s q : same_val s (set_queue s q). Proof. repeat split. Qed.
Lemma same_val_set_chain s q : same_val s (set_chain s q). Proof. repeat split. Qed.

Lemma sv_strong s s' : same_val s s' -> strong s' = strong s. Proof. intros H. apply H. Qed.
Lemma sv_coro s s' : same_val s s' -> m_coro s' = m_coro s. Proof. intros H. apply H. Qed.
Lemma sv_void s s' : same_val s s' -> m_void s' = m_void s. Proof. intros H. apply H. Qed.
Lemma sv_held s s' : same_val s s' -> held s' = held s. Proof. intros H. apply H. Qed.
Lemma same_val_alive s s' : same_val s s' -> alive s' = alive s.
Proof. intros H. unfold alive. rewrite (sv_strong _ _ H). reflexivity. Qed.
Lemma same_val_ar s s' : same_val s s' -> await_resume s' = await_resume s.
Proof.
  intros H. pose proof (same_val_alive _ _ H) as A. destruct H as (H1&H2&H3&H4&H5&H6&H7).
  unfold await_resume, deref. rewrite A, H2, H3, H4, H6. reflexivity.
Qed.

Lemma ar_alive s v : await_resume s = Some v -> alive s = true.
Proof. unfold await_resume. destruct (alive s); [reflexivity|discriminate]. Qed.
Lemma dead_ar s : alive s = false -> await_resume s = None.
Proof. unfold await_resume. intros ->. reflexivity. Qed.

Lemma getl_setl_same s i l : getl (setl s i l) i = l.
Proof. unfold getl, setl, set_tab; cbn [tab]. rewrite get_put_same. reflexivity. Qed.
Lemma getl_setl_other s i j l : i <> j -> getl (setl s i l) j = getl s j.
Proof. intros N. unfold getl, setl, set_tab; cbn [tab]. rewrite get_put_other by exact N. reflexivity. Qed.

Definition known (s : st) (i : nat) : Prop := get (tab s) i <> None.
Definition tab_ext (s s' : st) : Prop := forall i, known s i ->
  known s' i /\ l_limit (getl s' i) = l_limit (getl s i) /\ l_pause (getl s' i) = l_pause (getl s i).

Lemma tab_ext_refl s : tab_ext s s. Proof. intros i K. auto. Qed.
Lemma tab_ext_trans a b c : tab_ext a b -> tab_ext b c -> tab_ext a c.
Proof.
  intros H1 H2 i K. destruct (H1 i K) as (K1 & L1 & P1). destruct (H2 i K1) as (K2 & L2 & P2).
  split; [exact K2|]. split; congruence.
Qed.
Lemma known_setl s i l : known (setl s i l) i.
Proof. unfold known, setl, set_tab. cbn [tab]. rewrite get_put_same. discriminate. Qed.
Lemma tab_ext_setl s i l :
  (known s i -> l_limit l = l_limit (getl s i) /\ l_pause l = l_pause (getl s i)) -> tab_ext s (setl s i l).
Proof.
  intros H j K. destruct (Nat.eq_dec i j) as [<-|N].
  - rewrite getl_setl_same. split; [apply known_setl|exact (H K)].
  - rewrite getl_setl_other by exact N. split; [|split; reflexivity].
    unfold known, setl, set_tab in *. cbn [tab]. rewrite get_put_other by exact N. exact K.
Qed.

Definition co_grow (c c' : list (nat * bool)) : Prop := exists d, c' = d ++ c /\ cbs d = [].
Lemma co_grow_refl c : co_grow c c. Proof. exists []. split; reflexivity. Qed.
Lemma co_grow_trans a b c : co_grow a b -> co_grow b c -> co_grow a c.
Proof. intros (d1&E1&C1) (d2&E2&C2). exists (d2 ++ d1). subst. rewrite app_assoc. split; [reflexivity|]. rewrite cbs_app, C1, C2. reflexivity. Qed.
Lemma co_grow_cons c i : co_grow c ((i, false) :: c).
Proof. exists [(i, false)]. split; reflexivity. Qed.
Lemma co_grow_cbs c c' : co_grow c c' -> cbs c' = cbs c.
Proof. intros (d&E&C). subst. rewrite cbs_app, C. reflexivity. Qed.
Lemma co_grow_in c c' (x : nat * bool) : co_grow c c' -> In x c -> In x c'.
Proof. intros (d & -> & _) I. apply in_or_app. right. exact I. Qed.

(* what code that runs the coroutines `given` to it can do to the state *)
Definition co_eff (given : list nat) (s s' : st) : Prop :=
  same_val s s' /\ tab_ext s s' /\ co_grow (chain s) (chain s') /\ (alive s = false -> chain s' = chain s) /\
  forall x, (cnt x (cq s') <= cnt x given + cnt x (cq s))%nat.

Lemma co_eff_refl s : co_eff [] s s.
Proof.
  split; [apply same_val_refl|]. split; [apply tab_ext_refl|]. split; [apply co_grow_refl|]. split; [reflexivity|]. intros x. lia.
Qed.
Lemma co_eff_weaken g g' s s' : (forall x, (cnt x g <= cnt x g')%nat) -> co_eff g s s' -> co_eff g' s s'.
Proof. intros H (V & T & G & D & C). repeat (split; [assumption|]). intros x. specialize (H x). specialize (C x). lia. Qed.
Lemma co_eff_nil g s s' : co_eff [] s s' -> co_eff g s s'.
Proof. apply co_eff_weaken. intros x. rewrite cnt_nil. lia. Qed.
Lemma co_eff_trans g1 g2 a b c : co_eff g1 a b -> co_eff g2 b c -> co_eff (g1 ++ g2) a c.
Proof.
  intros (V1 & T1 & G1 & D1 & C1) (V2 & T2 & G2 & D2 & C2).
  split; [exact (same_val_trans _ _ _ V1 V2)|]. split; [exact (tab_ext_trans _ _ _ T1 T2)|].
  split; [exact (co_grow_trans _ _ _ G1 G2)|]. split.
  - intros A. rewrite D2, D1; [reflexivity|exact A|]. rewrite (same_val_alive _ _ V1). exact A.
  - intros x. specialize (C1 x). specialize (C2 x). rewrite cnt_app. lia.
Qed.
Lemma co_eff_setl s i l : l_limit l = l_limit (getl s i) -> l_pause l = l_pause (getl s i) -> co_eff [] s (setl s i l).
Proof.
  intros L P. split; [apply same_val_setl|]. split; [apply tab_ext_setl; auto|]. split; [apply co_grow_refl|]. split; [reflexivity|].
  intros x. change (cq (setl s i l)) with (cq s). lia.
Qed.
Lemma co_eff_subscribe s i : alive s = true -> co_eff [i] s (subscribe s i false).
Proof.
  intros A. split; [apply same_val_subscribe|]. split; [exact (tab_ext_refl s)|]. split; [apply co_grow_cons|]. split; [congruence|].
  intros x. unfold cq. change (cids (chain (subscribe s i false))) with (i :: cids (chain s)).
  rewrite !cnt_app, (cnt_cons x i). change (queue (subscribe s i false)) with (queue s). lia.
Qed.
Lemma co_eff_enqueue s q : co_eff (cids q) s (set_queue s (queue s ++ q)).
Proof.
  split; [apply same_val_set_queue|]. split; [exact (tab_ext_refl s)|]. split; [apply co_grow_refl|]. split; [reflexivity|].
  intros x. unfold cq. cbn [chain queue set_queue]. rewrite cids_app, !cnt_app. lia.
Qed.
Lemma co_eff_take_queue g s s' : co_eff (cids (queue s) ++ g) (set_queue s []) s' -> co_eff g s s'.
Proof.
  intros (V & T & G & D & C). refine (conj V (conj T (conj G (conj D _)))).
  intros x. specialize (C x). unfold cq in *. cbn [chain queue set_queue] in C. change (cids []) with (@nil nat) in C.
  rewrite !cnt_app in *. rewrite cnt_nil in C. lia.
Qed.

Lemma co_await_e_alive r i s : alive s = true -> co_await_e r i s = (subscribe s i false, [EAwait i]).
Proof. intros A. destruct r; cbn [co_await_e]; rewrite A; reflexivity. Qed.

Lemma co_await_e_dead r : forall i s, alive s = false ->
  exists s', co_await_e r i s = (s', dead_await r i) /\ co_eff [] s s' /\ queue s' = queue s.
Proof.
  induction r as [|r IH]; intros i s A; cbn [co_await_e dead_await]; rewrite A.
  - exists s. split; [reflexivity|]. split; [apply co_eff_refl|reflexivity].
  - set (s1 := setl s i _). assert (P1 : co_eff [] s s1) by (apply co_eff_setl; reflexivity).
    destruct (IH i s1 A) as (s' & E & P & Q). rewrite E. exists s'.
    split; [reflexivity|]. split; [exact (co_eff_trans [] [] _ _ _ P1 P)|exact Q].
Qed.

Lemma co_await_e_spec r i s s' e : co_await_e r i s = (s', e) ->
  co_eff [i] s s' /\ queue s' = queue s /\ delivs e = [] /\ freeds e = [] /\ (alive s = false -> e = dead_await r i).
Proof.
  intros E. destruct (alive s) eqn:A.
  - rewrite (co_await_e_alive _ _ _ A) in E. inversion E; subst.
    split; [exact (co_eff_subscribe _ _ A)|]. repeat split. discriminate.
  - destruct (co_await_e_dead r i s A) as (s2 & E2 & P & Q). rewrite E2 in E. inversion E; subst.
    destruct (quiet_log _ (dead_await_quiet r i)) as (D & F & _).
    split; [exact (co_eff_nil _ _ _ P)|]. repeat split; assumption.
Qed.

(* p: the script reached its pause; then the coroutine is nowhere yet *)
Lemma co_resumed_spec i s s' e p : co_resumed i s = (s', e, p) ->
  co_eff (if p then [] else [i]) s s' /\ queue s' = queue s /\ freeds e = [] /\
  delivs e = match await_resume s with Some v => [(i, v)] | None => [] end /\
  (alive s = false -> p = false /\ e = dead_resumed (l_retry (getl s i)) i).
Proof.
  intros E. unfold co_resumed in E.
  destruct (await_resume s) as [v|] eqn:AR.
  - set (s1 := setl s i _) in E. assert (P1 : co_eff [] s s1) by (apply co_eff_setl; reflexivity).
    assert (ND : alive s = false -> p = false /\ e = dead_resumed (l_retry (getl s i)) i).
    { intros A. rewrite (dead_ar _ A) in AR. discriminate. }
    destruct (negb (Nat.eqb (l_limit (getl s i)) 0) && _).
    + inversion E; subst. split; [exact (co_eff_nil _ _ _ P1)|]. split; [reflexivity|]. split; [reflexivity|]. split; [reflexivity|exact ND].
    + destruct (l_pause (getl s i)).
      * inversion E; subst. split; [exact P1|]. split; [reflexivity|]. split; [reflexivity|]. split; [reflexivity|exact ND].
      * destruct (co_await_e _ i s1) as [s2 e2] eqn:E2. inversion E; subst.
        destruct (co_await_e_spec _ _ _ _ _ E2) as (P2 & Q2 & D2 & F2 & _).
        split; [exact (co_eff_trans [] [i] _ _ _ P1 P2)|]. split; [exact Q2|]. split; [exact F2|]. split; [|exact ND].
        change (delivs (ERecv i v :: e2)) with ((i, v) :: delivs e2). rewrite D2. reflexivity.
  - destruct (l_retry (getl s i)) as [|r'].
    + inversion E; subst. split; [exact (co_eff_nil _ _ _ (co_eff_refl _))|]. split; [reflexivity|]. split; [reflexivity|].
      split; [reflexivity|]. intros _. split; reflexivity.
    + set (s1 := setl s i _) in E. assert (P1 : co_eff [] s s1) by (apply co_eff_setl; reflexivity).
      destruct (co_await_e r' i s1) as [s2 e2] eqn:E2. inversion E; subst.
      destruct (co_await_e_spec _ _ _ _ _ E2) as (P2 & Q2 & D2 & F2 & Dd).
      split; [exact (co_eff_trans [] [i] _ _ _ P1 P2)|]. split; [exact Q2|]. split; [exact F2|].
      split; [exact D2|]. intros A. split; [reflexivity|]. rewrite (Dd A). reflexivity.
Qed.

Definition not_ready (q : list (nat * bool)) : Prop := forall it, In it q -> snd it = false.

Lemma not_ready_nil : not_ready []. Proof. intros ? []. Qed.
Lemma not_ready_app a b : not_ready a -> not_ready b -> not_ready (a ++ b).
Proof. intros Ha Hb it I. apply in_app_or in I. destruct I; auto. Qed.

(* the function cbs; on handles the flag means "ready" *)
Definition readies (items : list (nat * bool)) : list nat := map fst (filter (fun p => snd p) items).

Lemma readies_ready_items sp : readies (ready_items sp) = sp.
Proof. unfold readies, ready_items. induction sp as [|x t IH]; cbn; [reflexivity|]. f_equal. exact IH. Qed.
Lemma readies_app a b : readies (a ++ b) = readies a ++ readies b.
Proof. exact (cbs_app a b). Qed.
Lemma readies_not_ready q : not_ready q -> readies q = [].
Proof.
  unfold readies. induction q as [|[i r] t IH]; intros N; [reflexivity|].
  cbn [filter snd]. pose proof (N (i, r) (or_introl eq_refl)) as H. cbn in H. subst r.
  apply IH. intros it I. apply N. right. exact I.
Qed.

(* the log of a list of queued / collected coroutines that all find the state gone:
   one cancel script each, in order, nothing else *)
Inductive cancel_log : list (nat * bool) -> list ev -> Prop :=
| cl_nil : cancel_log [] []
| cl_cons : forall i (ready : bool) r t e, cancel_log t e ->
    cancel_log ((i, ready) :: t) ((if ready then dead_resumed r i else dead_await r i) ++ e).

Lemma cancel_log_quiet items e : cancel_log items e -> forallb quiet_ev e = true.
Proof.
  induction 1 as [|i ready r t e H IH]; [reflexivity|]. rewrite forallb_app, IH.
  destruct ready; [rewrite dead_resumed_quiet|rewrite dead_await_quiet]; reflexivity.
Qed.

Lemma run_item_spec inl it s s' e : run_item inl it s = (s', e) ->
  co_eff [fst it] s s' /\ freeds e = [] /\
  (exists q, queue s' = queue s ++ q /\ not_ready q /\ (snd it = false \/ alive s = false -> q = [])) /\
  delivs e = (if snd it then match await_resume s with Some v => [(fst it, v)] | None => [] end else []) /\
  (alive s = false -> exists r, e = if snd it then dead_resumed r (fst it) else dead_await r (fst it)).
Proof.
  intros E. destruct it as [i ready]. cbn [fst snd]. unfold run_item in E.
  assert (Q0 : forall s2, queue s2 = queue s ->
            exists q, queue s2 = queue s ++ q /\ not_ready q /\ (ready = false \/ alive s = false -> q = [])).
  { intros s2 Q. exists []. rewrite app_nil_r. split; [exact Q|]. split; [apply not_ready_nil|reflexivity]. }
  destruct ready.
  - destruct (co_resumed i s) as [[s1 e1] p] eqn:E1.
    destruct (co_resumed_spec _ _ _ _ _ E1) as (P1 & Q1 & F1 & L1 & D1).
    destruct p.
    + assert (ND : alive s = false -> False) by (intros A; destruct (D1 A); discriminate).
      destruct inl.
      * destruct (co_await_e _ i s1) as [s2 e2] eqn:E2. inversion E; subst.
        destruct (co_await_e_spec _ _ _ _ _ E2) as (P2 & Q2 & D2 & F2 & _).
        split; [exact (co_eff_trans [] [i] _ _ _ P1 P2)|]. split; [rewrite freeds_app, F1, F2; reflexivity|].
        split; [apply Q0; congruence|]. split; [|intros A; destruct (ND A)].
        rewrite delivs_app, L1, D2. apply app_nil_r.
      * inversion E; subst. split; [exact (co_eff_trans [] [i] _ _ _ P1 (co_eff_enqueue s1 [(i, false)]))|].
        split; [exact F1|]. split; [|split; [exact L1|intros A; destruct (ND A)]].
        exists [(i, false)]. cbn [queue set_queue]. rewrite Q1. split; [reflexivity|].
        split; [intros it [<-|[]]; reflexivity|]. intros [H|A]; [discriminate|destruct (ND A)].
    + inversion E; subst. split; [exact P1|]. split; [exact F1|]. split; [exact (Q0 _ Q1)|]. split; [exact L1|].
      intros A. exists (l_retry (getl s i)). apply D1, A.
  - destruct (co_await_e_spec _ _ _ _ _ E) as (P & Q & D & F & Dd).
    split; [exact P|]. split; [exact F|]. split; [exact (Q0 _ Q)|]. split; [exact D|].
    intros A. eexists. exact (Dd A).
Qed.

Lemma drive_spec inl items : forall s s' e, drive inl items s = (s', e) ->
  co_eff (cids items) s s' /\ freeds e = [] /\
  (exists q, queue s' = queue s ++ q /\ not_ready q /\ (not_ready items \/ alive s = false -> q = [])) /\
  delivs e = match await_resume s with Some v => map (fun i => (i, v)) (readies items) | None => [] end /\
  (alive s = false -> cancel_log items e).
Proof.
  induction items as [|it t IH]; intros s s' e E; cbn [drive] in E.
  - inversion E; subst. split; [apply co_eff_refl|]. split; [reflexivity|].
    split; [exists []; rewrite app_nil_r; split; [reflexivity|]; split; [apply not_ready_nil|reflexivity]|].
    split; [destruct (await_resume _); reflexivity|]. intros _. constructor.
  - destruct (run_item inl it s) as [s1 e1] eqn:E1. destruct (drive inl t s1) as [s2 e2] eqn:E2. inversion E; subst.
    destruct (run_item_spec _ _ _ _ _ E1) as (P1 & F1 & (q1 & Q1 & N1 & Z1) & L1 & D1).
    destruct (IH _ _ _ E2) as (P2 & F2 & (q2 & Q2 & N2 & Z2) & L2 & D2).
    pose proof (same_val_alive _ _ (proj1 P1)) as A1.
    split; [exact (co_eff_trans [fst it] (cids t) _ _ _ P1 P2)|]. split; [rewrite freeds_app, F1, F2; reflexivity|].
    split; [|split].
    + exists (q1 ++ q2). rewrite Q2, Q1, app_assoc. split; [reflexivity|]. split; [apply not_ready_app; assumption|].
      intros H. rewrite Z1, Z2; [reflexivity| |].
      * destruct H as [N|A]; [left; intros x I; apply N; right; exact I|right; rewrite A1; exact A].
      * destruct H as [N|A]; [left; apply N; left; reflexivity|right; exact A].
    + rewrite delivs_app, L1, L2, (same_val_ar _ _ (proj1 P1)). destruct (await_resume s), it as [i []]; reflexivity.
    + intros A. destruct (D1 A) as (r & ->). destruct it as [i ready]. constructor. apply D2. rewrite A1. exact A.
Qed.

Lemma cb_resume_dead i s : alive s = false -> cb_resume i s = (s, [EFree i]).
Proof. intros A. unfold cb_resume. rewrite A. reflexivity. Qed.

Lemma cb_resume_live i s v : await_resume s = Some v ->
  forall s' e, cb_resume i s = (s', e) ->
  same_val s s' /\ tab_ext s s' /\ queue s' = queue s /\ delivs e = [(i, v)] /\
  ((chain s' = (i, true) :: chain s /\ freeds e = []) \/ (chain s' = chain s /\ freeds e = [i])).
Proof.
  intros AR s' e E. unfold cb_resume in E. rewrite (ar_alive _ _ AR), AR in E. cbn [negb] in E.
  assert (T : tab_ext s (setl s i (mkLis (l_limit (getl s i)) (l_pause (getl s i)) (l_retry (getl s i)) (S (l_cnt (getl s i))))))
    by (apply tab_ext_setl; auto).
  destruct (Nat.eqb (l_limit (getl s i)) 0 || _); inversion E; subst; (split; [repeat split|]); (split; [exact T|]); repeat split.
  - left. split; reflexivity.
  - right. split; reflexivity.
Qed.

Lemma walk_live w : forall s v, await_resume s = Some v ->
  forall s' e sp, walk w s = (s', e, sp) ->
  same_val s s' /\ tab_ext s s' /\ queue s' = queue s /\ sp = cos w /\
  delivs e = map (fun i => (i, v)) (cbs w) /\
  exists d, chain s' = d ++ chain s /\ cos d = [] /\ Permutation (cbs d ++ freeds e) (cbs w).
Proof.
  induction w as [|[i cb] t IH]; intros s v AR s' e sp E; cbn [walk] in E.
  - inversion E; subst. split; [apply same_val_refl|]. split; [apply tab_ext_refl|]. repeat split. exists []. repeat split. constructor.
  - destruct cb.
    + destruct (cb_resume i s) as [s1 e1] eqn:E1. destruct (walk t s1) as [[s2 e2] sp2] eqn:E2. inversion E; subst.
      destruct (cb_resume_live _ _ _ AR _ _ E1) as (V1 & T1 & Q1 & D1 & C1).
      assert (AR1 : await_resume s1 = Some v) by (rewrite (same_val_ar _ _ V1); exact AR).
      destruct (IH _ _ AR1 _ _ _ E2) as (V2 & T2 & Q2 & SP & D2 & (d & Cd & Cod & Pm)).
      split; [exact (same_val_trans _ _ _ V1 V2)|]. split; [exact (tab_ext_trans _ _ _ T1 T2)|]. split; [congruence|].
      split; [exact SP|]. split; [rewrite delivs_app, D1, D2; reflexivity|].
      rewrite freeds_app, cbs_cons_t.
      destruct C1 as [(C1 & F1)|(C1 & F1)]; rewrite F1.
      * exists (d ++ [(i, true)]). rewrite Cd, C1, <- app_assoc. split; [reflexivity|]. split; [rewrite cos_app, Cod; reflexivity|].
        rewrite cbs_app, <- app_assoc. apply Permutation_sym, Permutation_cons_app, Permutation_sym. exact Pm.
      * exists d. rewrite Cd, C1. split; [reflexivity|]. split; [exact Cod|].
        apply Permutation_sym, Permutation_cons_app, Permutation_sym. exact Pm.
    + destruct (walk t s) as [[s2 e2] sp2] eqn:E2. inversion E; subst.
      destruct (IH _ _ AR _ _ _ E2) as (V2 & T2 & Q2 & SP & D2 & Ex).
      repeat (split; [assumption|]). split; [rewrite SP; reflexivity|]. split; assumption.
Qed.

Lemma walk_dead w : forall s, alive s = false -> walk w s = (s, map EFree (cbs w), cos w).
Proof.
  induction w as [|[i cb] t IH]; intros s A; cbn [walk]; [reflexivity|].
  destruct cb.
  - rewrite (cb_resume_dead _ _ A), (IH _ A). reflexivity.
  - rewrite (IH _ A). reflexivity.
Qed.

Lemma dispose_spec awaited sp s s' e : dispose awaited sp s = (s', e) ->
  co_eff sp s s' /\ freeds e = [] /\
  (m_coro s = false \/ awaited = true -> not_ready (queue s) ->
   not_ready (queue s') /\
   delivs e = match await_resume s with Some v => map (fun i => (i, v)) (sp_order (m_coro s) sp) | None => [] end).
Proof.
  intros E. unfold dispose in E. destruct (m_coro s) eqn:MC; cbn [negb] in E.
  - destruct awaited; cbn [negb] in E.
    + destruct sp as [|a t].
      * inversion E; subst. split; [apply co_eff_refl|]. split; [reflexivity|]. intros _ N. split; [exact N|destruct (await_resume _); reflexivity].
      * destruct (drive_spec _ _ _ _ _ E) as (P & F & (q & Q & NQ & _) & L & _).
        split; [|split; [exact F|]].
        { apply co_eff_take_queue. refine (co_eff_weaken _ _ _ _ _ P). intros x.
          change (cids ((last (a :: t) 0%nat, true) :: queue s ++ ready_items (removelast (a :: t))))
            with (last (a :: t) 0%nat :: cids (queue s ++ ready_items (removelast (a :: t)))).
          rewrite (cnt_cons x (last (a :: t) 0%nat)), cids_app, cids_ready_items, !cnt_app.
          pose proof (sp_order_cnt true (a :: t) x) as H. cbn [sp_order] in H.
          rewrite (cnt_cons x (last (a :: t) 0%nat)) in H. lia. }
        intros _ N. split; [rewrite Q; exact NQ|]. rewrite L. change (await_resume (set_queue s [])) with (await_resume s).
        destruct (await_resume s); [f_equal|reflexivity].
        change (readies ((last (a :: t) 0%nat, true) :: queue s ++ ready_items (removelast (a :: t))))
          with (last (a :: t) 0%nat :: readies (queue s ++ ready_items (removelast (a :: t)))).
        rewrite readies_app, (readies_not_ready _ N), readies_ready_items. reflexivity.
    + inversion E; subst. split; [rewrite <- (cids_ready_items sp) at 1; apply co_eff_enqueue|]. split; [reflexivity|].
      intros [M|M]; discriminate.
  - destruct (drive_spec _ _ _ _ _ E) as (P & F & (q & Q & NQ & _) & L & _). rewrite cids_ready_items in P.
    split; [exact P|]. split; [exact F|]. intros _ N. split; [rewrite Q; apply not_ready_app; assumption|].
    rewrite L, readies_ready_items. reflexivity.
Qed.

Definition emitted (s : st) (v : Z) : Z := if m_void s then 0 else v.

(* collector::operator() points the state at the value: the caller's variable (kind 2) or its own storage *)
Definition val_upd (s : st) (kind : nat) (v : Z) : st :=
  if Nat.eqb kind 2 then set_val s VExt (owned s) v else set_val s VOwned (Some v) (ext s).

Lemma val_upd_set_val s kind v : exists p o x, val_upd s kind v = set_val s p o x.
Proof. unfold val_upd. destruct (Nat.eqb kind 2); eexists _, _, _; reflexivity. Qed.

Lemma emit_ar s kind v c : alive s = true -> await_resume (set_chain (val_upd s kind v) c) = Some (emitted s v).
Proof.
  intros A. unfold alive in A. unfold await_resume, emitted, deref, alive, val_upd.
  destruct (Nat.eqb kind 2); cbn [set_chain set_val strong cur owned ext m_void];
    rewrite A; destruct (m_void s); reflexivity.
Qed.

Definition ncb (s : st) : Z := zlen (cbs (chain s)).   (* callback objects alive = callbacks in the chain *)

Lemma emit_notify s kind v s2 e1 sp : alive s = true ->
  notify (val_upd s kind v) = (s2, e1, sp) ->
  await_resume s2 = Some (emitted s v) /\
  strong s2 = strong s /\ m_coro s2 = m_coro s /\ m_void s2 = m_void s /\ held s2 = held s /\
  tab_ext s s2 /\ queue s2 = queue s /\
  sp = cos (chain s) /\ delivs e1 = map (fun i => (i, emitted s v)) (cbs (chain s)) /\
  incl (freeds e1) (cbs (chain s)) /\ ncb s2 = ncb s - frees e1 /\
  forall y, (cnt y (cids (chain s2)) + cnt y sp <= cnt y (cids (chain s)))%nat.
Proof.
  intros A W. pose proof (emit_ar s kind v [] A) as AR. unfold notify in W.
  destruct (walk_live _ _ _ AR _ _ _ W) as (V & T & Q & SP & D & (d & Cd & Cod & Pm)).
  split; [rewrite (same_val_ar _ _ V); exact AR|].
  destruct (val_upd_set_val s kind v) as (p & o & x & EQ). rewrite EQ in V, T, Q, SP, D, Cd, Pm.
  cbn [chain set_chain set_val] in SP, D, Cd, Pm. rewrite app_nil_r in Cd.
  destruct V as (V1 & _ & _ & _ & V5 & V6 & V7).
  refine (conj V1 (conj V5 (conj V6 (conj V7 (conj T (conj Q (conj SP (conj D (conj _ (conj _ _)))))))))).
  - intros y I. apply (Permutation_in _ Pm), in_or_app. right. exact I.
  - unfold ncb. rewrite Cd, frees_freeds. apply Permutation_length in Pm. rewrite app_length in Pm. unfold zlen. lia.
  - intros y. pose proof (cbs_cos_cnt d y) as Bd. pose proof (cbs_cos_cnt (chain s) y) as B. pose proof (cnt_perm y _ _ Pm) as Py.
    rewrite Cod, cnt_nil in Bd. rewrite cnt_app in Py. rewrite Cd, SP. lia.
Qed.

Definition new_ids (s : st) (x : op) : list nat :=
  match x with
  | OSpawn i _ _ _ | OConnect i _ => match get (tab s) i with None => [i] | Some _ => [] end
  | _ => []
  end.

Lemma new_ids_fresh s x j : In j (new_ids s x) -> new_ids s x = [j] /\ get (tab s) j = None.
Proof.
  destruct x; cbn [new_ids]; try (intros []; fail);
    (destruct (get (tab s) i) eqn:G; [intros []|intros [<-|[]]; split; [reflexivity|exact G]]).
Qed.

Lemma drop_last_shape s s' o : strong s = 1%nat -> step0 s ODrop = (s', o) ->
  let s1 := set_chain (set_val (set_strong s 0) VNull (owned s) (ext s)) [] in
  exists s3 e2, dispose false (cos (chain s)) s1 = (s3, e2) /\
    s' = set_val s3 VNull None (ext s3) /\
    o = mkObs 0 0 0 (frees (map EFree (cbs (chain s)) ++ e2)) (map EFree (cbs (chain s)) ++ e2).
Proof.
  intros S1 E. cbn [step0] in E. rewrite S1 in E. unfold notify in E.
  change (chain (set_val (set_strong s 0) VNull (owned s) (ext s))) with (chain s) in E.
  rewrite (walk_dead (chain s) (set_chain (set_val (set_strong s 0) VNull (owned s) (ext s)) []) eq_refl) in E.
  cbn zeta. destruct (dispose false (cos (chain s)) _) as [s3 e2] eqn:D. inversion E; subst.
  exists s3, e2. repeat split.
Qed.

Definition accepted (s : st) (x : op) (s' : st) (o : obs) : Prop :=
  match x with
  | OSpawn i l p r =>
      get (tab s) i = None /\ exists e, co_await_e r i (setl s i (mkLis l p r 0)) = (s', e) /\ o = mkObs 0 0 0 0 e
  | OConnect i l =>
      get (tab s) i = None /\
      if alive s then s' = subscribe (setl s i (mkLis l false 0 0)) i true /\ o = mkObs 0 0 1 0 []
      else s' = setl s i (mkLis l false 0 0) /\ o = mkObs 0 0 1 1 [EFree i]
  | OEmit kind awaited v =>
      alive s = true /\ exists s2 e1 sp e2,
        notify (val_upd s kind v) = (s2, e1, sp) /\ dispose awaited sp s2 = (s', e2) /\
        o = mkObs 0 (zlen sp) 0 (frees (e1 ++ e2)) (e1 ++ e2)
  | OCopy => alive s = true /\ s' = set_strong s (S (strong s)) /\ o = mkObs 0 0 0 0 []
  | ODrop =>
      match strong s with
      | O => False
      | S O =>
          let s1 := set_chain (set_val (set_strong s 0) VNull (owned s) (ext s)) [] in
          exists s3 e2, dispose false (cos (chain s)) s1 = (s3, e2) /\
            s' = set_val s3 VNull None (ext s3) /\
            o = mkObs 0 0 0 (frees (map EFree (cbs (chain s)) ++ e2)) (map EFree (cbs (chain s)) ++ e2)
      | S (S k) => s' = set_strong s (S k) /\ o = mkObs 0 0 0 0 []
      end
  | OPause => m_coro s = true /\ exists e, drive false (queue s) (set_queue s []) = (s', e) /\ o = mkObs 0 0 0 (frees e) e
  | OEmitHold kind v =>
      alive s = true /\ exists s2 e1 sp,
        notify (val_upd s kind v) = (s2, e1, sp) /\ s' = set_held s2 (held s2 ++ [sp]) /\ o = mkObs 0 (zlen sp) 0 (frees e1) e1
  | ORelease =>
      exists sp rest e, held s = sp :: rest /\ dispose false sp (set_held s rest) = (s', e) /\ o = mkObs 0 0 0 (frees e) e
  | OAwaitHeld =>
      m_coro s = true /\
      exists sp rest e, held s = sp :: rest /\ dispose true sp (set_held s rest) = (s', e) /\ o = mkObs 0 0 0 (frees e) e
  | OHookUp _ _ _ _ _ _ | OBad => False
  end.

Lemma step0_shape s x s' o : step0 s x = (s', o) ->
  (s' = s /\ o = rejected /\ new_ids s x = []) \/ accepted s x s' o.
Proof.
  intros E. pose proof E as E0. destruct x; cbn [step0] in E; cbn [accepted new_ids].
  - destruct (get (tab s) i); [inversion E; left; auto|]. right. split; [reflexivity|].
    destruct (co_await_e retry i _) as [s2 e]. inversion E. exists e. auto.
  - destruct (get (tab s) i); [inversion E; left; auto|]. right. split; [reflexivity|]. destruct (alive s) eqn:A.
    + inversion E. auto.
    + rewrite cb_resume_dead in E by exact A. inversion E. auto.
  - destruct (negb (alive s)) eqn:R1; cbn [orb] in E; [inversion E; left; auto|].
    destruct (_ || _ || _); [inversion E; left; auto|]. right.
    apply negb_false_iff in R1. split; [exact R1|]. fold (val_upd s kind v) in E.
    destruct (notify _) as [[s2 e1] sp]. destruct (dispose awaited sp s2) as [s3 e2] eqn:D. inversion E; subst.
    exists s2, e1, sp, e2. auto.
  - destruct (alive s); inversion E; [right|left]; auto.
  - destruct (strong s) as [|[|k]] eqn:St; [inversion E; left; auto|right|inversion E; right; auto].
    exact (drop_last_shape _ _ _ St E0).
  - destruct (m_coro s); cbn [negb] in E; [|inversion E; left; auto]. right. split; [reflexivity|].
    destruct (drive false (queue s) (set_queue s [])) as [s1 e]. inversion E. exists e. auto.
  - destruct (negb (alive s)) eqn:R1; cbn [orb] in E; [inversion E; left; auto|].
    destruct (_ || _); [inversion E; left; auto|]. right.
    apply negb_false_iff in R1. split; [exact R1|]. fold (val_upd s kind v) in E.
    destruct (notify _) as [[s2 e1] sp]. inversion E. exists s2, e1, sp. auto.
  - destruct (held s) as [|sp rest]; [inversion E; left; auto|]. right.
    destruct (dispose false sp (set_held s rest)) as [s1 e] eqn:D. inversion E; subst. exists sp, rest, e. auto.
  - destruct (m_coro s); cbn [negb] in E; [|inversion E; left; auto].
    destruct (held s) as [|sp rest]; [inversion E; left; auto|]. right. split; [reflexivity|].
    destruct (dispose true sp (set_held s rest)) as [s1 e] eqn:D. inversion E; subst. exists sp, rest, e. auto.
  - inversion E. left. auto.
  - inversion E. left. auto.
Qed.

Theorem broadcast : forall s kind awaited v s' o,
  step s (OEmit kind awaited v) = (s', o) -> o_st o = 0 ->
  (m_coro s = false \/ awaited = true) -> not_ready (queue s) ->
  delivs (o_ev o) = map (fun i => (i, emitted s v)) (cbs (chain s) ++ sp_order (m_coro s) (cos (chain s)))
  /\ o_ret o = zlen (cos (chain s))
  /\ not_ready (queue s')
  /\ incl (freeds (o_ev o)) (cbs (chain s)).
Proof.
  intros s kind awaited v s' o E O M N.
  destruct (step0_shape _ _ _ _ E) as [(_ & -> & _)|(A & s2 & e1 & sp & e2 & W & D & ->)]; [discriminate|].
  cbn [o_ev o_ret].
  destruct (emit_notify _ _ _ _ _ _ A W) as (AR2 & _ & MC & _ & _ & _ & Q & SP & D1 & Inc & _).
  destruct (dispose_spec _ _ _ _ _ D) as (_ & F2 & L). rewrite MC, Q in L. destruct (L M N) as (N3 & D2).
  split; [rewrite delivs_app, D1, D2, AR2, map_app, SP; reflexivity|]. split; [rewrite SP; reflexivity|]. split; [exact N3|].
  rewrite freeds_app, F2, app_nil_r. exact Inc.
Qed.

Theorem disconnect : forall s s' o, strong s = 1%nat -> step s ODrop = (s', o) ->
  o_st o = 0 /\ strong s' = 0%nat /\ chain s' = [] /\
  freeds (o_ev o) = cbs (chain s) /\ delivs (o_ev o) = [] /\
  (m_coro s = false -> cancel_log (ready_items (cos (chain s))) (co_evs (o_ev o)) /\ queue s' = queue s) /\
  (m_coro s = true -> co_evs (o_ev o) = [] /\ queue s' = queue s ++ ready_items (cos (chain s))).
Proof.
  intros s s' o S1 E. destruct (drop_last_shape _ _ _ S1 E) as (s3 & e2 & D & -> & ->).
  cbn [o_st o_ev]. unfold dispose in D. cbn [m_coro set_chain set_val set_strong] in D.
  set (s1 := set_chain (set_val (set_strong s 0) VNull (owned s) (ext s)) []) in *.
  assert (A1 : alive s1 = false) by reflexivity.
  destruct (m_coro s) eqn:MC; cbn [negb] in D.
  - inversion D; subst. cbn [strong chain queue set_val set_queue s1 set_chain set_strong].
    rewrite app_nil_r, freeds_map_free, delivs_map_free, co_evs_map_free.
    repeat split; try discriminate; reflexivity.
  - destruct (drive_spec _ _ _ _ _ D) as ((V & _ & _ & C & _) & _ & (q & Q & _ & Z) & _ & CL).
    specialize (CL A1). rewrite (Z (or_intror A1)), app_nil_r in Q.
    destruct (quiet_log _ (cancel_log_quiet _ _ CL)) as (D4 & F4 & CE4).
    cbn [strong chain queue set_val].
    rewrite freeds_app, delivs_app, co_evs_app, freeds_map_free, delivs_map_free, co_evs_map_free, D4, F4, CE4, app_nil_r.
    rewrite (sv_strong _ _ V), (C A1), Q.
    repeat split; try discriminate; try reflexivity. exact CL.
Qed.

(* queued coroutines (driver is a coroutine) get their cancel when the driver next suspends *)
Theorem disconnect_queued : forall s s' o, strong s = 0%nat -> m_coro s = true -> step s OPause = (s', o) ->
  cancel_log (queue s) (o_ev o) /\ queue s' = [] /\ chain s' = chain s /\ strong s' = 0%nat.
Proof.
  intros s s' o S0 MC E. cbn [step step0] in E. rewrite MC in E. cbn [negb] in E.
  assert (A : alive (set_queue s []) = false) by (unfold alive; cbn [strong set_queue]; rewrite S0; reflexivity).
  destruct (drive false (queue s) (set_queue s [])) as [s1 e1] eqn:E1. inversion E; subst. cbn [o_ev].
  destruct (drive_spec _ _ _ _ _ E1) as ((V & _ & _ & C & _) & _ & (q & Q & _ & Z) & _ & CL).
  rewrite (Z (or_intror A)) in Q.
  split; [exact (CL A)|]. split; [exact Q|]. split; [exact (C A)|]. rewrite (sv_strong _ _ V). exact S0.
Qed.

Theorem await_disconnected : forall s i lim p r s' o, strong s = 0%nat -> get (tab s) i = None ->
  step s (OSpawn i lim p r) = (s', o) ->
  o_st o = 0 /\ o_ev o = dead_await r i /\ chain s' = chain s /\ queue s' = queue s /\ strong s' = 0%nat.
Proof.
  intros s i lim p r s' o S0 G E. cbn [step step0] in E. rewrite G in E.
  set (s1 := setl s i _) in E.
  assert (A : alive s1 = false) by (unfold alive; cbn [strong s1 setl set_tab]; rewrite S0; reflexivity).
  destruct (co_await_e_dead r i s1 A) as (s2 & E2 & (V & _ & _ & C & _) & Q). rewrite E2 in E. inversion E; subst.
  cbn [o_st o_ev]. rewrite (C A), Q, (sv_strong _ _ V). repeat split. exact S0.
Qed.

Theorem connect_disconnected : forall s i lim s' o, strong s = 0%nat -> get (tab s) i = None ->
  step s (OConnect i lim) = (s', o) ->
  o_ev o = [EFree i] /\ o_new o = 1 /\ o_del o = 1 /\ chain s' = chain s /\ queue s' = queue s.
Proof.
  intros s i lim s' o S0 G E. cbn [step step0] in E. rewrite G in E.
  assert (A : alive s = false) by (unfold alive; rewrite S0; reflexivity). rewrite A in E.
  rewrite cb_resume_dead in E by exact A. inversion E; subst. repeat split.
Qed.

(* once the state is gone nothing is ever subscribed again *)
Definition dead_ok (s : st) : Prop := strong s = 0%nat -> chain s = [].

(* g: the ids the transition may place on top; n: the change of the number of callback objects *)
Definition step_eff (g : list nat) (s s' : st) (n : Z) : Prop :=
  m_coro s' = m_coro s /\ tab_ext s s' /\
  (forall y, (cnt y (ids s') <= cnt y g + cnt y (ids s))%nat) /\
  ncb s' = ncb s + n /\ (dead_ok s -> dead_ok s').

(* n = news - deletes *)
Definition op_eff (s : st) (x : op) (s' : st) (n : Z) : Prop :=
  step_eff (new_ids s x) s s' n /\ (forall i, In i (new_ids s x) -> known s' i) /\
  (held s' = held s \/ held s' = tl (held s) \/ exists k v, x = OEmitHold k v).

Lemma co_eff_step_eff g s s' : co_eff g s s' -> step_eff g s s' 0 /\ held s' = held s.
Proof.
  intros (V & T & G & D & C). split; [|exact (sv_held _ _ V)].
  split; [exact (sv_coro _ _ V)|]. split; [exact T|]. split; [|split].
  - intros y. specialize (C y). unfold ids. rewrite (sv_held _ _ V), !cnt_app. lia.
  - unfold ncb. rewrite (co_grow_cbs _ _ G). lia.
  - intros OK S'. rewrite (sv_strong _ _ V) in S'. rewrite D; [exact (OK S')|]. unfold alive. rewrite S'. reflexivity.
Qed.

Lemma frees_quiet e : freeds e = [] -> 0 - frees e = 0.
Proof. intros F. rewrite frees_freeds, F. reflexivity. Qed.

Lemma step0_op_eff s x s' o : step0 s x = (s', o) -> op_eff s x s' (o_new o - o_del o).
Proof.
  intros E. destruct (step0_shape _ _ _ _ E) as [(-> & -> & R)|A].
  { unfold op_eff. rewrite R. split; [exact (proj1 (co_eff_step_eff _ _ _ (co_eff_refl s)))|]. split; [intros ? []|left; reflexivity]. }
  assert (Rel : forall a sp rest e, new_ids s x = [] -> held s = sp :: rest -> dispose a sp (set_held s rest) = (s', e) ->
            op_eff s x s' (0 - frees e)).
  { unfold op_eff. intros a sp rest e -> HS D. destruct (dispose_spec _ _ _ _ _ D) as (P & F & _).
    destruct (co_eff_step_eff _ _ _ P) as ((MC & T & I & N & OK) & H). rewrite (frees_quiet _ F).
    split; [|split; [intros ? []|right; left; rewrite H, HS; reflexivity]].
    refine (conj MC (conj T (conj _ (conj N OK)))).
    intros y. specialize (I y). unfold ids, cq in *. rewrite HS. cbn [chain queue held set_held concat] in *.
    rewrite !cnt_app in *. rewrite cnt_nil. lia. }
  assert (Str : forall k, new_ids s x = [] -> op_eff s x (set_strong s (S k)) (0 - 0)).
  { unfold op_eff. intros k ->. split; [|split; [intros ? []|left; reflexivity]]. split; [reflexivity|]. split; [exact (tab_ext_refl s)|].
    split; [intros y; change (ids (set_strong s (S k))) with (ids s); lia|].
    split; [change (ncb (set_strong s (S k))) with (ncb s); lia|]. intros _ S'. discriminate. }
  destruct x; cbn [accepted] in A; try (destruct A; fail); unfold op_eff; cbn [new_ids].
  - (* spawn *) destruct A as (G & e & E2 & ->). rewrite G. set (s1 := setl s i _) in E2.
    assert (T0 : tab_ext s s1) by (apply tab_ext_setl; intros K; destruct (K G)).
    destruct (co_await_e_spec _ _ _ _ _ E2) as (P & _).
    destruct (co_eff_step_eff _ _ _ P) as ((MC & T & I & N & OK) & H).
    split; [exact (conj MC (conj (tab_ext_trans _ _ _ T0 T) (conj I (conj N OK))))|].
    split; [intros j [<-|[]]; apply (T i), known_setl|left; exact H].
  - (* connect *) destruct A as (G & A). rewrite G. set (s1 := setl s i _) in A.
    assert (T0 : tab_ext s s1) by (apply tab_ext_setl; intros K; destruct (K G)).
    destruct (alive s) eqn:AL; destruct A as (-> & ->); (split; [|split; [intros j [<-|[]]; apply known_setl|left; reflexivity]]);
      (split; [reflexivity|]); (split; [exact T0|]); (split; [|split]).
    + intros y. unfold ids, cq. cbn [chain queue held subscribe set_chain s1 setl set_tab].
      change (cids ((i, true) :: chain s)) with (i :: cids (chain s)). rewrite !cnt_app, (cnt_cons y i). lia.
    + unfold ncb. cbn [chain subscribe set_chain s1 setl set_tab o_new o_del]. rewrite cbs_cons_t, zlen_cons. lia.
    + intros _ S'. unfold alive in AL. change (strong s = 0%nat) in S'. rewrite S' in AL. discriminate.
    + intros y. change (ids s1) with (ids s). lia.
    + change (ncb s1) with (ncb s). cbn [o_new o_del]. lia.
    + exact (fun H => H).
  - (* emit *) destruct A as (A & s2 & e1 & sp & e2 & W & D & ->).
    destruct (emit_notify _ _ _ _ _ _ A W) as (_ & S2 & MC2 & _ & H2 & T2 & Q2 & _ & _ & _ & N2 & I2).
    destruct (dispose_spec _ _ _ _ _ D) as (P & F & _).
    destruct (co_eff_step_eff _ _ _ P) as ((MC & T & I & N & _) & H).
    cbn [o_new o_del]. split; [|split; [intros ? []|left; congruence]].
    split; [congruence|]. split; [exact (tab_ext_trans _ _ _ T2 T)|]. split; [|split].
    + intros y. specialize (I y). specialize (I2 y). unfold ids, cq in *. rewrite H2, Q2 in I. rewrite !cnt_app in *. rewrite cnt_nil. lia.
    + rewrite N, N2, frees_app, (frees_freeds e2), F. change (zlen []) with 0. lia.
    + intros _ S'. destruct P as (V & _). rewrite (sv_strong _ _ V), S2 in S'. unfold alive in A. rewrite S' in A. discriminate.
  - (* copy *) destruct A as (_ & -> & ->). apply Str. reflexivity.
  - (* drop *) destruct (strong s) as [|[|k]] eqn:St; [destruct A| |destruct A as (-> & ->); apply Str; reflexivity].
    destruct A as (s3 & e2 & D & -> & ->).
    destruct (dispose_spec _ _ _ _ _ D) as (P & F & _).
    destruct (co_eff_step_eff _ _ _ P) as ((MC & T & I & N & _) & H). destruct P as (V & _ & _ & C & _).
    cbn [o_new o_del]. split; [|split; [intros ? []|left; exact H]].
    split; [exact MC|]. split; [exact T|]. split; [|split].
    + intros y. specialize (I y). pose proof (cbs_cos_cnt (chain s) y) as B.
      unfold ids, cq in *. cbn [chain queue held set_val set_chain set_strong] in *. change (cids []) with (@nil nat) in I.
      rewrite !cnt_app in *. rewrite cnt_nil in *. lia.
    + change (ncb (set_val s3 VNull None (ext s3))) with (ncb s3). rewrite N, frees_app, (frees_freeds e2), F, frees_freeds, freeds_map_free.
      unfold ncb. cbn [chain set_chain cbs filter map]. unfold zlen. cbn [length]. lia.
    + intros _ _. cbn [chain set_val]. rewrite (C eq_refl). reflexivity.
  - (* pause *) destruct A as (_ & e & E1 & ->).
    destruct (drive_spec _ _ _ _ _ E1) as (P & F & _). rewrite <- (app_nil_r (cids (queue s))) in P. apply co_eff_take_queue in P.
    destruct (co_eff_step_eff _ _ _ P) as (R & H). cbn [o_new o_del]. rewrite (frees_quiet _ F).
    split; [exact R|]. split; [intros ? []|left; exact H].
  - (* hold *) destruct A as (A & s2 & e1 & sp & W & -> & ->).
    destruct (emit_notify _ _ _ _ _ _ A W) as (_ & S2 & MC2 & _ & H2 & T2 & Q2 & _ & _ & _ & N2 & I2).
    cbn [o_new o_del]. split; [|split; [intros ? []|right; right; eexists _, _; reflexivity]].
    split; [exact MC2|]. split; [exact T2|]. split; [|split].
    + intros y. specialize (I2 y). unfold ids, cq. cbn [chain queue held set_held].
      rewrite H2, Q2, concat_app. cbn [concat]. rewrite app_nil_r, !cnt_app, cnt_nil. lia.
    + change (ncb (set_held s2 (held s2 ++ [sp]))) with (ncb s2). lia.
    + intros _ S'. change (strong s2 = 0%nat) in S'. rewrite S2 in S'. unfold alive in A. rewrite S' in A. discriminate.
  - (* release *) destruct A as (sp & rest & e & HS & D & ->). exact (Rel _ _ _ _ eq_refl HS D).
  - (* await held *) destruct A as (_ & sp & rest & e & HS & D & ->). exact (Rel _ _ _ _ eq_refl HS D).
Qed.

(* the observation of a spawn never counts allocations; a drop never allocates *)
Lemma spawn_obs s i l p r s' o : step0 s (OSpawn i l p r) = (s', o) -> o_new o = 0 /\ o_del o = 0.
Proof. intros E. destruct (step0_shape _ _ _ _ E) as [(_ & -> & _)|(_ & e & _ & ->)]; split; reflexivity. Qed.
Lemma drop_obs s s' o : step0 s ODrop = (s', o) -> o_new o = 0.
Proof.
  intros E. destruct (step0_shape _ _ _ _ E) as [(_ & -> & _)|A]; [reflexivity|]. cbn [accepted] in A.
  destruct (strong s) as [|[|k]]; [destruct A|destruct A as (s3 & e2 & _ & _ & ->)|destruct A as (_ & ->)]; reflexivity.
Qed.

(* every step is a composition of single transitions (the hook-up step of several), whose allocation counts add up *)
Lemma step_as_run0 s x s' o : step s x = (s', o) ->
  exists l os, run0 s l = (s', os) /\ o_new o = osum o_new os /\ o_del o = osum o_del os.
Proof.
  intros E.
  assert (G : forall y, step0 s y = (s', o) -> exists l os, run0 s l = (s', os) /\ o_new o = osum o_new os /\ o_del o = osum o_del os).
  { intros y E0. exists [y], [o]. cbn [run0 osum]. rewrite E0. repeat split; lia. }
  destruct x; try (apply (G _ E)).
  cbn [step] in E. destruct (step0 s (OSpawn i limit pause retry)) as [s1 o1] eqn:E1.
  destruct (negb (o_st o1 =? 0)).
  - inversion E; subst. apply (G _ E1).
  - destruct (run0 s1 (hook_tail keep emits)) as [s2 os] eqn:E2. inversion E; subst s' o.
    exists (OSpawn i limit pause retry :: hook_tail keep emits), (o1 :: os). cbn [run0]. rewrite E1, E2. repeat split.
Qed.

Section Invariant.
Variable P : st -> Prop.
Hypothesis P_step0 : forall s x s' o, step0 s x = (s', o) -> P s -> P s'.

Lemma run0_inv l : forall s s' os, run0 s l = (s', os) -> P s -> P s'.
Proof.
  induction l as [|x t IH]; intros s s' os E H; cbn [run0] in E.
  - inversion E; subst. exact H.
  - destruct (step0 s x) as [s1 o] eqn:E1. destruct (run0 s1 t) as [s2 os2] eqn:E2. inversion E; subst.
    exact (IH _ _ _ E2 (P_step0 _ _ _ _ E1 H)).
Qed.
Lemma step_inv s x s' o : step s x = (s', o) -> P s -> P s'.
Proof. intros E. destruct (step_as_run0 _ _ _ _ E) as (l & os & R & _). exact (run0_inv _ _ _ _ R). Qed.
Lemma run_from_inv ops : forall s, P s -> P (snd (run_from s ops)).
Proof.
  induction ops as [|x t IH]; intros s H; cbn [run_from]; [exact H|].
  destruct (step s x) as [s1 o] eqn:E. specialize (IH s1 (step_inv _ _ _ _ E H)).
  destruct (run_from s1 t) as [os s2]. exact IH.
Qed.
End Invariant.

Lemma run0_balance l : forall s s' os, run0 s l = (s', os) -> ncb s' = ncb s + osum o_new os - osum o_del os.
Proof.
  induction l as [|x t IH]; intros s s' os E; cbn [run0] in E.
  - inversion E; subst. cbn [osum]. lia.
  - destruct (step0 s x) as [s1 o] eqn:E1. destruct (run0 s1 t) as [s2 os2] eqn:E2. inversion E; subst.
    destruct (step0_op_eff _ _ _ _ E1) as ((_ & _ & _ & N & _) & _). rewrite (IH _ _ _ E2), N. cbn [osum]. lia.
Qed.

Lemma step_balance s x s' o : step s x = (s', o) -> ncb s' = ncb s + o_new o - o_del o.
Proof.
  intros E. destruct (step_as_run0 _ _ _ _ E) as (l & os & R & N & D). rewrite N, D. exact (run0_balance _ _ _ _ R).
Qed.

(* the sums osum o_new, osum o_del of SignalDefs written out again; the statements use these *)
Fixpoint sum_new (l : list obs) : Z := match l with [] => 0 | o :: t => o_new o + sum_new t end.
Fixpoint sum_del (l : list obs) : Z := match l with [] => 0 | o :: t => o_del o + sum_del t end.

Lemma balance_run ops : forall s, let r := run_from s ops in
  ncb (snd r) = ncb s + sum_new (fst r) - sum_del (fst r).
Proof.
  induction ops as [|x t IH]; intros s; cbn [run_from]; [cbn; lia|].
  destruct (step s x) as [s1 o] eqn:E. specialize (IH s1). cbn zeta in IH.
  destruct (run_from s1 t) as [os s2]. cbn [fst snd sum_new sum_del] in *.
  rewrite IH, (step_balance _ _ _ _ E). lia.
Qed.

Theorem alloc_balance s ops : dead_ok s -> let r := run_from s ops in
  ncb (snd r) = ncb s + sum_new (fst r) - sum_del (fst r) /\ dead_ok (snd r).
Proof.
  intros OK r. split; [apply balance_run|]. apply (run_from_inv dead_ok); [|exact OK].
  intros a x b o E. apply (step0_op_eff _ _ _ _ E).
Qed.

Definition cs_inv (c : cs) : Prop := Permutation (concat (c_rounds c) ++ c_head c) (published c).

Lemma published_set_nth l : forall j x y, nth_error l j = Some x -> spub x = false -> sid y = sid x ->
  map sid (set_nth l j y) = map sid l /\
  Permutation (map sid (filter spub (set_nth l j y))) ((if spub y then [sid x] else []) ++ map sid (filter spub l)).
Proof.
  induction l as [|h t IH]; intros j x y N P S; destruct j; cbn in N; try discriminate.
  - inversion N; subst h. cbn [set_nth map filter]. rewrite P, S. split; [reflexivity|]. destruct (spub y); cbn [map app]; rewrite ?S; apply Permutation_refl.
  - destruct (IH _ _ _ N P S) as (M & Pm). cbn [set_nth map filter]. rewrite M. split; [reflexivity|].
    destruct (spub h); cbn [map]; [|exact Pm]. apply Permutation_cons_app. exact Pm.
Qed.

Lemma cs_thread_inv c j : cs_inv c -> cs_inv (cs_thread c j) /\ map sid (c_subs (cs_thread c j)) = map sid (c_subs c).
Proof.
  intros I. unfold cs_thread. destruct (nth_error (c_subs c) j) as [x|] eqn:N.
  - destruct (spub x) eqn:P; [split; [exact I|reflexivity]|].
    destruct (oeq (sexp x) (head_id (c_head c))).
    + destruct (published_set_nth _ _ _ (mkSub (sid x) (sexp x) true) N P eq_refl) as (M & Pm). split; [|exact M].
      unfold cs_inv, published in *. cbn [c_rounds c_head c_subs]. apply Permutation_sym, (Permutation_trans Pm).
      apply (Permutation_cons_app (concat (c_rounds c)) (c_head c)), Permutation_sym, I.
    + destruct (published_set_nth _ _ _ (mkSub (sid x) (head_id (c_head c)) false) N P eq_refl) as (M & Pm). split; [|exact M].
      exact (Permutation_trans I (Permutation_sym Pm)).
  - destruct (c_left c); [split; [exact I|reflexivity]|]. split; [|reflexivity].
    unfold cs_inv, published in *. cbn [c_rounds c_head c_subs]. rewrite concat_app. cbn [concat]. rewrite !app_nil_r. exact I.
Qed.

Lemma cs_run_inv sched : forall c, cs_inv c -> cs_inv (cs_run c sched) /\ map sid (c_subs (cs_run c sched)) = map sid (c_subs c).
Proof.
  induction sched as [|k t IH]; intros c I; cbn [cs_run fold_left]; [split; [exact I|reflexivity]|].
  assert (S : cs_inv (cs_step c k) /\ map sid (c_subs (cs_step c k)) = map sid (c_subs c)).
  { unfold cs_step. destruct (enabled c); [split; [exact I|reflexivity]|]. apply cs_thread_inv. exact I. }
  destruct S as (I1 & M1). destruct (IH _ I1) as (I2 & M2). split; [exact I2|]. unfold cs_run in M2. rewrite M2. exact M1.
Qed.

Lemma NoDup_filter_map (l : list sub) : NoDup (map sid l) -> NoDup (map sid (filter spub l)).
Proof.
  induction l as [|x t IH]; cbn [map filter]; intros H; [constructor|].
  inversion H as [|? ? NI ND]; subst. destruct (spub x); cbn [map]; [|apply IH; exact ND].
  constructor; [|apply IH; exact ND]. intros I. apply NI. apply in_map_iff in I. destruct I as (y & E & F).
  apply filter_In in F. apply in_map_iff. exists y. split; [exact E|apply F].
Qed.

(* whatever the schedule, the rounds taken by the collector and the chain hold exactly the subscribers whose CAS
   succeeded, each once *)
Theorem subscribe_rounds c sched : cs_inv c -> NoDup (map sid (c_subs c)) ->
  let c' := cs_run c sched in
  Permutation (concat (c_rounds c') ++ c_head c') (published c') /\
  NoDup (concat (c_rounds c') ++ c_head c') /\
  incl (published c') (map sid (c_subs c)).
Proof.
  intros I0 ND c'. destruct (cs_run_inv sched _ I0) as (I & M). fold c' in I, M. rewrite <- M in *.
  split; [exact I|]. split; [exact (Permutation_NoDup (Permutation_sym I) (NoDup_filter_map _ ND))|].
  apply incl_map, incl_filter.
Qed.

Lemma cs0_inv ids k : cs_inv (cs0 ids k).
Proof.
  unfold cs_inv, published, cs0. cbn [c_rounds c_head c_subs concat app].
  induction ids as [|a t IH]; cbn [map filter spub]; [constructor|exact IH].
Qed.
Lemma cs0_sids ids k : map sid (c_subs (cs0 ids k)) = ids.
Proof. unfold cs0. cbn [c_subs]. rewrite map_map. apply map_id. Qed.

(* the first attempt of the CAS loop succeeds or loads the current head; then the second succeeds *)
Lemma cs_two_attempts c j x : nth_error (c_subs c) j = Some x -> spub x = false ->
  exists y, nth_error (c_subs (cs_thread (cs_thread c j) j)) j = Some y /\ spub y = true /\ sid y = sid x.
Proof.
  intros N P. unfold cs_thread at 2. rewrite N, P.
  assert (L : (j < length (c_subs c))%nat) by (apply nth_error_Some; rewrite N; discriminate).
  destruct (oeq (sexp x) (head_id (c_head c))) eqn:O.
  - unfold cs_thread. cbn [c_subs]. rewrite nth_error_set_nth_same by exact L. cbn [spub].
    cbn [c_subs]. rewrite nth_error_set_nth_same by exact L. eexists. split; [reflexivity|]. split; reflexivity.
  - unfold cs_thread. cbn [c_subs c_head]. rewrite nth_error_set_nth_same by exact L. cbn [spub sexp].
    assert (R : oeq (head_id (c_head c)) (head_id (c_head c)) = true).
    { destruct (head_id (c_head c)); cbn; [apply Nat.eqb_refl|reflexivity]. }
    rewrite R. cbn [c_subs]. rewrite nth_error_set_nth_same by (rewrite set_nth_length; exact L).
    eexists. split; [reflexivity|]. split; reflexivity.
Qed.

(* resumed with a value, a coroutine whose script is `for(;;) co_await e;` (no limit, no pause) logs the value and is
   back in the chain — at its head — before its resumption ends, i.e. before any other code (the collector
   included) can run; its script parameters are unchanged, so the same holds at the next value *)
Theorem reawait_rejoins : forall s g v, await_resume s = Some v ->
  l_limit (getl s g) = O -> l_pause (getl s g) = false ->
  exists s', co_resumed g s = (s', [ERecv g v; EAwait g], false) /\
     chain s' = (g, false) :: chain s /\ queue s' = queue s /\ same_val s s' /\
     l_limit (getl s' g) = O /\ l_pause (getl s' g) = false /\
     (forall inl, run_item inl (g, true) s = (s', [ERecv g v; EAwait g])).
Proof.
  intros s g v AR L P. pose proof (ar_alive _ _ AR) as A.
  set (s1 := setl s g (mkLis O false (l_retry (getl s g)) (S (l_cnt (getl s g))))).
  assert (E : co_resumed g s = (subscribe s1 g false, [ERecv g v; EAwait g], false)).
  { unfold co_resumed. rewrite AR, L, P. cbn [Nat.eqb negb andb]. rewrite co_await_e_alive by exact A. reflexivity. }
  eexists. split; [exact E|]. split; [reflexivity|]. split; [reflexivity|]. split; [repeat split|].
  change (getl (subscribe s1 g false) g) with (getl s1 g). unfold s1. rewrite getl_setl_same.
  split; [reflexivity|]. split; [reflexivity|].
  intros inl. unfold run_item. rewrite E. reflexivity.
Qed.

Section Reawait.
Variable g : nat.

(* g's script is `for(;;) co_await e;` *)
Definition reawaits (s : st) : Prop := known s g /\ l_limit (getl s g) = O /\ l_pause (getl s g) = false.

Lemma reawaits_ext s s' : tab_ext s s' -> reawaits s -> reawaits s'.
Proof. intros T (K & L & P). destruct (T g K) as (K' & L' & P'). split; [exact K'|]. split; congruence. Qed.

Lemma in_cos_of c : In (g, false) c -> In g (cos c).
Proof.
  intros I. unfold cos. apply in_map_iff. exists (g, false). split; [reflexivity|]. apply filter_In. split; [exact I|reflexivity].
Qed.
Lemma co_grow_in_cos c c' x : co_grow c c' -> In x (cos c) -> In x (cos c').
Proof. intros (d & -> & _) I. rewrite cos_app. apply in_or_app. right. exact I. Qed.
Lemma in_sp_order b l x : In x l -> In x (sp_order b l).
Proof. intros I. apply cnt_in. rewrite sp_order_cnt. apply cnt_in. exact I. Qed.

(* when g's handle is among the resumed ones, g is back in the chain when they all have run *)
Lemma drive_rejoins inl items : forall s v s' e, await_resume s = Some v -> reawaits s -> In (g, true) items ->
  drive inl items s = (s', e) -> In (g, false) (chain s').
Proof.
  induction items as [|it t IH]; intros s v s' e AR F I E; [destruct I|].
  cbn [drive] in E. destruct (run_item inl it s) as [s1 e1] eqn:E1. destruct (drive inl t s1) as [s2 e2] eqn:E2.
  inversion E; subst. destruct I as [->|I].
  - destruct F as (_ & L & P). destruct (reawait_rejoins s g v AR L P) as (sx & _ & C & _ & _ & _ & _ & R).
    rewrite (R inl) in E1. inversion E1; subst.
    destruct (drive_spec _ _ _ _ _ E2) as ((_ & _ & G & _) & _). apply (co_grow_in _ _ _ G). rewrite C. left. reflexivity.
  - destruct (run_item_spec _ _ _ _ _ E1) as ((V & T & _) & _).
    refine (IH _ v _ _ _ (reawaits_ext _ _ T F) I E2). rewrite (same_val_ar _ _ V). exact AR.
Qed.

Lemma dispose_rejoins awaited sp s v s' e : await_resume s = Some v -> reawaits s -> m_coro s = false \/ awaited = true ->
  In g sp -> dispose awaited sp s = (s', e) -> In (g, false) (chain s').
Proof.
  intros AR F M I E. assert (R : forall l, In g l -> In (g, true) (ready_items l)) by (intros l H; apply in_map_iff; exists g; auto).
  unfold dispose in E. destruct (m_coro s); cbn [negb] in E.
  - destruct M as [M| ->]; [discriminate|]. cbn [negb] in E. destruct sp as [|a t]; [destruct I|].
    refine (drive_rejoins _ _ (set_queue s []) v _ _ AR F _ E).
    apply (in_sp_order true) in I. destruct I as [<-|I]; [left; reflexivity|right; apply in_or_app; right; exact (R _ I)].
  - exact (drive_rejoins _ _ _ _ _ _ AR F (R _ I) E).
Qed.

Definition reawait_inv (coro : bool) (s : st) : Prop :=
  m_coro s = coro /\ held s = [] /\ reawaits s /\ (alive s = true -> In g (cos (chain s)) /\ not_ready (queue s)).

(* the ops of a disciplined driver (disc): it never discards the collector's result inside a coroutine *)
Definition disc_op (coro : bool) (x : op) : Prop :=
  match x with
  | OEmit _ awaited _ => coro = false \/ awaited = true
  | OEmitHold _ _ | OHookUp _ _ _ _ _ _ => False     (* nor keeps it in a variable; hook-up is a first op only *)
  | _ => True
  end.

Lemma step_reawait_inv coro s x s' o : step s x = (s', o) -> reawait_inv coro s -> disc_op coro x ->
  reawait_inv coro s' /\
  match x with OEmit _ _ v => o_st o = 0 -> In (g, emitted s v) (delivs (o_ev o)) | _ => True end.
Proof.
  intros E (MC & HN & F & I) D.
  assert (E0 : step0 s x = (s', o)) by (destruct x; try exact E; destruct D).
  destruct (step0_op_eff _ _ _ _ E0) as ((MC' & T & _) & _ & H).
  (* mode, kept suspend points and g's script are settled; what remains is g's place while the state is alive *)
  assert (R : (alive s' = true -> In g (cos (chain s')) /\ not_ready (queue s')) -> reawait_inv coro s').
  { intros J. split; [rewrite MC'; exact MC|]. split; [|split; [exact (reawaits_ext _ _ T F)|exact J]].
    destruct H as [H|[H|(k & v & ->)]]; [rewrite H; exact HN|rewrite H, HN; reflexivity|destruct D]. }
  destruct (step0_shape _ _ _ _ E0) as [(-> & -> & _)|A].
  { split; [apply R; exact I|]. destruct x; try exact Logic.I. discriminate. }
  destruct x; cbn [accepted] in A; try (destruct A; fail); try (destruct D; fail).
  - (* spawn *) destruct A as (_ & e & E2 & ->). split; [apply R|exact Logic.I].
    destruct (co_await_e_spec _ _ _ _ _ E2) as ((V & _ & G & _) & Q & _).
    intros A. rewrite (same_val_alive _ _ V) in A. destruct (I A) as (I1 & I2).
    split; [exact (co_grow_in_cos _ _ _ G I1)|rewrite Q; exact I2].
  - (* connect *) destruct A as (_ & A). split; [apply R|exact Logic.I].
    destruct (alive s) eqn:AL; destruct A as (-> & ->); [intros _; exact (I eq_refl)|].
    intros A'. change (alive s = true) in A'. congruence.
  - (* emit *) destruct A as (A & s2 & e1 & sp & e2 & W & Di & ->).
    cbn [disc_op] in D. rewrite <- MC in D. destruct (I A) as (I1 & I2).
    destruct (broadcast _ _ _ _ _ _ E eq_refl D I2) as (B1 & _ & B3 & _). split.
    + apply R. intros _. split; [|exact B3]. apply in_cos_of.
      destruct (emit_notify _ _ _ _ _ _ A W) as (AR2 & _ & MC2 & _ & _ & T2 & _ & SP & _).
      rewrite <- MC2 in D. rewrite <- SP in I1. exact (dispose_rejoins _ _ _ _ _ _ AR2 (reawaits_ext _ _ T2 F) D I1 Di).
    + intros _. rewrite B1. apply in_map_iff. exists g. split; [reflexivity|]. apply in_or_app. right. apply in_sp_order. exact I1.
  - (* copy *) destruct A as (AL & -> & ->). split; [apply R; intros _; exact (I AL)|exact Logic.I].
  - (* drop *) split; [apply R|exact Logic.I]. destruct (strong s) as [|[|k]] eqn:St; [destruct A| |destruct A as (-> & ->)].
    + destruct (disconnect _ _ _ St E) as (_ & S0 & _). intros A'. unfold alive in A'. rewrite S0 in A'. discriminate.
    + intros _. apply I. unfold alive. rewrite St. reflexivity.
  - (* pause *) destruct A as (_ & e & E1 & ->). split; [apply R|exact Logic.I].
    destruct (drive_spec _ _ _ _ _ E1) as ((V & _ & G & _) & _ & (q & Q & _ & Z) & _).
    intros A. rewrite (same_val_alive _ _ V) in A. destruct (I A) as (I1 & I2).
    split; [exact (co_grow_in_cos _ _ _ G I1)|]. rewrite Q, (Z (or_introl I2)). apply not_ready_nil.
  - (* release: nothing is kept *) destruct A as (sp & rest & e & HS & _). rewrite HN in HS. discriminate.
  - (* await held *) destruct A as (_ & sp & rest & e & HS & _). rewrite HN in HS. discriminate.
Qed.

Fixpoint none_missed (s : st) (ops : list op) : Prop :=
  match ops with
  | [] => True
  | x :: t =>
      let r := step s x in
      match x with OEmit _ _ v => o_st (snd r) = 0 -> In (g, emitted s v) (delivs (o_ev (snd r))) | _ => True end
      /\ none_missed (fst r) t
  end.

Lemma reawait_run coro ops : forall s, reawait_inv coro s -> Forall (disc_op coro) ops -> none_missed s ops.
Proof.
  induction ops as [|x t IH]; intros s R D; cbn [none_missed]; [exact Logic.I|].
  inversion D as [|? ? D1 D2]; subst.
  destruct (step s x) as [s1 o] eqn:E. destruct (step_reawait_inv _ _ _ _ _ E R D1) as (R1 & P).
  cbn [fst snd]. split; [destruct x; exact P|exact (IH _ R1 D2)].
Qed.

(* subscription establishes the invariant *)
Lemma spawn_reawait_inv s r s' o : alive s = true -> not_ready (queue s) -> held s = [] -> get (tab s) g = None ->
  step s (OSpawn g 0 false r) = (s', o) -> reawait_inv (m_coro s) s' /\ o_ev o = [EAwait g].
Proof.
  intros A N HN G E. cbn [step step0] in E. rewrite G in E.
  set (s1 := setl s g _) in E. assert (A1 : alive s1 = true) by exact A.
  rewrite (co_await_e_alive _ _ _ A1) in E. inversion E; subst. split; [|reflexivity].
  split; [reflexivity|]. split; [exact HN|]. split.
  - unfold reawaits. change (getl (subscribe s1 g false) g) with (getl s1 g). unfold s1. rewrite getl_setl_same.
    split; [apply known_setl|split; reflexivity].
  - intros _. split; [left; reflexivity|exact N].
Qed.
End Reawait.

(* the invariant: no id twice among chain, queue and kept suspend points, and every such id is in the table *)
Definition uniq (s : st) : Prop := NoDup (ids s) /\ forall i, In i (ids s) -> known s i.

Lemma step0_uniq s x s' o : step0 s x = (s', o) -> uniq s -> uniq s'.
Proof.
  intros E (ND & K). destruct (step0_op_eff _ _ _ _ E) as ((_ & T & I & _) & NK & _). split.
  - apply nodup_cnt. intros y. specialize (I y). rewrite nodup_cnt in ND. specialize (ND y).
    (* an id the op brings in is not in the table yet, so it is nowhere *)
    destruct (cnt y (new_ids s x)) eqn:C; [lia|].
    assert (N : In y (new_ids s x)) by (apply cnt_in; lia). destruct (new_ids_fresh _ _ _ N) as (EQ & G).
    rewrite EQ, cnt_self in C. destruct (cnt y (ids s)) eqn:C1; [lia|].
    exfalso. apply (K y); [apply cnt_in; lia|exact G].
  - intros i J. apply cnt_in in J. specialize (I i). destruct (cnt i (ids s)) eqn:C0.
    + apply NK, cnt_in. lia.
    + apply (T i), K, cnt_in. lia.
Qed.

Lemma uniq_st0 coro vd : uniq (st0 coro vd).
Proof. split; [constructor|intros i []]. Qed.

(* in a state without a repeated id, each listener waiting in the chain receives the value exactly once, nobody else anything *)
Theorem exactly_once_at s kind awaited v : NoDup (ids s) ->
  let r := step s (OEmit kind awaited v) in
  o_st (snd r) = 0 -> (m_coro s = false \/ awaited = true) -> not_ready (queue s) ->
  NoDup (delivs (o_ev (snd r))) /\
  (forall i w, In (i, w) (delivs (o_ev (snd r))) <-> In i (cids (chain s)) /\ w = emitted s v).
Proof.
  intros U r O M N. rewrite nodup_cnt in U.
  destruct r as [s' o] eqn:E. cbn [snd] in *.
  destruct (broadcast _ _ _ _ _ _ E O M N) as (B & _).
  (* the receivers, in delivery order, are the chain's ids rearranged *)
  assert (C : forall x, cnt x (cbs (chain s) ++ sp_order (m_coro s) (cos (chain s))) = cnt x (cids (chain s))).
  { intros x. rewrite cnt_app, sp_order_cnt. apply cbs_cos_cnt. }
  rewrite B. split.
  - apply FinFun.Injective_map_NoDup; [intros a b H; inversion H; reflexivity|].
    apply nodup_cnt. intros x. rewrite C. specialize (U x). unfold ids, cq in U. rewrite !cnt_app in U. lia.
  - intros i w. rewrite in_map_iff. split.
    + intros (j & H & I). inversion H; subst. split; [|reflexivity]. apply cnt_in. rewrite <- C. apply cnt_in. exact I.
    + intros (I & ->). exists i. split; [reflexivity|]. apply cnt_in. rewrite C. apply cnt_in. exact I.
Qed.

Lemma emit_accepts s v s' o : alive s = true -> step0 s (OEmit 0 false v) = (s', o) -> o_st o = 0.
Proof.
  intros A E. cbn [step0] in E. rewrite A in E. cbn [negb andb orb Nat.eqb Nat.ltb Nat.leb] in E. rewrite andb_false_r in E. cbn [orb] in E.
  destruct (notify _) as [[a b] c]. destruct (dispose false c a). inversion E; reflexivity.
Qed.

(* 900 + j: the values the model's hook_tail emits *)
Lemma hook_emits_received g vd : forall (js : list nat) s tl s' os,
  reawait_inv g false s -> m_void s = vd -> alive s = true ->
  run0 s (map (fun j => OEmit 0 false (900 + Z.of_nat j)) js ++ tl) = (s', os) ->
  forall j, In j js -> In (g, if vd then 0 else 900 + Z.of_nat j) (delivs (flat_map o_ev os)).
Proof.
  induction js as [|a js IH]; intros s tl s' os R V A E j I; [destruct I|].
  cbn [map app run0] in E. destruct (step0 s (OEmit 0 false (900 + Z.of_nat a))) as [s1 o] eqn:E1.
  destruct (run0 s1 _) as [s2 os2] eqn:E2. inversion E; subst s' os. cbn [flat_map]. rewrite delivs_app. apply in_or_app.
  destruct (step_reawait_inv g false s (OEmit 0 false (900 + Z.of_nat a)) _ _ E1 R (or_introl eq_refl)) as (R1 & P).
  pose proof (emit_accepts _ _ _ _ A E1) as O.
  destruct (step0_shape _ _ _ _ E1) as [(_ & -> & _)|(_ & s3 & e1 & sp & e2 & W & D & ->)]; [discriminate|].
  destruct I as [<-|I].
  - left. specialize (P eq_refl). unfold emitted in P. rewrite V in P. exact P.
  - right. destruct (emit_notify _ _ _ _ _ _ A W) as (_ & S3 & _ & MV3 & _).
    destruct (dispose_spec _ _ _ _ _ D) as ((V1 & _) & _).
    refine (IH s1 tl s2 os2 R1 _ _ E2 j I).
    + rewrite (sv_void _ _ V1), MV3. exact V.
    + rewrite (same_val_alive _ _ V1). unfold alive in *. rewrite S3. exact A.
Qed.

Lemma get_tab0 c v (g : nat) : get (tab (st0 c v)) g = None.
Proof. unfold get. cbn [st0 tab]. destruct g; reflexivity. Qed.

(* A listener hooked up from ordinary code with script `for(;;) co_await e;`, on any live state with nothing queued or
   kept: every value the registration function emits through the collector it was handed (any number of them) is
   delivered to the listener inside the hook-up itself — the coroutine is subscribed before the registration function runs. *)
Theorem hook_up_receives_at s g r keep k s' o :
  alive s = true -> m_coro s = false -> not_ready (queue s) -> held s = [] -> get (tab s) g = None ->
  step s (OHookUp g 0 false r keep k) = (s', o) ->
  forall j, (1 <= j <= k)%nat -> In (g, if m_void s then 0 else 900 + Z.of_nat j) (delivs (o_ev o)).
Proof.
  intros A MC N HN G E j J. cbn [step] in E.
  destruct (step0 s (OSpawn g 0 false r)) as [s1 o1] eqn:E1.
  destruct (spawn_reawait_inv g s r s1 o1 A N HN G E1) as (R & EV). rewrite MC in R.
  cbn [step0] in E1. rewrite G, co_await_e_alive in E1 by exact A. inversion E1; subst s1 o1. clear E1.
  cbn [o_st Z.eqb negb] in E.
  destruct (run0 _ (hook_tail keep k)) as [s2 os] eqn:E2. inversion E; subst s' o. cbn [o_ev flat_map app].
  change (delivs (EAwait g :: flat_map o_ev os)) with (delivs (flat_map o_ev os)).
  refine (hook_emits_received g (m_void s) (seq 1 k) _ _ s2 os R eq_refl A E2 j _).
  apply in_seq. lia.
Qed.

Lemma set_held_id s : set_held s (held s) = s. Proof. destruct s; reflexivity. Qed.
Lemma set_held_twice s a b : set_held (set_held s a) b = set_held s b. Proof. reflexivity. Qed.

(* keeping the collector's suspend point in a variable and destroying it with nothing in between is the same as
   discarding it at once: same final state, same events in the same order *)
Theorem hold_release : forall s kind v s1 o1 s2 o2 s' o,
  held s = [] ->
  step s (OEmitHold kind v) = (s1, o1) -> o_st o1 = 0 -> step s1 ORelease = (s2, o2) ->
  step s (OEmit kind false v) = (s', o) ->
  s2 = s' /\ o_st o = 0 /\ o_ev o1 ++ o_ev o2 = o_ev o /\ o_ret o1 = o_ret o.
Proof.
  intros s kind v s1 o1 s2 o2 s' o HN E1 O1 E2 E. cbn [step step0] in E1, E. fold (val_upd s kind v) in E1, E.
  destruct (negb (alive s) || (m_void s && negb (Nat.eqb kind 0)) || Nat.ltb 2 kind) eqn:R; [inversion E1; subst; discriminate|].
  cbn [andb] in E. rewrite orb_false_r, R in E.
  destruct (notify _) as [[sa ea] sp] eqn:N. destruct (dispose false sp sa) as [sb eb] eqn:D.
  inversion E1; subst s1 o1. inversion E; subst s' o. clear E1 E.
  assert (A : alive s = true) by (destruct (alive s); [reflexivity|discriminate]).
  destruct (emit_notify _ _ _ _ _ _ A N) as (_ & _ & _ & _ & HA & _). rewrite HN in HA.
  cbn [step step0 held set_held] in E2. rewrite HA in E2. cbn [app] in E2.
  rewrite set_held_twice, <- HA, set_held_id, D in E2. inversion E2; subst. repeat split.
Qed.
