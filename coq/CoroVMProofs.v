(* CoroVMProofs.v — the CoroVM machine (CoroVMDefs.v) by cases; the invariants behind C05 drain and fifo; the step-level
   statements of C05 / C04.
   The run-level invariants build on one another: shape here, once (CoroVMOnce) needs shape, life (CoroVMLife) needs both,
   RW (CoroVMRuns) needs all three; each file proves its step lemma for the conjunction so far and closes it under `steps`
   with inv_steps.  fifo, ext, dq and the hit phase of no pre-emption need no other invariant (log_inv). *)
From Cocls Require Import Base CoroVMDefs.
Local Open Scope nat_scope.

Lemma steps_S : forall n s, steps (S n) s = step (steps n s).
Proof. induction n; intros; cbn [steps] in *; auto. Qed.

Section Reach.
  Variable P : st -> Prop.
  Hypothesis Pstep : forall s, P s -> P (step s).
  Lemma inv_steps : forall n s, P s -> P (steps n s).
  Proof. induction n; intros; cbn [steps]; auto. Qed.
End Reach.

Lemma upd_same : forall A (m : nat -> A) k v, upd m k v k = v.
Proof. intros. unfold upd. rewrite Nat.eqb_refl. reflexivity. Qed.
Lemma upd_other : forall A (m : nat -> A) k v x, x <> k -> upd m k v x = m x.
Proof. intros. unfold upd. destruct (Nat.eqb_neq x k) as (_&H'). rewrite (H' H). reflexivity. Qed.

Lemma enq_all_eq : forall l s b w, enq_all s l b w =
  mkSt (prog s) (mainp s) (cs s) (fs s) (made s) (queue s ++ l) (active s) (stack s) (cur s)
       (rev (map (fun c => EEnq c b w) l) ++ log s).
Proof.
  induction l as [|c t IH]; intros; cbn [enq_all].
  - destruct s. cbn. rewrite app_nil_r. reflexivity.
  - rewrite IH. cbn. rewrite <- !app_assoc. reflexivity.
Qed.

Lemma is_created_stat : forall s c, is_created s c = true -> stat (cs s c) = Created.
Proof. intros s c H. unfold is_created in H. destruct (stat (cs s c)); try discriminate; reflexivity. Qed.

Lemma ensure_made_created : forall s c, is_created s c = true -> ensure_made s c = s.
Proof. intros s c K. unfold ensure_made. rewrite (is_created_stat s c K). reflexivity. Qed.

Lemma ensure_made_cases : forall s c, ensure_made s c = s \/ stat (cs s c) = Unmade /\ ensure_made s c = make s c.
Proof. intros s c. unfold ensure_made. destruct (stat (cs s c)); auto. destruct (Nat.eqb c 0); auto. Qed.

(* events that only report: they mean nothing to the scheduler, to the life cycle or to who is running *)
Definition note (e : event) : Prop :=
  match e with EEmit _ _ | EGot _ _ _ | ERetB _ _ | EBad _ => True | _ => False end.

(* what `exec s me i` can be: a report (a rejected instruction, a marker, a value read, a lost claim), possibly after the
   frame of c was allocated on the fly, or one of eleven moves, each with those of its conditions that the invariants need *)
Inductive exec_case (s : st) (me : nat) : st -> Prop :=
| ExNote e : note e -> exec_case s me (ev s e)
| ExNoteMade c e : note e -> exec_case s me (ev (ensure_made s c) e)
| ExPause x q : Nat.eqb me 0 = false -> queue s ++ [me] = x :: q ->
    exec_case s me (run_c (ev (set_queue (enq (ev s (ESusp me)) me me why_pause) q) (EDeq x)) x)
| ExMake c : stat (cs s c) = Unmade -> exec_case s me (make s c)
| ExDrop c : is_created s c = true -> exec_case s me (ev (set_coro s c (mkCoro Done [] BNone RNone)) (EFree c))
| ExDetach c aw : let s1 := ensure_made s c in
    is_created s1 c = true -> aw && Nat.eqb me 0 = false ->
    exec_case s me (sp_dispose (set_started s1 c BNone) me [c] aw)
| ExStart c f : let s1 := ensure_made s c in
    let s2 := set_started (set_fs s1 (upd (fs s1) f (mkFut (FPend []) true))) c (BFut f) in
    is_created s1 c = true -> fstt (fs s1 f) = FNone ->
    exec_case s me (if active s1 then run_c (set_stack (ev s2 (ENest me c)) (KNest me :: stack s1)) c
                    else set_cur (set_stack (set_active s2 true) (KInst [c] :: stack s1)) CRet)
| ExStartP c f aw : let s1 := ensure_made s c in
    is_created s1 c = true -> aw && Nat.eqb me 0 = false -> claimed (fs s1 f) = false ->
    exec_case s me (sp_dispose (ev (set_started (set_fs s1 (upd (fs s1) f (mkFut (fstt (fs s1 f)) true))) c (BFut f))
                                   (ERetB me true)) me [c] aw)
| ExCoAwait c : let s1 := ensure_made s c in
    Nat.eqb me 0 = false -> is_created s1 c = true ->
    exec_case s me (run_c (ev (set_script (set_started s1 c (BParent me)) me (IGotC c :: script (cs s1 me))) (ESusp me)) c)
| ExMkFut f : fstt (fs s f) = FNone -> exec_case s me (set_fs s (upd (fs s) f (mkFut (FPend []) false)))
| ExResolve f r aw : aw && Nat.eqb me 0 = false -> claimed (fs s f) = false ->
    exec_case s me (sp_dispose (ev (ev (set_fs s (upd (fs s) f (mkFut (FReady r) true))) (ESet me f r)) (ERetB me true))
                               me (chain_of (fs s f)) aw)
| ExAwait f ch : Nat.eqb me 0 = false -> fstt (fs s f) = FPend ch ->
    let s1 := set_fs s (upd (fs s) f (mkFut (FPend (me :: ch)) (claimed (fs s f)))) in
    exec_case s me (set_cur (ev (set_script s1 me (IGotF f :: script (cs s1 me))) (ESusp me)) CRet)
| ExFinish r : Nat.eqb me 0 = false -> exec_case s me (finish s me r).

Lemma exec_cases : forall s me i, exec_case s me (exec s me i).
Proof.
  intros s me i. pose proof (ExNote s me (EBad me) I) as Bad.
  assert (BadMade : forall c, exec_case s me (bad (ensure_made s c) me)) by (intros c; exact (ExNoteMade s me c (EBad me) I)).
  destruct i; cbn [exec]; try exact Bad.
  - exact (ExNote s me (EEmit me k) I).
  - destruct (Nat.eqb me 0) eqn:M; [exact Bad|].
    change (queue (enq (ev s (ESusp me)) me me why_pause)) with (queue s ++ [me]).
    destruct (queue s ++ [me]) as [|x q] eqn:Q; [destruct (queue s); discriminate|]. exact (ExPause s me x q M Q).
  - destruct (stat (cs s c)) eqn:S; try exact Bad. destruct (Nat.eqb c 0); [exact Bad|exact (ExMake s me c S)].
  - destruct (is_created s c) eqn:K; [exact (ExDrop s me c K)|exact Bad].
  - destruct (is_created (ensure_made s c) c) eqn:K; [|apply BadMade].
    destruct (aw && Nat.eqb me 0) eqn:A; [apply BadMade|exact (ExDetach s me c aw K A)].
  - destruct (is_created (ensure_made s c) c) eqn:K; [|apply BadMade].
    destruct (fstt (fs (ensure_made s c) f)) eqn:F; try apply BadMade. exact (ExStart s me c f K F).
  - destruct (is_created (ensure_made s c) c) eqn:K; [|apply BadMade].
    destruct (aw && Nat.eqb me 0) eqn:A; [apply BadMade|].
    destruct (claimed (fs (ensure_made s c) f)) eqn:Cl;
      destruct (fstt (fs (ensure_made s c) f)) eqn:F; try apply BadMade;
      try exact (ExNoteMade s me c (ERetB me false) I); rewrite <- F; exact (ExStartP s me c f aw K A Cl).
  - destruct (Nat.eqb me 0) eqn:M; [exact Bad|].
    destruct (is_created (ensure_made s c) c) eqn:K; [exact (ExCoAwait s me c M K)|apply BadMade].
  - destruct (fstt (fs s f)) eqn:F; try exact Bad. exact (ExMkFut s me f F).
  - destruct (aw && Nat.eqb me 0) eqn:A; [exact Bad|].
    destruct (claimed (fs s f)) eqn:Cl; destruct (fstt (fs s f)); try exact Bad;
      try exact (ExNote s me (ERetB me false) I); exact (ExResolve s me f r aw A Cl).
  - destruct (Nat.eqb me 0) eqn:M; [exact Bad|].
    destruct (fstt (fs s f)) eqn:F; [exact Bad|exact (ExAwait s me f chain M F)|exact (ExNote s me (EGot me (2 * f) r) I)].
  - destruct (Nat.eqb me 0) eqn:M; [exact Bad|exact (ExFinish s me _ M)].
  - destruct (Nat.eqb me 0) eqn:M; [exact Bad|exact (ExFinish s me _ M)].
  - destruct (fstt (fs s f)); try exact Bad. exact (ExNote s me (EGot me (2 * f) r) I).
  - exact (ExNote s me (EGot me (2 * c + 1) (result (cs s c))) I).
Qed.

Inductive ret_case (s : st) : st -> Prop :=
| RtNone : stack s = [] -> ret_case s (set_cur s CEnd)
| RtBack r rest : stack s = KNest r :: rest -> ret_case s (set_cur (ev (set_stack s rest) (EBack r)) (CRun r))
| RtNext h hs rest : stack s = KInst (h :: hs) :: rest -> ret_case s (run_c (set_stack s (KInst hs :: rest)) h)
| RtFlush x q rest : stack s = KInst [] :: rest -> queue s = x :: q -> ret_case s (run_c (ev (set_queue s q) (EDeq x)) x)
| RtIdle rest : stack s = KInst [] :: rest -> queue s = [] ->
    ret_case s (ev (set_cur (set_stack (set_active s false) rest) CMain) (EIdle false (length (queue s)))).

Lemma ret_cases : forall s, ret_case s (step_ret s).
Proof.
  intros s. unfold step_ret. destruct (stack s) as [|[[|h hs]|r] rest] eqn:K.
  - exact (RtNone s K).
  - destruct (queue s) as [|x q] eqn:Q; [exact (RtIdle s rest K Q)|exact (RtFlush s x q rest K Q)].
  - exact (RtNext s h hs rest K).
  - exact (RtBack s r rest K).
Qed.

Inductive step_case (s : st) : st -> Prop :=
| StEnd : cur s = CMain -> mainp s = [] ->
    step_case s (set_cur (ev s (EEnd (count_stat s true) (count_stat s false))) CEnd)
| StMain i rest : cur s = CMain -> mainp s = i :: rest -> step_case s (idle_if_main (exec (set_mainp s rest) 0 i))
| StFall c : cur s = CRun c -> script (cs s c) = [] -> step_case s (finish s c (RVal 0))
| StRun c i rest : cur s = CRun c -> script (cs s c) = i :: rest -> step_case s (exec (set_script s c rest) c i)
| StRet : cur s = CRet -> step_case s (step_ret s)
| StStop : cur s = CEnd -> step_case s s.

Lemma step_cases : forall s, step_case s (step s).
Proof.
  intros s. unfold step. destruct (cur s) eqn:C.
  - destruct (mainp s) as [|i rest] eqn:M; [exact (StEnd s C M)|exact (StMain s i rest C M)].
  - destruct (script (cs s c)) as [|i rest] eqn:S; [exact (StFall s c C S)|exact (StRun s c i rest C S)].
  - exact (StRet s C).
  - exact (StStop s C).
Qed.

Fixpoint wf_stack (k : list kframe) : Prop :=
  match k with
  | [] => False
  | [KInst _] => True
  | KNest _ :: t => wf_stack t
  | KInst _ :: _ :: _ => False
  end.

Definition idle_ok (e : event) : Prop :=
  match e with EIdle a q => a = false /\ q = 0 | _ => True end.

Definition shape (s : st) : Prop :=
  Forall idle_ok (log s) /\
  match cur s with
  | CMain | CEnd => active s = false /\ stack s = [] /\ queue s = []
  | CRun _ | CRet => active s = true /\ wf_stack (stack s)
  end.

Definition in_code (s : st) : Prop := cur s = CMain \/ exists c, cur s = CRun c.

Lemma shape_init : forall p m, shape (init p m).
Proof. intros. split; cbn; auto. Qed.

Lemma shape_cur_code : forall s c, shape s -> cur s = CRun c -> active s = true /\ wf_stack (stack s).
Proof. intros s c (L&H) C. rewrite C in H. exact H. Qed.
Lemma shape_cur_main : forall s, shape s -> cur s = CMain -> active s = false /\ stack s = [] /\ queue s = [].
Proof. intros s (L&H) C. rewrite C in H. exact H. Qed.

Lemma note_idle_ok : forall e, note e -> idle_ok e.
Proof. destruct e; cbn; tauto. Qed.

Lemma Forall_idle_enq : forall l b w, Forall idle_ok (rev (map (fun c => EEnq c b w) l)).
Proof. intros. apply Forall_rev, Forall_forall. intros x H. apply in_map_iff in H. destruct H as (c&<-&_). exact I. Qed.

Lemma shape_ev : forall s e, shape s -> idle_ok e -> shape (ev s e).
Proof. intros s e (L&H) E. split; [constructor; assumption|exact H]. Qed.
Lemma shape_set_started : forall s c b, shape s -> shape (set_started s c b).
Proof. intros s c b S. apply shape_ev; [exact S|exact I]. Qed.
Lemma shape_make : forall s c, shape s -> shape (make s c).
Proof. intros s c S. apply shape_ev; [exact S|exact I]. Qed.
Lemma shape_ensure_made : forall s c, shape s -> shape (ensure_made s c).
Proof. intros s c S. destruct (ensure_made_cases s c) as [->|(_ & ->)]; [exact S|apply shape_make, S]. Qed.

(* what the setters leave of shape; for users of the model *)
Lemma shape_set_fs : forall s x, shape s -> shape (set_fs s x).
Proof. intros s x S. exact S. Qed.
Lemma shape_set_mainp : forall s x, shape s -> shape (set_mainp s x).
Proof. intros s x S. exact S. Qed.
Lemma shape_bad : forall s me, shape s -> shape (bad s me).
Proof. intros s me S. apply shape_ev; [exact S|exact I]. Qed.

Lemma cur_ensure_made : forall s c, cur (ensure_made s c) = cur s.
Proof. intros s c. destruct (ensure_made_cases s c) as [->|(_ & ->)]; reflexivity. Qed.

Lemma in_code_ensure : forall s c, in_code s -> in_code (ensure_made s c).
Proof. unfold in_code; intros. rewrite cur_ensure_made. auto. Qed.

Lemma run_of : forall s me, in_code s -> (cur s = CMain -> me = 0) -> Nat.eqb me 0 = false -> exists c, cur s = CRun c.
Proof. intros s me [C|C] M E; auto. rewrite (M C) in E. discriminate. Qed.

Lemma main_discards : forall s me aw, (cur s = CMain -> me = 0) -> aw && Nat.eqb me 0 = false -> cur s = CMain -> aw = false.
Proof. intros s me aw M A C. rewrite (M C), andb_true_r in A. exact A. Qed.

Lemma shape_sp_dispose : forall s me hs aw,
  shape s -> in_code s -> (cur s = CMain -> aw = false) -> shape (sp_dispose s me hs aw).
Proof.
  intros s me hs aw S C M. unfold sp_dispose. destruct hs as [|h t] eqn:E; [exact S|]. rewrite <- E. clear E.
  destruct S as (L&H).
  destruct C as [C|(c&C)]; rewrite C in H.
  - destruct H as (A&K&Q). rewrite (M C), A. split; [exact L|]. cbn. rewrite K. auto.
  - destruct H as (A&W). destruct aw; [|rewrite A]; unfold shape, run_c, enq; rewrite enq_all_eq; cbn; rewrite ?C.
    + split; [|auto]. repeat constructor. apply Forall_app. split; [apply Forall_idle_enq|repeat constructor; assumption].
    + split; [|auto]. apply Forall_app. split; [apply Forall_idle_enq|exact L].
Qed.

Lemma shape_finish : forall s c r, shape s -> (exists x, cur s = CRun x) -> shape (finish s c r).
Proof.
  intros s c r (L&H) (x&C). rewrite C in H. unfold finish, shape.
  destruct (bound (cs s c)) as [|f|p]; [|destruct (chain_of (fs (ev s (EFin c r)) f))|];
    unfold run_c; rewrite ?enq_all_eq; cbn; (split; [|exact H]); repeat constructor; try exact L.
  apply Forall_app. split; [apply Forall_idle_enq|repeat constructor; exact L].
Qed.

Lemma shape_exec : forall s me i, shape s -> in_code s -> (cur s = CMain -> me = 0) -> shape (exec s me i).
Proof.
  intros s me i S C M.
  assert (C1 : forall c, in_code (ensure_made s c)) by (intros; apply in_code_ensure, C).
  assert (M1 : forall c aw, aw && Nat.eqb me 0 = false -> cur (ensure_made s c) = CMain -> aw = false).
  { intros c aw A. apply (main_discards _ me); [rewrite cur_ensure_made; exact M|exact A]. }
  destruct (exec_cases s me i) as [e N|c e N|x q M0 Q|c U|c K|c aw s1 K A|c f s1 s2 K F|c f aw s1 K A Cl|c s1 M0 K|f F
                                  |f r aw A Cl|f ch M0 F s1|r M0].
  - apply shape_ev; [exact S|apply note_idle_ok, N].
  - apply shape_ev; [apply shape_ensure_made, S|apply note_idle_ok, N].
  - destruct (run_of s me C M M0) as (c&R). destruct S as (L&H). rewrite R in H.
    split; [repeat constructor; exact L|exact H].
  - apply shape_make, S.
  - apply shape_ev; [exact S|exact I].
  - apply shape_sp_dispose; [apply shape_set_started, shape_ensure_made, S|apply C1|apply M1, A].
  - assert (S2 : shape s2) by apply shape_set_started, shape_ensure_made, S. destruct S2 as (L&H).
    change (active s1) with (active s2). change (stack s1) with (stack s2). change (cur s2) with (cur s1) in H.
    clearbody s2. destruct (C1 c) as [R|(x&R)]; fold s1 in R; rewrite R in H.
    + destruct H as (A&K0&_). rewrite A. split; [exact L|]. cbn. rewrite K0. auto.
    + destruct H as (A&W). rewrite A. split; [repeat constructor; exact L|]. cbn. auto.
  - apply shape_sp_dispose; [apply shape_ev; [apply shape_set_started, shape_ensure_made, S|exact I]|apply C1|apply M1, A].
  - destruct (run_of s me C M M0) as (x&R). rewrite <- (cur_ensure_made s c) in R.
    destruct (shape_ensure_made s c S) as (L&H). fold s1 in R, L, H. rewrite R in H.
    split; [repeat constructor; exact L|exact H].
  - exact S.
  - apply shape_sp_dispose; [apply shape_ev; [apply shape_ev; [exact S|exact I]|exact I]|exact C|apply (main_discards s me), A; exact M].
  - destruct (run_of s me C M M0) as (x&R). destruct S as (L&H). rewrite R in H.
    split; [repeat constructor; exact L|exact H].
  - apply shape_finish; [exact S|apply (run_of s me C M M0)].
Qed.

Lemma shape_step_ret : forall s, shape s -> cur s = CRet -> shape (step_ret s).
Proof.
  intros s (L&H) C. rewrite C in H. destruct H as (A&W).
  destruct (ret_cases s) as [K|r rest K|h hs rest K|x q rest K Q|rest K Q]; rewrite K in W; cbn in W; try contradiction.
  - split; [repeat constructor; exact L|]. cbn. auto.
  - destruct rest; [|contradiction]. split; [repeat constructor; exact L|]. cbn. auto.
  - destruct rest; [|contradiction]. split; [repeat constructor; exact L|]. cbn. rewrite K. cbn. auto.
  - destruct rest; [|contradiction]. rewrite Q. split; [repeat constructor; auto|]. cbn. auto.
Qed.

Lemma shape_step : forall s, shape s -> shape (step s).
Proof.
  intros s S. destruct (step_cases s) as [C P|i rest C P|c C P|c i rest C P|C|C].
  - destruct (shape_cur_main s S C) as (A&K&Q). destruct S as (L&_). split; [constructor; [exact I|exact L]|cbn; auto].
  - assert (S1 : shape (exec (set_mainp s rest) 0 i)) by (apply shape_exec; [exact S|left; exact C|reflexivity]).
    unfold idle_if_main. destruct (cur (exec (set_mainp s rest) 0 i)) eqn:C1; try exact S1.
    destruct (shape_cur_main _ S1 C1) as (A&_&Q). apply shape_ev; [exact S1|]. rewrite A, Q. split; reflexivity.
  - apply shape_finish; eauto.
  - apply shape_exec; [exact S|right; exists c; exact C|cbn; rewrite C; discriminate].
  - apply shape_step_ret; assumption.
  - exact S.
Qed.

Lemma shape_reach : forall p m n, shape (steps n (init p m)).
Proof. intros. apply inv_steps; [exact shape_step|apply shape_init]. Qed.

(* with shape_step: of every state reachable from a state of that shape *)
Lemma shape_drain : forall s, shape s ->
  (cur s = CMain \/ cur s = CEnd -> active s = false /\ queue s = [] /\ stack s = []) /\
  (forall a q, In (EIdle a q) (trace s) -> a = false /\ q = 0) /\
  (forall c, cur s = CRun c -> active s = true).
Proof.
  intros s (L&H). split; [|split].
  - intros [E|E]; rewrite E in H; tauto.
  - intros a q I. apply in_rev in I. rewrite Forall_forall in L. apply (L _ I).
  - intros c E. rewrite E in H. tauto.
Qed.

(* C05 drain: whenever normal code is in control the queue is empty and coroutine mode is off, and every
   is_active()/queue-length sample taken by normal code reads (false, 0) *)
Theorem drain : forall p m n,
  let s := steps n (init p m) in
  (cur s = CMain \/ cur s = CEnd -> active s = false /\ queue s = [] /\ stack s = []) /\
  (forall a q, In (EIdle a q) (trace s) -> a = false /\ q = 0) /\
  (forall c, cur s = CRun c -> active s = true).
Proof. intros p m n. apply shape_drain, shape_reach. Qed.

(* Invariants that speak of the log and the ready queue only: they survive every event but EEnq / EDeq, an enqueue, and a
   dequeue followed at once by the resumption of what was dequeued *)
Definition q_event (e : event) : Prop := match e with EEnq _ _ _ | EDeq _ => True | _ => False end.

Lemma note_not_q : forall e, note e -> ~ q_event e.
Proof. destruct e; cbn; tauto. Qed.

Record log_inv (P : st -> Prop) : Prop := {
  li_frame : forall s s', log s' = log s -> queue s' = queue s -> P s -> P s';
  li_ev : forall s e, ~ q_event e -> P s -> P (ev s e);
  li_enq : forall s c b w, P s -> P (enq s c b w);
  li_deq : forall s x q, queue s = x :: q -> P s -> P (run_c (ev (set_queue s q) (EDeq x)) x) }.

Section LogInv.
Variable P : st -> Prop.
Hypothesis LI : log_inv P.

Lemma li_set_cs : forall s x, P s -> P (set_cs s x). Proof. intros s x. apply (li_frame P LI s); reflexivity. Qed.
Lemma li_set_fs : forall s x, P s -> P (set_fs s x). Proof. intros s x. apply (li_frame P LI s); reflexivity. Qed.
Lemma li_set_mainp : forall s x, P s -> P (set_mainp s x). Proof. intros s x. apply (li_frame P LI s); reflexivity. Qed.
Lemma li_set_made : forall s x, P s -> P (set_made s x). Proof. intros s x. apply (li_frame P LI s); reflexivity. Qed.
Lemma li_set_cur : forall s x, P s -> P (set_cur s x). Proof. intros s x. apply (li_frame P LI s); reflexivity. Qed.
Lemma li_set_stack : forall s x, P s -> P (set_stack s x). Proof. intros s x. apply (li_frame P LI s); reflexivity. Qed.
Lemma li_set_active : forall s x, P s -> P (set_active s x). Proof. intros s x. apply (li_frame P LI s); reflexivity. Qed.

Lemma li_run_c : forall s x, P s -> P (run_c s x).
Proof. intros s x H. apply li_set_cur, (li_ev P LI); [intros []|exact H]. Qed.
Lemma li_enq_all : forall l s b w, P s -> P (enq_all s l b w).
Proof. induction l; intros s b w H; [exact H|]. apply IHl, (li_enq P LI), H. Qed.
Lemma li_set_started : forall s c b, P s -> P (set_started s c b).
Proof. intros s c b H. apply (li_ev P LI); [intros []|apply li_set_cs, H]. Qed.
Lemma li_make : forall s c, P s -> P (make s c).
Proof. intros s c H. apply (li_ev P LI); [intros []|apply li_set_made, li_set_cs, H]. Qed.
Lemma li_ensure_made : forall s c, P s -> P (ensure_made s c).
Proof. intros s c H. destruct (ensure_made_cases s c) as [->|(_ & ->)]; [exact H|apply li_make, H]. Qed.

Lemma li_sp_dispose : forall s me hs aw, P s -> P (sp_dispose s me hs aw).
Proof.
  intros s me hs aw H. unfold sp_dispose. destruct hs as [|h t]; [exact H|]. destruct aw; [|destruct (active s)].
  - apply li_run_c, (li_enq P LI), li_enq_all, (li_ev P LI); [intros []|exact H].
  - apply li_enq_all, H.
  - apply li_set_cur, li_set_stack, li_set_active, H.
Qed.

(* the body is over: all that follows the EFin *)
Lemma li_finish_from : forall s c r, P (ev s (EFin c r)) -> P (finish s c r).
Proof.
  intros s c r H. unfold finish.
  assert (H3 : forall F, P (ev (set_coro (set_fs (ev s (EFin c r)) F) c (mkCoro Done [] (bound (cs s c)) r)) (EFree c))).
  { intros F. apply (li_ev P LI); [intros []|]. apply li_set_cs, li_set_fs, H. }
  destruct (bound (cs s c)) as [|f|p]; [|destruct (chain_of (fs (ev s (EFin c r)) f))|].
  - apply li_set_cur, (H3 (fs s)).
  - apply li_set_cur, H3.
  - apply li_run_c, li_enq_all, H3.
  - apply li_run_c, (H3 (fs s)).
Qed.

Lemma li_finish : forall s c r, P s -> P (finish s c r).
Proof. intros s c r H. apply li_finish_from, (li_ev P LI); [intros []|exact H]. Qed.

Lemma li_exec : forall s me i, P s -> P (exec s me i).
Proof.
  intros s me i H.
  destruct (exec_cases s me i) as [e N|c e N|x q M0 Q|c U|c K|c aw s1 K A|c f s1 s2 K F|c f aw s1 K A Cl|c s1 M0 K|f F
                                  |f r aw A Cl|f ch M0 F s1|r M0].
  - apply (li_ev P LI); [apply note_not_q, N|exact H].
  - apply (li_ev P LI); [apply note_not_q, N|apply li_ensure_made, H].
  - apply (li_deq P LI); [exact Q|]. apply (li_enq P LI), (li_ev P LI); [intros []|exact H].
  - apply li_make, H.
  - apply (li_ev P LI); [intros []|apply li_set_cs, H].
  - apply li_sp_dispose, li_set_started, li_ensure_made, H.
  - assert (H2 : P s2) by apply li_set_started, li_set_fs, li_ensure_made, H. destruct (active s1).
    + apply li_run_c, li_set_stack, (li_ev P LI); [intros []|exact H2].
    + apply li_set_cur, li_set_stack, li_set_active, H2.
  - apply li_sp_dispose, (li_ev P LI); [intros []|]. apply li_set_started, li_set_fs, li_ensure_made, H.
  - apply li_run_c, (li_ev P LI); [intros []|]. apply li_set_cs, li_set_started, li_ensure_made, H.
  - apply li_set_fs, H.
  - apply li_sp_dispose, (li_ev P LI); [intros []|]. apply (li_ev P LI); [intros []|apply li_set_fs, H].
  - apply li_set_cur, (li_ev P LI); [intros []|]. apply li_set_cs, li_set_fs, H.
  - apply li_finish, H.
Qed.

Lemma li_step : forall s, P s -> P (step s).
Proof.
  intros s H. destruct (step_cases s) as [C M|i rest C M|c C S|c i rest C S|C|C].
  - apply li_set_cur, (li_ev P LI); [intros []|exact H].
  - assert (H1 : P (exec (set_mainp s rest) 0 i)) by apply li_exec, li_set_mainp, H.
    unfold idle_if_main. destruct (cur (exec (set_mainp s rest) 0 i)); try exact H1. apply (li_ev P LI); [intros []|exact H1].
  - apply li_finish, H.
  - apply li_exec, li_set_cs, H.
  - destruct (ret_cases s) as [K|r rest K|h hs rest K|x q rest K Q|rest K Q].
    + apply li_set_cur, H.
    + apply li_set_cur, (li_ev P LI); [intros []|apply li_set_stack, H].
    + apply li_run_c, li_set_stack, H.
    + apply (li_deq P LI); [exact Q|exact H].
    + apply (li_ev P LI); [intros []|]. apply li_set_cur, li_set_stack, li_set_active, H.
  - exact H.
Qed.
End LogInv.

(* chronological projections of a newest-first log *)
Fixpoint enqs (l : list event) : list nat :=
  match l with [] => [] | EEnq c _ _ :: t => enqs t ++ [c] | _ :: t => enqs t end.
Fixpoint deqs (l : list event) : list nat :=
  match l with [] => [] | EDeq c :: t => deqs t ++ [c] | _ :: t => deqs t end.

Definition fifo (s : st) : Prop := enqs (log s) = deqs (log s) ++ queue s.

Lemma fifo_log_inv : log_inv fifo.
Proof.
  split; unfold fifo.
  - intros s s' L Q H. rewrite L, Q. exact H.
  - intros s e N H. destruct e; cbn in N; try exact H; tauto.
  - intros s c b w H. cbn. rewrite H, app_assoc. reflexivity.
  - intros s x q Q H. cbn. rewrite H, Q, <- app_assoc. reflexivity.
Qed.

(* what the setters leave of fifo; for users of the model *)
Lemma fifo_set_cs : forall s x, fifo s -> fifo (set_cs s x). Proof. intros s x H. exact H. Qed.
Lemma fifo_set_fs : forall s x, fifo s -> fifo (set_fs s x). Proof. intros s x H. exact H. Qed.
Lemma fifo_set_mainp : forall s x, fifo s -> fifo (set_mainp s x). Proof. intros s x H. exact H. Qed.
Lemma fifo_set_made : forall s x, fifo s -> fifo (set_made s x). Proof. intros s x H. exact H. Qed.
Lemma fifo_set_coro : forall s c x, fifo s -> fifo (set_coro s c x). Proof. intros s c x H. exact H. Qed.
Lemma fifo_set_script : forall s c x, fifo s -> fifo (set_script s c x). Proof. intros s c x H. exact H. Qed.
Lemma fifo_set_started : forall s c b, fifo s -> fifo (set_started s c b).
Proof. exact (li_set_started fifo fifo_log_inv). Qed.
Lemma fifo_bad : forall s me, fifo s -> fifo (bad s me).
Proof. intros s me H. exact H. Qed.
Lemma fifo_ensure_made : forall s c, fifo s -> fifo (ensure_made s c).
Proof. exact (li_ensure_made fifo fifo_log_inv). Qed.
Lemma fifo_finish : forall s c r, fifo s -> fifo (finish s c r).
Proof. exact (li_finish fifo fifo_log_inv). Qed.

Lemma fifo_steps : forall n s, fifo s -> fifo (steps n s).
Proof. exact (inv_steps fifo (li_step fifo fifo_log_inv)). Qed.

(* The log only grows (needed to speak about "the events after this point") *)
Section Ext.
Variable s0 : st.
Definition ext (s : st) : Prop := exists evs, log s = evs ++ log s0.

Lemma ext_log_inv : log_inv ext.
Proof.
  split.
  - intros s s' L _ (l&E). exists l. rewrite L. exact E.
  - intros s e _ (l&E). exists (e :: l). cbn. rewrite E. reflexivity.
  - intros s c b w (l&E). exists (EEnq c b w :: l). cbn. rewrite E. reflexivity.
  - intros s x q _ (l&E). exists (ERun x :: EDeq x :: l). cbn. rewrite E. reflexivity.
Qed.

(* what the setters leave of ext; for users of the model *)
Lemma ext_set_cs : forall s x, ext s -> ext (set_cs s x). Proof. intros s x H. exact H. Qed.
Lemma ext_set_mainp : forall s x, ext s -> ext (set_mainp s x). Proof. intros s x H. exact H. Qed.
Lemma ext_set_made : forall s x, ext s -> ext (set_made s x). Proof. intros s x H. exact H. Qed.
Lemma ext_set_script : forall s c x, ext s -> ext (set_script s c x). Proof. intros s c x H. exact H. Qed.
Lemma ext_set_started : forall s c b, ext s -> ext (set_started s c b).
Proof. exact (li_set_started ext ext_log_inv). Qed.
Lemma ext_bad : forall s me, ext s -> ext (bad s me).
Proof. intros s me. apply (li_ev ext ext_log_inv). intros []. Qed.
Lemma ext_ensure_made : forall s c, ext s -> ext (ensure_made s c).
Proof. exact (li_ensure_made ext ext_log_inv). Qed.
Lemma ext_finish : forall s c r, ext s -> ext (finish s c r).
Proof. exact (li_finish ext ext_log_inv). Qed.
End Ext.

Lemma log_grows : forall n s, exists evs, log (steps n s) = evs ++ log s.
Proof. intros n s. apply (inv_steps (ext s) (li_step (ext s) (ext_log_inv s))). exists []. reflexivity. Qed.

Lemma enqs_app : forall a b, enqs (a ++ b) = enqs b ++ enqs a.
Proof. induction a as [|e a IH]; intros; cbn; [rewrite app_nil_r; auto|]. destruct e; auto. rewrite IH, app_assoc. reflexivity. Qed.
Lemma deqs_app : forall a b, deqs (a ++ b) = deqs b ++ deqs a.
Proof. induction a as [|e a IH]; intros; cbn; [rewrite app_nil_r; auto|]. destruct e; auto. rewrite IH, app_assoc. reflexivity. Qed.

(* continuing any run from s: (queue now ++ whatever is queued later) leaves the queue in exactly that order *)
Theorem fifo_future : forall n s, fifo s ->
  exists evs, log (steps n s) = evs ++ log s /\ queue s ++ enqs evs = deqs evs ++ queue (steps n s).
Proof.
  intros n s F. destruct (log_grows n s) as (evs&E). exists evs. split; [exact E|].
  pose proof (fifo_steps n s F) as F'. unfold fifo in *. rewrite E, enqs_app, deqs_app, F in F'.
  rewrite <- !app_assoc in F'. apply app_inv_head in F'. exact F'.
Qed.

(* co_await pause(): self to the tail, the head of the queue runs next (self if the queue was empty) *)
Theorem pause_step : forall s r rest,
  cur s = CRun r -> r <> 0 -> script (cs s r) = IPause :: rest ->
  let x := hd r (queue s ++ [r]) in
  queue (step s) = tl (queue s ++ [r]) /\ cur (step s) = CRun x /\
  log (step s) = ERun x :: EDeq x :: EEnq r r why_pause :: ESusp r :: log s /\
  script (cs (step s) r) = rest.
Proof.
  intros s r rest C N S x. unfold step. rewrite C, S. cbn [exec].
  destruct (Nat.eqb_neq r 0) as (_&H). rewrite (H N).
  change (queue (enq (ev (set_script s r rest) (ESusp r)) r r why_pause)) with (queue s ++ [r]).
  subst x. destruct (queue s ++ [r]) as [|y q] eqn:Q; [destruct (queue s); discriminate|].
  cbn. rewrite upd_same. repeat split; reflexivity.
Qed.

(* co_await on a non-empty suspend point: the LAST handle runs by symmetric transfer, the others and then the awaiting
   coroutine are appended to the queue in order *)
Theorem await_sp_step : forall s me h t,
  let hs := h :: t in
  let s' := sp_dispose s me hs true in
  queue s' = queue s ++ removelast hs ++ [me] /\ cur s' = CRun (last hs 0) /\
  log s' = ERun (last hs 0) :: EEnq me me why_self :: rev (map (fun c => EEnq c me why_spawait) (removelast hs)) ++ ESusp me :: log s.
Proof.
  intros s me h t hs s'. subst s'. unfold sp_dispose, run_c, enq. subst hs. cbn iota. rewrite enq_all_eq.
  cbn [queue cur log ev set_cur set_queue]. rewrite <- app_assoc. auto.
Qed.

(* a discarded suspend point in coroutine mode: everything is appended in order, nobody runs, the caller goes on *)
Theorem discard_sp_step : forall s me hs,
  active s = true ->
  let s' := sp_dispose s me hs false in
  queue s' = queue s ++ hs /\ cur s' = cur s /\ stack s' = stack s /\
  log s' = rev (map (fun c => EEnq c me why_discard) hs) ++ log s.
Proof.
  intros s me hs A s'. subst s'. unfold sp_dispose. destruct hs as [|h t].
  - rewrite app_nil_r. auto.
  - rewrite A, enq_all_eq. auto.
Qed.

(* a discarded suspend point in normal mode: queue installed, handles resumed one by one in order, then the flush *)
Theorem discard_sp_normal : forall s me h t,
  active s = false ->
  let s' := sp_dispose s me (h :: t) false in
  active s' = true /\ stack s' = KInst (h :: t) :: stack s /\ cur s' = CRet /\ log s' = log s /\
  cur (step s') = CRun h /\ stack (step s') = KInst t :: stack s.
Proof. intros s me h t A s'. subst s'. unfold sp_dispose. rewrite A. repeat split; reflexivity. Qed.

(* the body of c ends with r: r is stored in exactly the bound cell, the frame is destroyed once (one EFree, status Done),
   and control goes to the party waiting for that cell — to nobody when detached *)
Theorem finish_delivery : forall s c r,
  let s' := finish s c r in
  stat (cs s' c) = Done /\ result (cs s' c) = r /\ script (cs s' c) = [] /\
  (forall k, k <> c -> cs s' k = cs s k) /\
  match bound (cs s c) with
  | BNone => fs s' = fs s /\ queue s' = queue s /\ cur s' = CRet /\ log s' = EFree c :: EFin c r :: log s
  | BFut f =>
      fstt (fs s' f) = FReady r /\ (forall g, g <> f -> fs s' g = fs s g) /\
      queue s' = queue s ++ removelast (chain_of (fs s f)) /\
      cur s' = match chain_of (fs s f) with [] => CRet | ch => CRun (last ch 0) end
  | BParent p =>
      fs s' = fs s /\ queue s' = queue s /\ cur s' = CRun p /\ log s' = ERun p :: EFree c :: EFin c r :: log s
  end.
Proof.
  intros s c r s'. subst s'. unfold finish. destruct (bound (cs s c)) as [|f|p] eqn:B.
  - cbn. rewrite upd_same. repeat split; auto. intros; apply upd_other; auto.
  - change (fs (ev s (EFin c r))) with (fs s). destruct (chain_of (fs s f)) as [|h t].
    + cbn. rewrite !upd_same, app_nil_r. repeat split; auto; intros; apply upd_other; auto.
    + unfold run_c. rewrite enq_all_eq. cbn [cs fs queue cur set_cur ev set_coro set_cs set_fs]. rewrite !upd_same.
      repeat split; auto; intros; apply upd_other; auto.
  - cbn. rewrite upd_same. repeat split; auto. intros; apply upd_other; auto.
Qed.

(* the parent resumed by a finished child reads exactly the child's result *)
Theorem coawait_delivery : forall s p c rest,
  cur s = CRun p -> script (cs s p) = IGotC c :: rest ->
  log (step s) = EGot p (2 * c + 1) (result (cs s c)) :: log s /\ cur (step s) = CRun p.
Proof.
  intros s p c rest C S. unfold step. rewrite C, S. cbn. split; auto. unfold upd.
  destruct (Nat.eqb c p) eqn:E; auto. apply Nat.eqb_eq in E. subst c. reflexivity.
Qed.

(* start(promise) on an already claimed promise: returns false, nothing is bound, nothing runs, the handle stays in the
   async<T> object (status Created) *)
Theorem start_claimed_promise : forall s me c f aw,
  is_created s c = true -> fstt (fs s f) <> FNone -> claimed (fs s f) = true -> (aw && Nat.eqb me 0 = false) ->
  let s' := exec s me (IStartP c f aw) in
  log s' = ERetB me false :: log s /\ cs s' = cs s /\ fs s' = fs s /\ queue s' = queue s /\ cur s' = cur s /\
  stack s' = stack s /\ is_created s' c = true.
Proof.
  intros s me c f aw K F Cl A s'.
  assert (E : s' = ev s (ERetB me false)).
  { subst s'. cbn [exec]. rewrite (ensure_made_created s c K), K, A, Cl. destruct (fstt (fs s f)); [congruence|reflexivity|reflexivity]. }
  rewrite E. repeat split; exact K.
Qed.

(* ... and the destructor of that async<T> (or of any never-started one) destroys the frame: exactly one EFree, no Run *)
Theorem drop_unstarted : forall s me c,
  is_created s c = true ->
  let s' := exec s me (IDrop c) in
  log s' = EFree c :: log s /\ stat (cs s' c) = Done /\ cur s' = cur s /\ queue s' = queue s /\ fs s' = fs s /\
  is_created s' c = false.
Proof.
  intros s me c K s'. subst s'. cbn [exec]. rewrite K. unfold is_created. cbn. rewrite upd_same. repeat split; reflexivity.
Qed.

(* a successful start(promise) binds the coroutine to exactly that promise's future and claims it *)
Theorem start_free_promise : forall s me c f,
  is_created s c = true -> fstt (fs s f) <> FNone -> claimed (fs s f) = false -> active s = true ->
  let s' := exec s me (IStartP c f false) in
  bound (cs s' c) = BFut f /\ stat (cs s' c) = Started /\ claimed (fs s' f) = true /\ fstt (fs s' f) = fstt (fs s f) /\
  queue s' = queue s ++ [c] /\ cur s' = cur s /\
  log s' = EEnq c me why_discard :: ERetB me true :: EBind c (BFut f) :: log s.
Proof.
  intros s me c f K F Cl A s'.
  assert (E : s' = enq (ev (set_started (set_fs s (upd (fs s) f (mkFut (fstt (fs s f)) true))) c (BFut f)) (ERetB me true))
                       c me why_discard).
  { subst s'. cbn [exec]. rewrite (ensure_made_created s c K), K, Cl. unfold sp_dispose.
    change (active (ev (set_started (set_fs s (upd (fs s) f (mkFut (fstt (fs s f)) true))) c (BFut f)) (ERetB me true)))
      with (active s). rewrite A. destruct (fstt (fs s f)); [congruence|reflexivity|reflexivity]. }
  rewrite E. cbn. rewrite !upd_same. repeat split; reflexivity.
Qed.
