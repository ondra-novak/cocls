(* Properties_C13.v — C13: a consumer sees exactly the sequence the generator body yields, in every access style.
   Only statements, each proved in a line or two from the lemmas of GenProofs.
   Quantification: every body script (any length), every op list = every sequence of access styles mixed freely
   (next()+value(), iterator, call->future blocking, co_await next(), call->future + co_await, double conversion),
   every placement of the completions of pending awaits, malformed ops included; both generator<T> (ha=false) and
   generator<T,Arg> (ha=true).
   `spec sc args` (GenDefs.expected) is defined on the script and the call arguments alone. *)
From Cocls Require Import Base BaseProofs GenDefs GenProofs.
Local Open Scope Z_scope.

(* style_independent (+ the completion counts of sync_waits_async): the log of what the consumer received
   (Val / Exc / End) and what the body received (Arg) is, item by item and in order, the specification's log as far
   as the run goes - nothing skipped, repeated or reordered, each item delivered after exactly the number of
   completions the script puts before it - and once the specification's log is exhausted only End follows. *)
Theorem c13_style_independent : forall ha sc ops,
  let os := fst (run_from ha sys0 (OCreate sc :: ops)) in
  conforms (log_of (OCreate sc :: ops) os 0) (spec sc (call_args (OCreate sc :: ops) os)) 0 = true.
Proof. exact gen_conforms. Qed.
Print Assumptions c13_style_independent.

(* what `conforms` says pointwise: the i-th logged item is the i-th expected item with the same completion count;
   beyond the expected log only End can be observed *)
Theorem c13_conforms_pointwise : forall log ex np, conforms log ex np = true ->
  forall i r n, nth_error log i = Some (r, n) ->
  match nth_error ex i with Some p => p = (r, n) | None => r = XEnd end.
Proof. exact conforms_nth. Qed.
Print Assumptions c13_conforms_pointwise.

(* the expected log has the shape values/argument receptions, then exactly one terminal item (End or the exception) *)
Theorem c13_spec_shape : forall pc cur arg args np,
  exists l t n, expected pc cur arg args np = l ++ [(t, n)] /\ is_terminal t = true /\
                forallb (fun p => negb (is_terminal (fst p))) l = true.
Proof. exact expected_shape. Qed.
Print Assumptions c13_spec_shape.

(* exception_position: when the consumer sees an exception, everything the script puts before the throw was
   delivered before it (the log up to there is literally the specification's log), the exception is the last
   expected item, and every later answer is End *)
Theorem c13_exception_position : forall ha sc ops i e n,
  let os := fst (run_from ha sys0 (OCreate sc :: ops)) in
  let log := log_of (OCreate sc :: ops) os 0 in
  let sp := spec sc (call_args (OCreate sc :: ops) os) in
  nth_error log i = Some (XExc e, n) ->
  firstn (S i) log = firstn (S i) sp /\ S i = length sp /\
  forall j r m, (i < j)%nat -> nth_error log j = Some (r, m) -> r = XEnd.
Proof.
  intros ha sc ops i e n os log sp Hi.
  apply (conforms_exception log sp 0%nat i e n); [apply gen_conforms|apply expected_shape|exact Hi].
Qed.
Print Assumptions c13_exception_position.

(* argument_delivery: every argument the body receives (result of co_yield v, or of co_yield nullptr) is the
   argument of the call that resumed it: call number = number of values delivered so far (call 0 started the body) *)
Theorem c13_argument_delivery : forall ha sc ops i a n,
  let os := fst (run_from ha sys0 (OCreate sc :: ops)) in
  let log := log_of (OCreate sc :: ops) os 0 in
  nth_error log i = Some (XArg a, n) ->
  a = nth (count_val (firstn i log)) (call_args (OCreate sc :: ops) os) 0.
Proof. intros ha sc ops i a n os log Hi. exact (conforms_argument log sc _ 0%nat i a n (gen_conforms ha sc ops) Hi). Qed.
Print Assumptions c13_argument_delivery.

(* destroy_parked: over any run, for every RAII local id: constructions = destructions + still-live locals; once the
   generator is destroyed (at a yield, never started, or finished) or its body has ended, constructions = destructions;
   frames allocated - freed = 1 while the generator lives, 0 afterwards (freed exactly once, never twice) *)
Theorem c13_destroy_parked : forall ha ops z,
  let r := run_from ha sys0 ops in
  let evs := all_events (fst r) in
  (count_ev (is_ctor z) evs = count_ev (is_dtor z) evs + count_z z (gds (snd r)))%nat /\
  (live (snd r) = false -> count_ev (is_ctor z) evs = count_ev (is_dtor z) evs) /\
  (live (snd r) = true -> bst (snd r) = BFinal -> count_ev (is_ctor z) evs = count_ev (is_dtor z) evs) /\
  sumz (map o_news (fst r)) - sumz (map o_dels (fst r)) = b2z (live (snd r)).
Proof.
  intros ha ops z. pose proof (run_accounts ha ops sys0 z good0) as H.
  cbn [gds sys0 count_z live b2z] in H. rewrite !Nat.add_0_r, Z.sub_0_r in H. exact H.
Qed.
Print Assumptions c13_destroy_parked.

(* the Destroy op itself, in any reachable idle state: one destructor call per live local, youngest first, one free,
   none for a never-started generator; afterwards every op is rejected *)
Theorem c13_destroy_step : forall ha ops,
  let s := snd (run_from ha sys0 ops) in
  live s = true -> out s = None ->
  let '(s1, o) := step ha s ODestroy in
  o_ev o = map EDtor (gds s) /\ o_dels o = 1 /\ o_news o = 0 /\ live s1 = false /\ gds s1 = [] /\
  (bst s = BInit -> o_ev o = []) /\
  forall x, snd (step ha s1 x) = rejected.
Proof. intros ha ops s. apply destroy_step, run_good, good0. Qed.
Print Assumptions c13_destroy_step.

(* sync_waits_async: in every reachable state, an accepted access or completion answers Pending exactly when the body
   is left suspended on a pending await, i.e. a result is returned only after the body reached its next
   yield / return / throw; an access is outstanding exactly while the body is so suspended; and the model never
   dereferences a null caller / value, trips the busy assert or resumes a finished body (err stays false) *)
Theorem c13_sync_waits_async : forall ha ops x,
  let s := snd (run_from ha sys0 ops) in
  let '(s1, o) := step ha s x in
  (ok o = true -> (is_access x || is_complete x) = true -> (o_res o = RPend <-> exists k, bst s1 = BPend k)) /\
  (live s1 = true -> ((exists k, bst s1 = BPend k) <-> out s1 <> None)) /\
  err s1 = false.
Proof. intros ha ops x s. apply step_pending, run_good, good0. Qed.
Print Assumptions c13_sync_waits_async.

(* wire level: for every case whose first op is a well-formed Create (any further op lines, malformed ones included) the
   oracle clauses "one line per op", "no Bad answer", "the visible log conforms to the specification of the script"
   (argument items hidden for generator<T,void>) and "resumption counts in {0,1}" hold when the oracle decodes the
   model's own encoded output - the encoding loses nothing the oracle needs.  (Not lifted to the wire level: the
   value()-re-read clause and the closed-case clauses - RAII/frame balance after Destroy, no trailing Pending -
   which are about closed cases only.) *)
Theorem c13_wire_oracle_core : forall ha scw wops, Nat.even (length scw) = true ->
  let wire := (0 :: scw) :: wops in
  let ops := map (decode ha) wire in
  let os := map dec_obs (gen_run ha wire) in
  length ops = length os /\
  no_bad os = true /\
  conforms (visible ha (log_of ops os 0)) (visible ha (spec (decode_script ha scw) (call_args ops os))) 0 = true /\
  forallb (fun o => (0 <=? o_cnt o) && (o_cnt o <=? 1)) os = true.
Proof.
  intros ha scw wops He wire ops os. subst os. unfold gen_run. fold ops. rewrite map_map, (map_ext _ _ (dec_enc_obs ha)).
  replace ops with (OCreate (decode_script ha scw) :: map (decode ha) wops) by (unfold ops, wire; cbn [map decode]; rewrite He; reflexivity).
  apply oracle_core_ops.
Qed.
Print Assumptions c13_wire_oracle_core.

(* non-vacuity: a body with RAII locals, a pending await and a throw, read through five different styles with the
   completion in the middle, then destroyed: reachable, conforming, balanced *)
Example c13_nonvacuous :
  let sc := [IGuard 7; IYield 1; IAwaitPending 1; IYield 2; IGuard 8; IYield 3; IThrow 9] in
  let ops := [OAccess 0 0; OAccess 1 0; OComplete 1 5; OAccess 2 0; OAccess 3 0; OAccess 4 0; ODestroy] in
  let r := run_from false sys0 (OCreate sc :: ops) in
  map o_res (fst r) = [RNone; RVal 1; RPend; RVal 2; RVal 3; RExc 9; REndT; RNone] /\
  map fst (spec sc [0;0;0;0;0]) = [XVal 1; XArg 0; XVal 2; XArg 0; XVal 3; XArg 0; XExc 9] /\
  all_events (fst r) = [ECtor 7; EArg 0; EAw 5; EArg 0; ECtor 8; EArg 0; EDtor 8; EDtor 7] /\
  live (snd r) = false.
Proof. vm_compute. repeat split; reflexivity. Qed.
