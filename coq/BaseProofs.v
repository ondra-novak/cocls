(* BaseProofs.v — lemmas about the shared helpers of Base.v and the list facts several components use
   (set_nth, nth_error, zlen, Forall, NoDup over ++), an invariant of a step carried through a fold,
   and the thread a schedule picks *)
From Cocls Require Import Base.
Local Open Scope Z_scope.

Arguments count_z : simpl nomatch.

Lemma count_z_app x a b : count_z x (a ++ b) = (count_z x a + count_z x b)%nat.
Proof. induction a as [|y a IH]; cbn [count_z app]; [reflexivity|]. rewrite IH. lia. Qed.

Lemma count_z_nil x : count_z x [] = 0%nat. Proof. reflexivity. Qed.

Lemma count_z_cons x y l : count_z x (y :: l) = ((if Z.eqb x y then 1 else 0) + count_z x l)%nat.
Proof. reflexivity. Qed.

Lemma count_z_occ x l : count_z x l = count_occ Z.eq_dec l x.
Proof.
  induction l as [|y l IH]; cbn [count_z count_occ]; [reflexivity|].
  destruct (Z.eq_dec y x) as [E|E]; destruct (Z.eqb_spec x y) as [F|F]; subst; try congruence; lia.
Qed.

Lemma perm_of_counts a b : (forall x, count_z x a = count_z x b) -> Permutation a b.
Proof.
  intros H. apply (Permutation_count_occ Z.eq_dec). intros x. rewrite <- !count_z_occ. apply H.
Qed.

Lemma counts_of_perm a b : Permutation a b -> forall x, count_z x a = count_z x b.
Proof.
  intros H x. rewrite !count_z_occ. apply (Permutation_count_occ Z.eq_dec). exact H.
Qed.

Lemma count_z_removelast_last x l d : l <> [] ->
  count_z x l = (count_z x (removelast l) + count_z x [last l d])%nat.
Proof.
  intros H. rewrite <- count_z_app. rewrite <- app_removelast_last by exact H. reflexivity.
Qed.

Lemma memz_In x l : memz x l = true <-> In x l.
Proof.
  induction l as [|y l IH]; cbn [memz In]; [split; [discriminate|tauto]|].
  rewrite orb_true_iff, IH. destruct (Z.eqb_spec x y); split; intros [?|?]; auto; try discriminate; subst; auto; congruence.
Qed.

Lemma count_z_In x l : (0 < count_z x l)%nat <-> In x l.
Proof.
  induction l as [|y l IH]; cbn [count_z In]; [split; [lia|tauto]|].
  destruct (Z.eqb_spec x y); subst; split; intros; auto; try lia.
  - right. apply IH. lia.
  - destruct H; [congruence|]. apply IH in H. lia.
Qed.

Lemma count_z_remove1_same x l : In x l -> count_z x l = S (count_z x (remove1 x l)).
Proof.
  induction l as [|y l IH]; cbn [remove1 count_z In]; [tauto|].
  intros H. destruct (Z.eqb_spec x y); subst; [lia|].
  cbn [count_z]. destruct (Z.eqb_spec x y); [congruence|]. destruct H; [congruence|]. rewrite (IH H). lia.
Qed.

Lemma count_z_remove1_other x y l : x <> y -> count_z x (remove1 y l) = count_z x l.
Proof.
  intros N. induction l as [|z l IH]; cbn [remove1 count_z]; [reflexivity|].
  destruct (Z.eqb_spec y z); subst.
  - destruct (Z.eqb_spec x z); [congruence|]. lia.
  - cbn [count_z]. rewrite IH. reflexivity.
Qed.

(* perm_b decides multiset equality *)
Lemma perm_b_sound a : forall b, perm_b a b = true -> Permutation a b.
Proof.
  induction a as [|x a IH]; intros b; cbn [perm_b].
  - destruct b; [constructor|discriminate].
  - rewrite andb_true_iff. intros [M P]. apply memz_In in M. apply IH in P.
    apply perm_of_counts. intros y. pose proof (counts_of_perm _ _ P y) as C.
    cbn [count_z]. destruct (Z.eqb_spec y x); subst.
    + rewrite (count_z_remove1_same x b M). lia.
    + rewrite count_z_remove1_other in C by exact n. lia.
Qed.

Lemma perm_b_complete a : forall b, Permutation a b -> perm_b a b = true.
Proof.
  induction a as [|x a IH]; intros b P; cbn [perm_b].
  - apply Permutation_nil in P. subst. reflexivity.
  - assert (In x b) as M by (eapply Permutation_in; [exact P|left; reflexivity]).
    rewrite (proj2 (memz_In x b) M). cbn [andb]. apply IH.
    apply perm_of_counts. intros y. pose proof (counts_of_perm _ _ P y) as C.
    cbn [count_z] in C. destruct (Z.eqb_spec y x); subst.
    + rewrite (count_z_remove1_same x b M) in C. lia.
    + rewrite count_z_remove1_other by exact n. lia.
Qed.

Lemma nodup_b_NoDup l : nodup_b l = true <-> NoDup l.
Proof.
  induction l as [|x l IH]; cbn [nodup_b]; [split; [constructor|reflexivity]|].
  rewrite andb_true_iff, negb_true_iff, IH. split.
  - intros [M N]. constructor; [|exact N]. intro I. apply memz_In in I. congruence.
  - intros N. inversion N; subst. split; [|assumption].
    destruct (memz x l) eqn:E; [|reflexivity]. apply memz_In in E. contradiction.
Qed.

(* ---- set_nth, zlen, Forall: the list facts every component needs ---- *)
Lemma set_nth_length {A} (l : list A) i x : length (set_nth l i x) = length l.
Proof. revert i; induction l as [|y l IH]; intros [|i]; cbn; auto. Qed.

Lemma nth_error_set_nth_same {A} (l : list A) i x : (i < length l)%nat -> nth_error (set_nth l i x) i = Some x.
Proof.
  revert i; induction l as [|y l IH]; intros [|i] H; cbn in *; try lia; [reflexivity|]. apply IH. lia.
Qed.

Lemma nth_error_set_nth_other {A} (l : list A) i j x : i <> j -> nth_error (set_nth l i x) j = nth_error l j.
Proof.
  revert i j; induction l as [|y l IH]; intros [|i] [|j] H; cbn; try reflexivity; try congruence.
  apply IH. congruence.
Qed.

Lemma nth_error_set_nth {A} (l : list A) i x j :
  nth_error (set_nth l i x) j =
  if Nat.eqb i j then match nth_error l i with Some _ => Some x | None => None end else nth_error l j.
Proof.
  destruct (Nat.eqb_spec i j) as [<-|N]; [|apply nth_error_set_nth_other; exact N].
  destruct (nth_error l i) eqn:E.
  - apply nth_error_set_nth_same. apply nth_error_Some. congruence.
  - apply nth_error_None. rewrite set_nth_length. apply nth_error_None. exact E.
Qed.

Lemma nth_set_nth_same {A} (l : list A) i x d : (i < length l)%nat -> nth i (set_nth l i x) d = x.
Proof. intros H. apply nth_error_nth. apply nth_error_set_nth_same. exact H. Qed.

Lemma nth_set_nth_other {A} (l : list A) i j x d : i <> j -> nth j (set_nth l i x) d = nth j l d.
Proof. revert i j; induction l as [|y l IH]; intros [|i] [|j] H; cbn; auto; congruence. Qed.

Lemma nth_set_nth {A} (l : list A) i j x d :
  nth j (set_nth l i x) d = if (Nat.eqb i j && Nat.ltb i (length l))%bool then x else nth j l d.
Proof.
  destruct (Nat.eqb_spec i j) as [<-|N]; [|apply nth_set_nth_other; exact N].
  destruct (Nat.ltb_spec i (length l)) as [L|L]; [apply nth_set_nth_same; exact L|].
  rewrite !nth_overflow; [reflexivity|exact L|rewrite set_nth_length; exact L].
Qed.

Lemma set_nth_same_id {A} (l : list A) : forall i x, nth_error l i = Some x -> set_nth l i x = l.
Proof. induction l as [|y l IH]; intros [|i] x H; cbn in *; try discriminate; [inversion H; reflexivity|f_equal; auto]. Qed.

Lemma In_set_nth {A} (l : list A) i x y : In y (set_nth l i x) -> y = x \/ In y l.
Proof.
  revert i. induction l as [|z l IH]; intros [|i] H; cbn in *; auto.
  - destruct H as [H|H]; auto.
  - destruct H as [H|H]; auto. destruct (IH i H); auto.
Qed.

Lemma Forall_set_nth {A} (P : A -> Prop) l i x : Forall P l -> P x -> Forall P (set_nth l i x).
Proof.
  intros H Hx. revert i. induction H as [|h t Hh Ht IH]; intros [|i]; cbn [set_nth]; constructor; auto.
Qed.

Lemma Forall_nth_error {A} (P : A -> Prop) l i x : Forall P l -> nth_error l i = Some x -> P x.
Proof. intros H E. rewrite Forall_forall in H. apply H. eapply nth_error_In; eauto. Qed.

Lemma zlen_nil {A} : zlen (@nil A) = 0%Z. Proof. reflexivity. Qed.
Lemma zlen_cons {A} (x : A) l : zlen (x :: l) = (zlen l + 1)%Z.
Proof. unfold zlen. cbn [length]. lia. Qed.
Lemma zlen_app {A} (a b : list A) : zlen (a ++ b) = (zlen a + zlen b)%Z.
Proof. unfold zlen. rewrite app_length. lia. Qed.
Lemma zlen_nonneg {A} (l : list A) : (0 <= zlen l)%Z. Proof. unfold zlen. lia. Qed.
Lemma zlen_map {A B} (f : A -> B) l : zlen (map f l) = zlen l.
Proof. unfold zlen. rewrite map_length. reflexivity. Qed.
Lemma zlen_nil_inv {A} (l : list A) : zlen l = 0%Z -> l = [].
Proof. destruct l; [reflexivity|]. unfold zlen. cbn [length]. lia. Qed.

Lemma filter_snoc {A} (f : A -> bool) l x : filter f (l ++ [x]) = filter f l ++ (if f x then [x] else []).
Proof. rewrite filter_app. cbn [filter]. destruct (f x); reflexivity. Qed.

Lemma NoDup_app_comm {A} (a b : list A) : NoDup (a ++ b) -> NoDup (b ++ a).
Proof. apply Permutation_NoDup, Permutation_app_comm. Qed.

Lemma NoDup_app_l {A} (a b : list A) : NoDup (a ++ b) -> NoDup a.
Proof. induction a as [|x a IH]; cbn; intros H; [constructor|]. inversion H; subst. constructor; [intros Q; apply H2, in_or_app; left; exact Q|apply IH; assumption]. Qed.

Lemma NoDup_app_r {A} (a b : list A) : NoDup (a ++ b) -> NoDup b.
Proof. intros H. apply NoDup_app_comm in H. apply NoDup_app_l in H. exact H. Qed.

(* the thread a schedule picks: choice k among a non-empty list of enabled threads *)
Lemma nth_mod_In {A} (l : list A) k d : l <> [] -> In (nth (Z.to_nat (k mod zlen l)) l d) l.
Proof.
  intros N. apply nth_In. unfold zlen. destruct l as [|x l]; [contradiction|]. cbn [length].
  assert (0 <= k mod Z.of_nat (S (length l)) < Z.of_nat (S (length l))) by (apply Z.mod_pos_bound; lia). lia.
Qed.

(* ---- option-slot stores ---- *)
Lemma ensure_length {A} (l : list (option A)) i : (i < length (ensure l i))%nat.
Proof.
  revert l; induction i as [|i IH]; intros [|y l]; cbn; try lia.
  - specialize (IH []). lia.
  - specialize (IH l). lia.
Qed.

Lemma get_ensure {A} (l : list (option A)) i j : get (ensure l i) j = get l j.
Proof.
  unfold get. revert l j; induction i as [|i IH]; intros [|y l] [|j]; cbn; try reflexivity.
  - destruct j; reflexivity.
  - specialize (IH [] j). cbn in IH. destruct j; cbn in *; exact IH.
  - apply IH.
Qed.

Lemma get_put_same {A} (l : list (option A)) i x : get (put l i x) i = x.
Proof.
  unfold get, put. rewrite nth_error_set_nth_same by apply ensure_length. destruct x; reflexivity.
Qed.

Lemma get_put_other {A} (l : list (option A)) i j x : i <> j -> get (put l i x) j = get l j.
Proof.
  intros H. unfold put. unfold get at 1. rewrite nth_error_set_nth_other by exact H.
  change (get (ensure l i) j = get l j). apply get_ensure.
Qed.

(* an invariant of the step function is an invariant of every run *)
Lemma fold_left_inv {C Ch} (step : C -> Ch -> C) (Inv : C -> Prop) :
  (forall c ch, Inv c -> Inv (step c ch)) -> forall sched c, Inv c -> Inv (fold_left step sched c).
Proof. intros H sched. induction sched as [|ch t IH]; intros c I; cbn; auto. Qed.
