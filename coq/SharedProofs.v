(* SharedProofs.v — the invariant of SharedInv.v holds in every reachable state (every construction mode, resolver kind,
   any number of user threads of any kinds, every schedule) *)
From Cocls Require Import Base BaseProofs SharedDefs.
From Cocls Require Export SharedInv.
Local Open Scope nat_scope.

Theorem inv_step {m0 r0 ks} s i : @Inv m0 r0 ks s -> enabled s i = true -> @Inv m0 r0 ks (fst (tstep s i)).
Proof.
  intros I E. destruct i as [|[|j]]; cbn [tstep].
  - apply inv_cstep; [exact I|]. cbn [enabled] in E. destruct (cpcf s); congruence.
  - apply inv_rstep; assumption.
  - apply inv_ustep; assumption.
Qed.

Theorem inv_reachable ops s : reachable ops s ->
  @Inv (mode_of ops) (res_of ops) (map ukd (flat_map decode_user ops)) s.
Proof. induction 1; [apply inv_init|apply inv_step; assumption]. Qed.

