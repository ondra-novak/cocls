(* AggrProofs.v — the generator_aggregator model (C14): three developments over one case analysis of `step`
   (`stepped`, with `resume` = the loop answering an access and `die` = ~controller).
   1. accounting: `AInv`, count = queued + in flight (+ 1 at a yield);
   2. per-source order and union: `TInv` over `SrcOK`; Properties_C14 states these with `deliv`/`dstep` (the
      (source, value) pairs delivered), `recvd`/`rstep` (the (source, argument) pairs received) and `Sof` (a source's
      value sequence under its arguments), from `build_state`;
   3. RAII balance per source frame: `ccount`, `gcount`, `step_bal`. *)
From Cocls Require Import Base BaseProofs GenDefs GenProofs AggrDefs.
Local Open Scope nat_scope.

Definition pendb (s : src) : bool := match s_bst s with BPend _ => true | _ => false end.
Definition b2n (b : bool) : nat := if b then 1 else 0.

Fixpoint npend (l : list src) : nat :=
  match l with [] => 0 | s :: t => b2n (pendb s) + npend t end.

Lemma npend_app a b : npend (a ++ b) = npend a + npend b.
Proof. induction a; cbn; auto. rewrite IHa. lia. Qed.

Lemma npend_set : forall l i s, i < length l ->
  npend (set_nth l i s) + b2n (pendb (nth i l (src0 []))) = npend l + b2n (pendb s).
Proof.
  induction l as [|h t IH]; intros i s Hi; [cbn in Hi; lia|].
  destruct i; cbn [set_nth nth npend]; [lia|].
  cbn in Hi. specialize (IH i s ltac:(lia)). lia.
Qed.

Definition arg_is (a : Z) (e : event) : Prop := match e with EArg x => x = a | _ => True end.

Lemma exec_arg_events : forall pc gs cur arg,
  let '(_, _, _, _, ev) := exec pc gs cur arg in Forall (arg_is arg) ev.
Proof.
  assert (HD : forall a gs, Forall (arg_is a) (map EDtor gs)) by (intros a gs; induction gs; cbn; constructor; cbn; auto).
  induction pc as [|i t IH]; intros gs cur arg; [unfold exec; cbn; apply HD|].
  destruct i; unfold exec; fold exec; try (constructor; fail); try apply HD; try apply IH.
  - specialize (IH gs cur arg). destruct (exec t gs cur arg) as [[[[st p] g] c] ev]. constructor; [exact I|exact IH].
  - destruct (Nat.ltb (length gs) max_guards); [|apply IH].
    specialize (IH (x :: gs) cur arg). destruct (exec t (x :: gs) cur arg) as [[[[st p] g] c] ev]. constructor; [exact I|exact IH].
  - destruct gs as [|x g']; [apply IH|].
    specialize (IH g' cur arg). destruct (exec t g' cur arg) as [[[[st p] g] c] ev]. constructor; [exact I|exact IH].
  - specialize (IH gs arg arg). destruct (exec t gs arg arg) as [[[[st p] g] c] ev]. constructor; [reflexivity|exact IH].
Qed.

(* charge and complete_src both run the body from the source's frame; a = the argument the body sees *)
Lemma src_resumed x s a r :
  charge s a = Some r \/ (exists v, complete_src s v = Some r /\ s_arg s = a) ->
  let '(s1, b, e) := r in
  pendb s1 = negb b /\
  count_ev (is_ctor x) e + count_z x (s_gds s) = count_ev (is_dtor x) e + count_z x (s_gds s1) /\
  Forall (arg_is a) e /\ s_arg s1 = a.
Proof.
  assert (G : forall s_in cur pre, s_arg s_in = a -> Forall (arg_is a) pre ->
            count_ev (is_ctor x) pre = 0 -> count_ev (is_dtor x) pre = 0 ->
            let '(s2, b, ev) := src_after s_in (exec (s_pc s) (s_gds s) cur a) in
            pendb s2 = negb b /\
            count_ev (is_ctor x) (pre ++ ev) + count_z x (s_gds s) = count_ev (is_dtor x) (pre ++ ev) + count_z x (s_gds s2) /\
            Forall (arg_is a) (pre ++ ev) /\ s_arg s2 = a).
  { intros s_in cur pre Ha Hpre Hc Hd.
    pose proof (exec_balance x (s_pc s) (s_gds s) cur a) as HB. pose proof (exec_arg_events (s_pc s) (s_gds s) cur a) as HE.
    destruct (exec (s_pc s) (s_gds s) cur a) as [[[[st p] g] c] ev].
    destruct st; cbn [src_after]; rewrite !count_ev_app, Hc, Hd; cbn;
      (split; [reflexivity|]); (split; [exact HB|]); (split; [apply Forall_app; auto|exact Ha]). }
  intros [H|(v & H & <-)].
  - unfold charge in H. destruct (s_bst s); try discriminate.
    + injection H as <-.
      pose proof (G (mkSrc (s_pc s) (s_gds s) (s_cur s) a BInit (s_ret s) (s_exn s) (s_done s)) (s_cur s) []
                    eq_refl ltac:(constructor) eq_refl eq_refl) as HG.
      destruct (src_after _ _) as [[s2 b] ev]. exact HG.
    + pose proof (G (mkSrc (s_pc s) (s_gds s) a a BYield (s_ret s) (s_exn s) (s_done s)) a [EArg a]
                    eq_refl ltac:(repeat constructor) eq_refl eq_refl) as HG.
      destruct (src_after _ _) as [[s2 b] ev]. injection H as <-. exact HG.
  - unfold complete_src in H. destruct (s_bst s); try discriminate.
    pose proof (G s (s_cur s) [EAw v] eq_refl ltac:(repeat constructor) eq_refl eq_refl) as HG.
    destruct (src_after _ _) as [[s2 b] ev]. injection H as <-. exact HG.
Qed.

Lemma charge_pend s a s2 b ev : charge s a = Some (s2, b, ev) -> pendb s = false /\ pendb s2 = negb b.
Proof.
  intro H. split; [|exact (proj1 (src_resumed 0%Z s a _ (or_introl H)))].
  unfold charge, pendb in *. destruct (s_bst s); auto; discriminate.
Qed.

Lemma complete_pend s v s2 b ev : complete_src s v = Some (s2, b, ev) -> pendb s = true /\ pendb s2 = negb b.
Proof.
  intro H. split; [|exact (proj1 (src_resumed 0%Z s _ _ (or_intror (ex_intro _ v (conj H eq_refl)))))].
  unfold complete_src, pendb in *. destruct (s_bst s); auto; discriminate.
Qed.

Lemma charge_bal x s a s1 b e : charge s a = Some (s1, b, e) ->
  count_ev (is_ctor x) e + count_z x (s_gds s) = count_ev (is_dtor x) e + count_z x (s_gds s1).
Proof. intro H. exact (proj1 (proj2 (src_resumed x s a _ (or_introl H)))). Qed.

Lemma complete_bal x s v s1 b e : complete_src s v = Some (s1, b, e) ->
  count_ev (is_ctor x) e + count_z x (s_gds s) = count_ev (is_dtor x) e + count_z x (s_gds s1).
Proof. intro H. exact (proj1 (proj2 (src_resumed x s _ _ (or_intror (ex_intro _ v (conj H eq_refl)))))). Qed.

Definition is_yield (o : outcome) : nat := match o with OYield _ _ => 1 | _ => 0 end.

(* accounting of one run of the loop: every iteration that does not stop retires one source (count - 1) and
   consumes one completion (queue - 1); a yield consumes one completion and retires nobody *)
Definition loop_acc (l : list src) (q : list nat) (c : nat) (r : outcome * list nat * nat * option Z) : Prop :=
  let '(o, q', c', x') := r in
  c' + length q = c + length q' + is_yield o /\
  (o = OWait -> q' = [] /\ c' > 0) /\
  (match o with OThrow _ | ORet => c' = 0 | _ => True end) /\
  (forall j, In j q' -> In j q) /\
  (forall i v, o = OYield i v -> In i q /\ s_ret (get_src l i) = Some v /\ s_done (get_src l i) = false /\ s_exn (get_src l i) = None).

Lemma loop_acc_pop l i q c r : loop_acc l q c r -> loop_acc l (i :: q) (S c) r.
Proof.
  destruct r as [[[o q'] c'] x']. unfold loop_acc. intros (H1 & H2 & H3 & H4 & H5). cbn [length].
  split; [lia|]. split; [exact H2|]. split; [exact H3|]. split; [intros j Hj; right; auto|].
  intros i0 v Ho. destruct (H5 i0 v Ho) as (Ha & Hb). split; [right; exact Ha|exact Hb].
Qed.

Lemma agg_loop_acc : forall l q c x, loop_acc l q c (agg_loop l q c x).
Proof.
  intros l q. induction q as [|i q IH]; intros c x.
  - destruct c; cbn; [destruct x|]; repeat split; auto; try lia; intros; discriminate.
  - destruct c as [|c]; cbn [agg_loop].
    + destruct x; cbn; repeat split; auto; try discriminate; intros; discriminate.
    + destruct (s_done (get_src l i)) eqn:Ed; [apply loop_acc_pop, IH|].
      destruct (s_exn (get_src l i)) eqn:Ex; [apply loop_acc_pop, IH|].
      destruct (s_ret (get_src l i)) eqn:Er; [|apply loop_acc_pop, IH].
      cbn. split; [lia|]. split; [discriminate|]. split; [exact I|]. split; [intros j Hj; right; auto|].
      intros i0 v Ho. injection Ho as <- <-. repeat split; auto.
Qed.

(* a remembered exception is never forgotten, and it is reported only when no source is active any more;
   the normal end is reached only without a remembered exception *)
Lemma agg_loop_exception : forall l q c x,
  let '(o, _, c', x') := agg_loop l q c x in
  (x <> None -> x' <> None) /\
  (forall e, o = OThrow e -> c' = 0 /\ x' = Some e) /\
  (o = ORet -> c' = 0 /\ x' = None /\ x = None).
Proof.
  intros l q. induction q as [|i q IH]; intros c x.
  - destruct c; cbn.
    + destruct x as [e0|]; cbn; (split; [auto|]);
      (split; [intros e1 H; try discriminate; try (injection H as <-; auto) | intro H; try discriminate; auto]).
    + repeat split; auto; intros; discriminate.
  - destruct c as [|c]; cbn [agg_loop].
    + destruct x as [e0|]; cbn; (split; [auto|]);
      (split; [intros e1 H; try discriminate; try (injection H as <-; auto) | intro H; try discriminate; auto]).
    + destruct (s_done (get_src l i)); [apply IH|].
      destruct (s_exn (get_src l i)).
      { specialize (IH c (Some z)). destruct (agg_loop l q c (Some z)) as [[[o q'] c'] x'].
        destruct IH as (H1 & H2 & H3). split; [intros _; apply H1; discriminate|]. split; [exact H2|].
        intro Ho. destruct (H3 Ho) as (_ & _ & Hx). discriminate. }
      destruct (s_ret (get_src l i)).
      { repeat split; auto; intros; discriminate. }
      { specialize (IH c (Some (-1)%Z)). destruct (agg_loop l q c (Some (-1)%Z)) as [[[o q'] c'] x'].
        destruct IH as (H1 & H2 & H3). split; [intros _; apply H1; discriminate|]. split; [exact H2|].
        intro Ho. destruct (H3 Ho) as (_ & _ & Hx). discriminate. }
Qed.

Lemma drain_acc : forall q c,
  let '(q', c', blocked) := drain q c in
  c' + length q = c + length q' /\
  (blocked = true -> q' = [] /\ c' > 1) /\
  (blocked = false -> c' <= 1) /\
  (forall j, In j q' -> In j q).
Proof.
  induction q as [|i q IH]; intros c.
  - destruct c as [|[|c]]; cbn; repeat split; auto; try lia; try discriminate.
  - destruct c as [|[|c]]; cbn [drain]; try (cbn; repeat split; auto; try lia; discriminate).
    specialize (IH (S c)). destruct (drain q (S c)) as [[q' c'] bl].
    destruct IH as (H1 & H2 & H3 & H4). cbn [length]. repeat split; auto; try lia; try (apply H2; auto); try (apply H3; auto).
    intros j Hj. right. auto.
Qed.

Definition QB (l : list src) (q : list nat) : Prop := Forall (fun j => j < length l) q.

Lemma remove_first_perm x q : mem_nat x q = true -> Permutation q (x :: remove_first x q).
Proof.
  induction q as [|y t IH]; cbn; [discriminate|].
  destruct (Nat.eqb x y) eqn:E; cbn; intro H.
  - apply Nat.eqb_eq in E. subst. apply Permutation_refl.
  - eapply perm_trans; [apply perm_skip; apply IH; exact H|apply perm_swap].
Qed.

Lemma reorder_perm : forall p q, Permutation (reorder q p) q.
Proof.
  induction p as [|x p IH]; intro q; cbn; [apply Permutation_refl|].
  destruct (mem_nat x q) eqn:E; [|apply IH].
  eapply perm_trans; [apply perm_skip; apply IH|]. apply Permutation_sym. apply remove_first_perm. exact E.
Qed.

Lemma reorder_length q p : length (reorder q p) = length q.
Proof. apply Permutation_length. apply reorder_perm. Qed.

Lemma reorder_QB l q p : QB l q -> QB l (reorder q p).
Proof. unfold QB. intro H. eapply Permutation_Forall; [apply Permutation_sym; apply reorder_perm|exact H]. Qed.

Lemma get_set_same l i s : i < length l -> get_src (set_src l i s) i = s.
Proof. apply nth_set_nth_same. Qed.

Lemma get_set_other l i j s : j <> i -> get_src (set_src l i s) j = get_src l j.
Proof. intro H. apply nth_set_nth_other. congruence. Qed.

Lemma set_src_length l i s : length (set_src l i s) = length l.
Proof. apply set_nth_length. Qed.

Lemma fire_acc l q i s1 (b : bool) : i < length l -> pendb s1 = negb b -> QB l q ->
  length (if b then q ++ [i] else q) + npend (set_src l i s1) + b2n (pendb (get_src l i)) = length q + npend l + 1 /\
  QB (set_src l i s1) (if b then q ++ [i] else q).
Proof.
  intros Hi Hp HQ. pose proof (npend_set l i s1 Hi) as HN. rewrite Hp in HN.
  unfold QB, get_src, set_src. rewrite set_nth_length.
  destruct b; cbn [negb b2n] in HN; [rewrite app_length; cbn [length]|]; (split; [lia|]); [|exact HQ].
  apply Forall_app. split; [exact HQ|repeat constructor; exact Hi].
Qed.

Lemma forall_init_get l j : Forall (fun s => s_bst s = BInit) l -> s_bst (get_src l j) = BInit.
Proof.
  intro H. revert j. induction H as [|s t Hs _ IH]; intros [|j]; try reflexivity; [exact Hs|apply IH].
Qed.

Lemma npend_init l : Forall (fun s => s_bst s = BInit) l -> npend l = 0.
Proof. induction 1 as [|s t Hs _ IH]; [reflexivity|]. cbn. unfold pendb. rewrite Hs. exact IH. Qed.

(* the start-up loop charges the sources in order: what holds before it and is kept by charging source i (all sources
   from i on still unstarted) holds after it *)
Lemma charge_all_ind (P : nat -> list src -> list nat -> list sevent -> Prop) l0 a :
  Forall (fun s => s_bst s = BInit) l0 ->
  P 0 l0 [] [] ->
  (forall i l q ev s1 b e, i < length l -> s_bst (get_src l i) = BInit -> charge (get_src l i) a = Some (s1, b, e) ->
     P i l q ev -> P (S i) (set_src l i s1) (if b then q ++ [i] else q) (ev ++ tag_ev i e)) ->
  let '(l', q', ev', _) := charge_all l0 a in P (length l') l' q' ev'.
Proof.
  intros HF H0 HS. unfold charge_all.
  assert (G : forall n i l q ev err, i + n = length l ->
            (forall j, i <= j -> j < length l -> s_bst (get_src l j) = BInit) -> P i l q ev ->
            let '(l', q', ev', _) := charge_from n i a l q ev err in P (length l') l' q' ev').
  { induction n as [|n IH]; intros i l q ev err Hn HB HP; cbn [charge_from].
    - replace (length l) with i by lia. exact HP.
    - assert (Hi : i < length l) by lia. pose proof (HB i (le_n i) Hi) as Hb.
      destruct (charge (get_src l i) a) as [[[s1 b] e]|] eqn:Ec; [|unfold charge in Ec; rewrite Hb in Ec; discriminate].
      apply IH; [rewrite set_src_length; lia| |apply HS; assumption].
      intros j Hj Hjl. rewrite set_src_length in Hjl. rewrite get_set_other by lia. apply HB; lia. }
  apply G; auto. intros j _ _. apply forall_init_get. exact HF.
Qed.

Definition terminal_res (r : res) : Prop := match r with RExc _ | REndF | REndT => True | _ => False end.

Definition all_recv (n : nat) (a : Z) : list (nat * Z) := map (fun j => (j, a)) (seq 0 n).

(* which sources receive the argument of op x issued in state g *)
Definition rstep (ha : bool) (g : agg) (x : op) : list (nat * Z) :=
  match x with
  | OAccess y a _ =>
      if idle g && style_ok ha y then
        match ast g with
        | AInit => all_recv (length (srcs g)) a
        | AYield i => [(i, a)]
        | _ => []
        end
      else []
  | _ => []
  end.

(* the aggregate coroutine runs its loop over sources l and queue q and answers the access of style y *)
Definition resume (g0 : agg) (l : list src) (q : list nat) (c : nat) (x : option Z) (y : Z) (ev : list sevent) : agg * obs :=
  let '(g1, r) := apply_outcome g0 l (agg_loop l q c x) y in (g1, mkObs 0 r false (done_flag g1) ev).

(* ~controller over sources l and queue q: blocks, or destroys every source frame *)
Definition die (g : agg) (l : list src) (q : list nat) (o : option Z) (ev : list sevent) : agg * obs :=
  let '(q1, c1, blocked) := drain q (count g) in
  let g0 := mkAgg l q1 c1 (aexp g) ADying (aret g) (aexn g) (adone g) o (aerr g) in
  if blocked then (g0, mkObs 0 RPend false 2 ev)
  else (fst (finish_destroy g0 q1 c1), mkObs 0 RNone true 2 (ev ++ destroy_srcs l 0)).

(* the ways `step` handles an op, one constructor each (an inclusion: step_stepped).  The invariants below are
   proved through these cases and the facts about `resume` and `die` instead of unfolding `step`. *)
Inductive stepped (ha : bool) (g : agg) : op -> agg * obs -> Prop :=
| st_rejected x : rstep ha g x = [] -> stepped ha g x (g, rejected)
| st_source sc : ast g = ANew ->
    stepped ha g (OSource sc)
      (mkAgg (srcs g ++ [src0 sc]) (queue g) (count g) (aexp g) ANew (aret g) (aexn g) (adone g) (aout g) (aerr g),
       mkObs 0 RNone false 2 [])
| st_build : ast g = ANew ->
    stepped ha g OBuild
      (mkAgg (srcs g) [] (length (srcs g)) None AInit None None false None (aerr g), mkObs 0 RNone false 0 [])
| st_first y a p l q ev e : idle g && style_ok ha y = true -> ast g = AInit -> charge_all (srcs g) a = (l, q, ev, e) ->
    stepped ha g (OAccess y a p)
      (resume (mkAgg l (reorder q p) (count g) (aexp g) (ast g) (aret g) (aexn g) (adone g) (aout g) (aerr g || e))
              l (reorder q p) (count g) (aexp g) y ev)
| st_next y a p i s1 b e : idle g && style_ok ha y = true -> ast g = AYield i ->
    charge (get_src (srcs g) i) a = Some (s1, b, e) ->
    stepped ha g (OAccess y a p)
      (resume g (set_src (srcs g) i s1) (reorder (if b then queue g ++ [i] else queue g) p) (count g) (aexp g) y (tag_ev i e))
| st_next_fail y a p i g1 o : idle g && style_ok ha y = true -> ast g = AYield i ->
    charge (get_src (srcs g) i) a = None ->
    resume g (srcs g) (queue g) (pred (count g)) (Some (-2)%Z) y [] = (g1, o) ->
    stepped ha g (OAccess y a p)
      (mkAgg (srcs g1) (queue g1) (count g1) (aexp g1) (ast g1) (aret g1) (aexn g1) (adone g1) (aout g1) true, o)
| st_ended y a p r : idle g && style_ok ha y = true -> ast g = AFinal -> terminal_res r ->
    stepped ha g (OAccess y a p) (g, mkObs 0 r false (done_flag g) [])
| st_wake i v p y s1 b e : ast g = AWait -> aout g = Some y -> i < length (srcs g) ->
    complete_src (get_src (srcs g) i) v = Some (s1, b, e) ->
    stepped ha g (OComplete i v p)
      (resume g (set_src (srcs g) i s1) (reorder (if b then queue g ++ [i] else queue g) p) (count g) (aexp g) y (tag_ev i e))
| st_last i v p s1 b e : ast g = ADying -> i < length (srcs g) ->
    complete_src (get_src (srcs g) i) v = Some (s1, b, e) ->
    stepped ha g (OComplete i v p)
      (die g (set_src (srcs g) i s1) (if b then queue g ++ [i] else queue g) (aout g) (tag_ev i e))
| st_complete i v p s1 b e : ast g = AInit \/ (exists j, ast g = AYield j) \/ ast g = AFinal -> i < length (srcs g) ->
    complete_src (get_src (srcs g) i) v = Some (s1, b, e) ->
    stepped ha g (OComplete i v p)
      (mkAgg (set_src (srcs g) i s1) (if b then queue g ++ [i] else queue g) (count g) (aexp g) (ast g) (aret g) (aexn g)
             (adone g) (aout g) (aerr g),
       mkObs 0 RNone false (done_flag g) (tag_ev i e))
| st_drop : ast g = AInit -> stepped ha g ODestroy (finish_destroy g (queue g) (count g))
| st_destroy : (exists j, ast g = AYield j) \/ ast g = AFinal ->
    stepped ha g ODestroy (die g (srcs g) (queue g) (Some 0%Z) [])
| st_peek : stepped ha g OPeek (g, mkObs 0 (value_of g) false (done_flag g) []).

Lemma step_stepped ha g x : stepped ha g x (step ha g x).
Proof.
  destruct x as [sc| |y a p|i v p| | |]; cbn [step].
  - destruct (ast g) eqn:Ea; try (apply st_rejected; reflexivity).
    destruct (Nat.ltb (length (srcs g)) 12); [apply st_source; exact Ea|apply st_rejected; reflexivity].
  - destruct (ast g) eqn:Ea; try (apply st_rejected; reflexivity). apply st_build; exact Ea.
  - destruct (idle g && style_ok ha y) eqn:Eg; [|apply st_rejected; cbn; rewrite Eg; reflexivity].
    destruct (ast g) eqn:Ea; try (apply st_rejected; cbn; rewrite Eg, Ea; reflexivity).
    + destruct (charge_all (srcs g) a) as [[[l q] ev] e] eqn:Ec. rewrite <- Ea. eapply st_first; eassumption.
    + destruct (charge (get_src (srcs g) i) a) as [[[s1 b] e]|] eqn:Ec; [apply st_next; assumption|].
      destruct (apply_outcome g (srcs g) _ y) as [g1 r] eqn:E.
      eapply st_next_fail; try eassumption. unfold resume. rewrite E. reflexivity.
    + apply st_ended; auto. destruct (adone g); [destruct (fut_style y)|]; exact I.
  - destruct (ast g) eqn:Ea; try (apply st_rejected; reflexivity);
    (destruct (Nat.ltb i (length (srcs g))) eqn:Hlt; [apply Nat.ltb_lt in Hlt|apply st_rejected; reflexivity]);
    (destruct (complete_src (get_src (srcs g) i) v) as [[[s1 b] e]|] eqn:Ec; [|apply st_rejected; reflexivity]).
    + rewrite <- Ea. apply st_complete; auto.
    + rewrite <- Ea. apply st_complete; eauto.
    + destruct (aout g) as [y|] eqn:Eo; [apply st_wake; assumption|apply st_rejected; reflexivity].
    + rewrite <- Ea. apply st_complete; auto.
    + apply st_last; assumption.
  - destruct (idle g); [|apply st_rejected; reflexivity].
    destruct (ast g) eqn:Ea; try (apply st_rejected; reflexivity).
    + apply st_drop; exact Ea.
    + apply st_destroy; eauto.
    + apply st_destroy; auto.
  - destruct (idle g); [|apply st_rejected; reflexivity].
    destruct (ast g); try (apply st_rejected; reflexivity); apply st_peek.
  - apply st_rejected; reflexivity.
Qed.

(* case analysis of a step, naming what each case knows: Ea the state of the aggregate, Eg the guard of an access,
   Ec how the source concerned ran, Hi that its index is in range *)
Ltac step_cases ha g x :=
  destruct (step_stepped ha g x)
    as [xr Er|sc Ea|Ea|y a p l q ev e Eg Ea Ec|y a p i s1 b e Eg Ea Ec|y a p i g1 o Eg Ea Ec Er|y a p r Eg Ea Hr
       |i v p y s1 b e Ea Eo Hi Ec|i v p s1 b e Ea Hi Ec|i v p s1 b e Ea Hi Ec|Ea|Ea|].


Definition AInv (g : agg) : Prop :=
  match ast g with
  | ANew => Forall (fun s => s_bst s = BInit) (srcs g)
  | AInit => count g = length (srcs g) /\ Forall (fun s => s_bst s = BInit) (srcs g) /\ queue g = []
  | AYield i => count g = length (queue g) + npend (srcs g) + 1 /\ i < length (srcs g) /\ QB (srcs g) (queue g)
  | AWait => count g = npend (srcs g) /\ queue g = [] /\ count g > 0 /\ aout g <> None
  | AFinal => count g = 0 /\ queue g = [] /\ npend (srcs g) = 0
  | ADying => count g = npend (srcs g) + 1 /\ queue g = [] /\ count g > 1
  | ADead => True
  end.

Lemma resume_inv g0 l q c x y ev : c = length q + npend l -> QB l q -> AInv (fst (resume g0 l q c x y ev)).
Proof.
  intros Hc Hq. unfold resume.
  pose proof (agg_loop_acc l q c x) as HA.
  destruct (agg_loop l q c x) as [[[o q'] c'] x'].
  destruct HA as (H1 & H2 & H3 & H4 & H5). unfold QB in *. rewrite Forall_forall in Hq.
  destruct o as [i v| |e|]; unfold AInv; cbn [apply_outcome fst ast count queue srcs aout is_yield] in *.
  - destruct (H5 i v eq_refl) as (Hin & _).
    split; [lia|]. split; [apply Hq; exact Hin|]. apply Forall_forall. intros j Hj. apply Hq, H4, Hj.
  - destruct (H2 eq_refl) as (-> & Hp). cbn [length] in *. repeat split; try lia. discriminate.
  - subst c'. assert (length q' = 0) by lia. destruct q'; [|discriminate]. repeat split; lia.
  - subst c'. assert (length q' = 0) by lia. destruct q'; [|discriminate]. repeat split; lia.
Qed.

Lemma die_inv g l q o ev : count g = length q + npend l + 1 \/ count g = 0 -> AInv (fst (die g l q o ev)).
Proof.
  intro Hc. unfold die. pose proof (drain_acc q (count g)) as HD.
  destruct (drain q (count g)) as [[q1 c1] bl]. destruct HD as (H1 & H2 & _).
  destruct bl; [|exact I]. destruct (H2 eq_refl) as (-> & Hc1). cbn in H1.
  unfold AInv. cbn. repeat split; lia.
Qed.

Lemma npend_zero_nth : forall l i, npend l = 0 -> pendb (get_src l i) = false.
Proof.
  unfold get_src. induction l as [|s t IH]; intros i H; [destruct i; reflexivity|].
  cbn in H. destruct i; cbn.
  - destruct (pendb s); [cbn in H; lia|reflexivity].
  - apply IH. lia.
Qed.

Lemma npend_pos_exists : forall l, npend l > 0 -> exists i, i < length l /\ pendb (nth i l (src0 [])) = true.
Proof.
  induction l as [|s t IH]; cbn; intro H; [lia|].
  destruct (pendb s) eqn:E.
  - exists 0. split; [lia|exact E].
  - cbn in H. destruct (IH H) as (i & Hi & Hp). exists (S i). split; [lia|exact Hp].
Qed.

Lemma step_inv : forall ha g x, AInv g -> AInv (fst (step ha g x)).
Proof.
  intros ha g x HI. unfold AInv in HI.
  step_cases ha g x; try exact HI.
  - rewrite Ea in HI. unfold AInv. cbn. apply Forall_app. split; [exact HI|repeat constructor].
  - rewrite Ea in HI. unfold AInv. cbn. auto.
  - rewrite Ea in HI. destruct HI as (Hc & HF & _).
    pose proof (charge_all_ind (fun i l q _ => length q + npend l = i /\ length l = length (srcs g) /\ QB l q) (srcs g) a HF) as HC.
    rewrite Ec in HC. destruct HC as (H1 & H0 & H2).
    { rewrite (npend_init _ HF). repeat split. constructor. }
    { intros i l0 q0 ev0 s1 b e0 Hi _ Hc0 (I1 & I0 & I2). destruct (charge_pend _ _ _ _ _ Hc0) as [Hp0 Hp1].
      destruct (fire_acc l0 q0 i s1 b Hi Hp1 I2) as [HFa HQ]. rewrite Hp0 in HFa. rewrite set_src_length.
      split; [cbn in HFa; lia|]. split; [exact I0|exact HQ]. }
    apply resume_inv; [rewrite reorder_length; lia|apply reorder_QB; exact H2].
  - rewrite Ea in HI. destruct HI as (Hc & Hi & Hq). destruct (charge_pend _ _ _ _ _ Ec) as [Hp0 Hp1].
    destruct (fire_acc _ _ i s1 b Hi Hp1 Hq) as [HF HQ]. rewrite Hp0 in HF.
    apply resume_inv; [rewrite reorder_length; cbn in HF; lia|apply reorder_QB; exact HQ].
  - rewrite Ea in HI. destruct HI as (Hc & _ & Hq).
    pose proof (resume_inv g (srcs g) (queue g) (pred (count g)) (Some (-2)%Z) y [] ltac:(lia) Hq) as HA.
    rewrite Er in HA. exact HA.
  - rewrite Ea in HI. destruct HI as (Hc & Hq & _). destruct (complete_pend _ _ _ _ _ Ec) as [Hp0 Hp1].
    destruct (fire_acc _ (queue g) i s1 b Hi Hp1 ltac:(rewrite Hq; constructor)) as [HF HQ]. rewrite Hp0 in HF.
    apply (f_equal (@length _)) in Hq. apply resume_inv; [rewrite reorder_length; cbn in HF, Hq; lia|apply reorder_QB; exact HQ].
  - rewrite Ea in HI. destruct HI as (Hc & Hq & _). destruct (complete_pend _ _ _ _ _ Ec) as [Hp0 Hp1].
    destruct (fire_acc _ (queue g) i s1 b Hi Hp1 ltac:(rewrite Hq; constructor)) as [HF _]. rewrite Hp0 in HF.
    apply (f_equal (@length _)) in Hq. apply die_inv. left. cbn in HF, Hq. lia.
  - (* a completion while the aggregate is parked: only a source in flight can complete *)
    destruct (complete_pend _ _ _ _ _ Ec) as [Hp0 Hp1]. unfold AInv. cbn [ast count queue srcs fst].
    destruct Ea as [Ea|[[j Ea]|Ea]]; rewrite Ea in *.
    + destruct HI as (_ & HF & _). unfold pendb in Hp0. rewrite (forall_init_get _ i HF) in Hp0. discriminate.
    + destruct HI as (Hc & Hj & Hq). destruct (fire_acc _ _ i s1 b Hi Hp1 Hq) as [HF HQ]. rewrite Hp0 in HF.
      rewrite set_src_length. split; [cbn in HF; lia|]. split; [exact Hj|exact HQ].
    + destruct HI as (_ & _ & Hn). rewrite (npend_zero_nth _ i Hn) in Hp0. discriminate.
  - exact I.
  - apply die_inv. destruct Ea as [[j Ea]|Ea]; rewrite Ea in HI; [left|right]; apply HI.
Qed.

Lemma arun_cons ha g x ops :
  run_from ha g (x :: ops) =
  (snd (step ha g x) :: fst (run_from ha (fst (step ha g x)) ops), snd (run_from ha (fst (step ha g x)) ops)).
Proof. cbn [run_from]. destruct (step ha g x) as [g1 o]. cbn [fst snd]. destruct (run_from ha g1 ops); reflexivity. Qed.

Lemma run_inv : forall ha ops g, AInv g -> AInv (snd (run_from ha g ops)).
Proof.
  induction ops as [|x ops IH]; intros g HI; [exact HI|].
  rewrite arun_cons. cbn [snd]. apply IH. apply step_inv. exact HI.
Qed.

Lemma inv0 : AInv agg0.
Proof. unfold AInv. cbn. constructor. Qed.

Lemma drain_exact l q c : c = length q + npend l + 1 ->
  let '(q1, c1, blocked) := drain q c in
  q1 = [] /\ c1 = npend l + 1 /\
  (blocked = true <-> npend l > 0) /\
  (blocked = true -> exists j, j < length l /\ pendb (nth j l (src0 [])) = true).
Proof.
  intro Hc. pose proof (drain_acc q c) as HD.
  destruct (drain q c) as [[q1 c1] bl]. destruct HD as (H1 & H2 & H3 & H4).
  destruct bl.
  - destruct (H2 eq_refl) as (-> & Hc1). cbn in H1.
    assert (npend l > 0) by lia.
    repeat split; auto; try lia. intros _. apply npend_pos_exists. exact H.
  - specialize (H3 eq_refl). assert (length q1 = 0) by lia. destruct q1; [|discriminate]. cbn in H1.
    repeat split; auto; try lia; try discriminate.
Qed.

Theorem aggr_dead_rejects : forall ha g x, ast g = ADead -> aout g = None -> snd (step ha g x) = rejected.
Proof.
  intros ha g x Hd Ho. destruct x; cbn [step]; rewrite ?Hd; auto.
  - unfold idle. rewrite Ho. cbn. destruct (style_ok ha y); reflexivity.
  - unfold idle. rewrite Ho. reflexivity.
  - unfold idle. rewrite Ho. reflexivity.
Qed.


Definition dj (D : list (nat * Z)) (j : nat) : list Z :=
  map snd (filter (fun p => Nat.eqb (fst p) j) D).

Lemma dj_snoc D i v j : dj (D ++ [(i, v)]) j = if Nat.eqb i j then dj D j ++ [v] else dj D j.
Proof.
  unfold dj. rewrite filter_app, map_app. cbn. destruct (Nat.eqb i j); cbn; [reflexivity|apply app_nil_r].
Qed.

(* what a source yields, from its script and the arguments it receives.
   cur = the body's variable holding the last argument received, arg = the argument of the call that started /
   last resumed it, fut = the arguments of the resumptions still to come.  (YieldEcho yields cur.) *)
Fixpoint svals (pc : list instr) (cur arg : Z) (fut : list Z) : list Z :=
  match pc with
  | [] => []
  | IYield v :: t => v :: svals t (hd 0%Z fut) (hd 0%Z fut) (tl fut)
  | IYieldEcho :: t => cur :: svals t (hd 0%Z fut) (hd 0%Z fut) (tl fut)
  | IYieldNull :: t => svals t arg arg fut
  | IThrow _ :: _ => []
  | IReturn :: _ => []
  | _ :: t => svals t cur arg fut
  end.

Lemma svals_noecho : forall pc cur arg fut, has_echo pc = false -> svals pc cur arg fut = src_values pc.
Proof.
  induction pc as [|i t IH]; intros cur arg fut H; [reflexivity|].
  destruct i; cbn in *; try discriminate; try (f_equal; apply IH; exact H); auto.
Qed.

Lemma exec_svals : forall pc gs cur arg fut,
  match exec pc gs cur arg with
  | (SYield v, p, _, _, _) => svals pc cur arg fut = v :: svals p (hd 0%Z fut) (hd 0%Z fut) (tl fut)
  | (SPend _, p, _, c, _) => svals pc cur arg fut = svals p c arg fut
  | (SThrow _, p, _, _, _) => svals pc cur arg fut = [] /\ p = []
  | (SRet, p, _, _, _) => svals pc cur arg fut = [] /\ p = []
  end.
Proof.
  induction pc as [|i t IH]; intros gs cur arg fut; [unfold exec; cbn; auto|].
  destruct i; unfold exec; fold exec; cbn [svals]; auto.
  - specialize (IH gs cur arg fut). destruct (exec t gs cur arg) as [[[[st p] g] c] ev]. destruct st; auto.
  - destruct (Nat.ltb (length gs) max_guards); [|apply IH].
    specialize (IH (x :: gs) cur arg fut). destruct (exec t (x :: gs) cur arg) as [[[[st p] g] c] ev]. destruct st; auto.
  - destruct gs as [|x g']; [apply IH|].
    specialize (IH g' cur arg fut). destruct (exec t g' cur arg) as [[[[st p] g] c] ev]. destruct st; auto.
  - specialize (IH gs arg arg fut). destruct (exec t gs arg arg) as [[[[st p] g] c] ev]. destruct st; auto.
  - apply IH.
Qed.

(* what source state s will still yield, as a function of the arguments of its future resumptions.
   pre: during the start-up loop the first argument is already known (Some a0) although the source is not started *)
Definition remf (pre : option Z) (s : src) (fut : list Z) : list Z :=
  match s_bst s with
  | BInit => match pre with
             | None => svals (s_pc s) (s_cur s) (hd 0%Z fut) (tl fut)
             | Some a0 => svals (s_pc s) (s_cur s) a0 fut
             end
  | BYield => svals (s_pc s) (hd 0%Z fut) (hd 0%Z fut) (tl fut)
  | BPend _ => svals (s_pc s) (s_cur s) (s_arg s) fut
  | BFinal => []
  end.

(* the consumer holds a value of source j *)
Definition holds (yi : option nat) (j : nat) : bool := match yi with Some k => Nat.eqb k j | None => false end.

(* the value a source at its yield has produced and the loop has not handed out *)
Definition held (s : src) (taken : bool) : list Z :=
  match s_bst s, s_ret s with BYield, Some v => if taken then [] else [v] | _, _ => [] end.

(* The per-source invariant.
   S j fut = the complete value sequence of source j given the arguments it received so far followed by fut;
   D = delivered pairs; l = sources; q = completion queue; yi = the source whose value the consumer currently holds.
   Every value of source j is delivered, produced but still waiting in the queue (`held`), or yet to come (`remf`). *)
Definition SrcOK (S : nat -> list Z -> list Z) (pre : option Z) (D : list (nat * Z)) (l : list src) (q : list nat) (yi : option nat) (j : nat) : Prop :=
  let s := get_src l j in
  (forall fut, S j fut = dj D j ++ held s (holds yi j) ++ remf pre s fut) /\
  match s_bst s with
  | BInit | BPend _ => ~ In j q /\ holds yi j = false /\ s_done s = false /\ s_exn s = None
  | BYield => (exists v, s_ret s = Some v) /\ s_done s = false /\ s_exn s = None /\ (In j q <-> holds yi j = false)
  | BFinal => (s_done s = true \/ s_exn s <> None) /\ holds yi j = false
  end.

Definition AllOK S pre D l q yi : Prop := (forall j, j < length l -> SrcOK S pre D l q yi j) /\ NoDup q /\ QB l q.

Lemma holds_same i : holds (Some i) i = true.
Proof. apply Nat.eqb_refl. Qed.

Lemma holds_other i j : j <> i -> holds (Some i) j = false.
Proof. intro H. apply Nat.eqb_neq. congruence. Qed.

Lemma nodup_snoc (q : list nat) x : NoDup q -> ~ In x q -> NoDup (q ++ [x]).
Proof.
  intros HN Hx. apply NoDup_app_comm. cbn. constructor; assumption.
Qed.

Lemma srcok_transfer S S' pre D D' l l' q q' yi yi' j :
  SrcOK S pre D l q yi j -> get_src l' j = get_src l j -> (In j q' <-> In j q) -> holds yi' j = holds yi j ->
  (forall fut, S' j fut = S j fut) -> dj D' j = dj D j ->
  SrcOK S' pre D' l' q' yi' j.
Proof.
  unfold SrcOK. intros [HE HM] Hg Hq Hy HS HD. rewrite Hg, Hy, HD.
  split; [intro fut; rewrite HS; apply HE|]. destruct (s_bst (get_src l j)); tauto.
Qed.

(* the loop delivers at most one value and keeps every source accounted for *)
Lemma loop_ok : forall S pre l q D c x,
  AllOK S pre D l q None ->
  let '(o, q', c', x') := agg_loop l q c x in
  match o with
  | OYield i v => AllOK S pre (D ++ [(i, v)]) l q' (Some i)
  | _ => AllOK S pre D l q' None
  end.
Proof.
  intros S pre l q. induction q as [|i q IH]; intros D c x HA.
  - destruct c; cbn; [destruct x|]; exact HA.
  - destruct c as [|c]; cbn [agg_loop]; [destruct x; exact HA|].
    destruct HA as (HS & HN & HQ).
    apply NoDup_cons_iff in HN as [Hni HN']. pose proof (Forall_inv HQ) as Hi. pose proof (Forall_inv_tail HQ) as HQ'. cbn beta in Hi.
    (* popping i leaves every other source as it was *)
    assert (OTH : forall D' yi', yi' = None \/ yi' = Some i -> forall j, j < length l -> j <> i -> dj D' j = dj D j ->
                  SrcOK S pre D' l q yi' j).
    { intros D' yi' Hy j Hj Hne HD. apply (srcok_transfer S S pre D D' l l (i :: q) q None yi' j (HS j Hj)); auto.
      - split; [intro H; right; exact H|intros [H|H]; [congruence|exact H]].
      - destruct Hy as [->| ->]; [reflexivity|apply holds_other; exact Hne]. }
    destruct (HS i Hi) as [HE HM]. cbn [holds] in HE, HM.
    destruct (s_bst (get_src l i)) eqn:Eb; try (exfalso; apply (proj1 HM); left; reflexivity).
    + destruct HM as ((v & Hr) & Hd & Hx & _). rewrite Hd, Hx, Hr. split; [|split; auto].
      intros j Hj. destruct (Nat.eq_dec j i) as [->|Hne]; [|apply OTH; auto; rewrite dj_snoc, (proj2 (Nat.eqb_neq i j)); congruence].
      unfold SrcOK. rewrite Eb, dj_snoc, holds_same, Nat.eqb_refl. split; [|intuition eauto; discriminate].
      intro fut. rewrite HE. unfold held. rewrite Eb, Hr, <- app_assoc. reflexivity.
    + assert (REC : AllOK S pre D l q None).
      { split; [|split; auto]. intros j Hj.
        destruct (Nat.eq_dec j i) as [->|Hne]; [unfold SrcOK; rewrite Eb; split; [exact HE|exact HM]|apply OTH; auto]. }
      destruct (s_done (get_src l i)) eqn:Ed; [apply IH, REC|].
      destruct (s_exn (get_src l i)) eqn:Ex; [apply IH, REC|].
      destruct HM as [[H|H] _]; congruence.
Qed.

(* a source that is not queued and not the yielded one runs (from the start, from its yield, or from a completed
   await) until its next stop: it is queued iff its callback fired, and stays accounted for *)
Lemma fire_ok : forall S pre D l q yi yi' j0 s_in gs cur arg,
  (forall j, j < length l -> j <> j0 -> SrcOK S pre D l q yi j) -> NoDup q -> QB l q ->
  j0 < length l -> ~ In j0 q -> holds yi' j0 = false ->
  (forall j, j <> j0 -> holds yi' j = holds yi j) ->
  s_done s_in = false -> s_exn s_in = None ->
  (forall fut, S j0 fut = dj D j0 ++ svals (s_pc s_in) cur arg fut) ->
  s_arg s_in = arg ->
  let '(s1, b, ev) := src_after s_in (exec (s_pc s_in) gs cur arg) in
  AllOK S pre D (set_src l j0 s1) (if b then q ++ [j0] else q) yi' /\ s_bst s1 <> BInit.
Proof.
  intros S pre D l q yi yi' j0 s_in gs cur arg HO HN HQ Hj0 Hnin Hy' Hyy Hd Hx Hv Harg.
  assert (HXF : forall fut, _) by (intro fut; exact (exec_svals (s_pc s_in) gs cur arg fut)).
  destruct (exec (s_pc s_in) gs cur arg) as [[[[st p] g] c] ev0].
  (* the other sources are untouched; j0 is appended to a queue it was not in *)
  assert (GEN : forall s1 (b : bool), SrcOK S pre D (set_src l j0 s1) (if b then q ++ [j0] else q) yi' j0 ->
                AllOK S pre D (set_src l j0 s1) (if b then q ++ [j0] else q) yi').
  { intros s1 b H. split; [|split].
    - intros j Hj. rewrite set_src_length in Hj. destruct (Nat.eq_dec j j0) as [->|Hne]; [exact H|].
      apply (srcok_transfer S S pre D D l _ q _ yi yi' j (HO j Hj Hne)); [apply get_set_other; exact Hne| |apply Hyy; exact Hne|reflexivity|reflexivity].
      destruct b; [|tauto]. rewrite in_app_iff. cbn. intuition congruence.
    - destruct b; [apply nodup_snoc; assumption|assumption].
    - unfold QB. rewrite set_src_length. destruct b; [apply Forall_app; split; [exact HQ|repeat constructor; exact Hj0]|exact HQ]. }
  destruct st as [v|k|e|]; cbn [src_after]; (split; [|discriminate]);
    [apply (GEN _ true)|apply (GEN _ false)|apply (GEN _ true)|apply (GEN _ true)];
    unfold SrcOK, held, remf; rewrite get_set_same by exact Hj0; cbn [s_bst s_ret s_done s_exn s_pc s_cur s_arg]; rewrite Hy';
    (split; [intro fut; rewrite Hv|]).
  - rewrite (HXF fut). reflexivity.
  - split; [eauto|]. rewrite in_app_iff. cbn. intuition.
  - rewrite (HXF fut), Harg. reflexivity.
  - auto.
  - destruct (HXF fut) as [-> _]. reflexivity.
  - split; [right; discriminate|reflexivity].
  - destruct (HXF fut) as [-> _]. reflexivity.
  - auto.
Qed.

Definition NoInit (l : list src) : Prop := forall j, j < length l -> s_bst (get_src l j) <> BInit.

(* once no source is un-started any more the start-up argument plays no role *)
Lemma allok_pre S pre pre' D l q yi : NoInit l -> AllOK S pre D l q yi -> AllOK S pre' D l q yi.
Proof.
  intros HNI (HS & HN & HQ). split; [|split; assumption]. intros j Hj. specialize (HS j Hj). specialize (HNI j Hj).
  unfold SrcOK, remf in *. destruct (s_bst (get_src l j)); [congruence|exact HS..].
Qed.

Lemma charge_all_ok S a l0 : Forall (fun s => s_bst s = BInit) l0 -> AllOK S (Some a) [] l0 [] None ->
  let '(l, q, _, _) := charge_all l0 a in length l = length l0 /\ AllOK S (Some a) [] l q None /\ NoInit l.
Proof.
  intros HF HA.
  apply (charge_all_ind (fun i l q _ => length l = length l0 /\ AllOK S (Some a) [] l q None /\
                                        forall j, j < i -> s_bst (get_src l j) <> BInit) l0 a HF).
  - split; [reflexivity|]. split; [exact HA|]. intros j Hj. lia.
  - intros i l q ev s1 b e Hi Hbi Hc (HL & (HS & HN & HQ) & HNI). split; [rewrite set_src_length; exact HL|].
    destruct (HS i Hi) as [Hsv HM]. unfold held, remf in Hsv. rewrite Hbi in Hsv, HM. destruct HM as (Hnin & _ & Hd & Hx).
    unfold charge in Hc. rewrite Hbi in Hc.
    pose proof (fire_ok S (Some a) [] l q None None i
                 (mkSrc (s_pc (get_src l i)) (s_gds (get_src l i)) (s_cur (get_src l i)) a BInit (s_ret (get_src l i)) (s_exn (get_src l i)) (s_done (get_src l i)))
                 (s_gds (get_src l i)) (s_cur (get_src l i)) a
                 (fun j Hj _ => HS j Hj) HN HQ Hi Hnin eq_refl (fun _ _ => eq_refl) Hd Hx Hsv eq_refl) as HFi.
    cbn [s_pc] in HFi.
    destruct (src_after _ _) as [[s2 b2] e2]. injection Hc as <- <- _. destruct HFi as [HFi HN1].
    split; [exact HFi|]. intros j Hj. destruct (Nat.eq_dec j i) as [->|Hne]; [rewrite get_set_same by exact Hi; exact HN1|].
    rewrite get_set_other by exact Hne. apply HNI. lia.
Qed.

(* the arguments source j received so far, from the log R of (source, argument) receptions *)
Definition rj (R : list (nat * Z)) (j : nat) : list Z := map snd (filter (fun p => Nat.eqb (fst p) j) R).

(* the complete value sequence of source j: its script run with the received arguments followed by fut *)
Definition Sof (scs : list (list instr)) (R : list (nat * Z)) (j : nat) (fut : list Z) : list Z :=
  svals (nth j scs []) 0%Z (hd 0%Z (rj R j ++ fut)) (tl (rj R j ++ fut)).

Lemma rj_app R R' j : rj (R ++ R') j = rj R j ++ rj R' j.
Proof. unfold rj. rewrite filter_app, map_app. reflexivity. Qed.

Lemma Sof_app scs R R' j fut : Sof scs (R ++ R') j fut = Sof scs R j (rj R' j ++ fut).
Proof. unfold Sof. rewrite rj_app, <- app_assoc. reflexivity. Qed.

Lemma rj_single i a j : rj [(i, a)] j = if Nat.eqb i j then [a] else [].
Proof. unfold rj. cbn. destruct (Nat.eqb i j); reflexivity. Qed.

Lemma rj_all_recv n a j : j < n -> rj (all_recv n a) j = [a].
Proof.
  assert (H : forall m, rj (all_recv m a) j = if Nat.ltb j m then [a] else []).
  { induction m as [|m IH]; [reflexivity|].
    unfold all_recv in *. rewrite seq_S, map_app, rj_app, IH. cbn [map Nat.add]. rewrite rj_single.
    destruct (Nat.ltb_spec j m), (Nat.eqb_spec m j), (Nat.ltb_spec j (S m)); try lia; reflexivity. }
  intro Hj. rewrite H. apply Nat.ltb_lt in Hj. rewrite Hj. reflexivity.
Qed.

(* what was delivered from each of the first n sources is a prefix of its value sequence *)
Definition Pfx (S : nat -> list Z -> list Z) (D : list (nat * Z)) (n : nat) : Prop :=
  forall j, j < n -> forall fut, exists rest, dj D j ++ rest = S j fut.

Lemma allok_pfx S pre D l q yi : AllOK S pre D l q yi -> Pfx S D (length l).
Proof. intros (HS & _) j Hj fut. destruct (HS j Hj) as [HE _]. rewrite HE. eauto. Qed.

(* the per-source invariant in each state of the aggregate, given the receptions R and deliveries D so far *)
Definition TInv (scs : list (list instr)) (R D : list (nat * Z)) (g : agg) : Prop :=
  length (srcs g) = length scs /\
  match ast g with
  | ANew => False
  | AInit => R = [] /\ D = [] /\ AllOK (Sof scs []) None [] (srcs g) [] None /\ Forall (fun s => s_bst s = BInit) (srcs g)
  | AYield i => AllOK (Sof scs R) None D (srcs g) (queue g) (Some i) /\ NoInit (srcs g) /\ i < length (srcs g)
  | AWait | AFinal => AllOK (Sof scs R) None D (srcs g) (queue g) None /\ NoInit (srcs g)
  | ADying | ADead => Pfx (Sof scs R) D (length (srcs g))
  end.

(* the (source, value) pair a value answer delivers *)
Definition dres (r : res) (g1 : agg) : list (nat * Z) :=
  match r, ast g1 with RVal v, AYield i => [(i, v)] | _, _ => [] end.

Lemma resume_tinv scs R D g0 l q c x y ev : length l = length scs -> AllOK (Sof scs R) None D l q None -> NoInit l ->
  let '(g1, o) := resume g0 l q c x y ev in TInv scs R (D ++ dres (o_res o) g1) g1.
Proof.
  intros Hl HA HNI. unfold resume.
  pose proof (loop_ok (Sof scs R) None l q D c x HA) as HL.
  pose proof (agg_loop_acc l q c x) as HC.
  destruct (agg_loop l q c x) as [[[o q'] c'] x'].
  destruct o as [i v| |e|]; unfold apply_outcome, TInv, dres; cbn [ast srcs queue o_res]; rewrite ?app_nil_r; auto.
  split; [exact Hl|]. split; [exact HL|]. split; [exact HNI|].
  destruct HC as (_ & _ & _ & _ & H5). destruct (H5 i v eq_refl) as (Hin & _).
  destruct HA as (_ & _ & HQ). unfold QB in HQ. rewrite Forall_forall in HQ. apply HQ. exact Hin.
Qed.

Lemma tinv_pfx scs R D g : TInv scs R D g -> Pfx (Sof scs R) D (length (srcs g)).
Proof.
  unfold TInv. intros [_ HT]. revert HT. destruct (ast g); try tauto.
  - intros (-> & -> & H & _). eapply allok_pfx. exact H.
  - intros (H & _). eapply allok_pfx. exact H.
  - intros (H & _). eapply allok_pfx. exact H.
  - intros (H & _). eapply allok_pfx. exact H.
Qed.

(* the pair delivered by op x: only accesses and completions deliver *)
Definition dstep (x : op) (o : obs) (g1 : agg) : list (nat * Z) :=
  match x with
  | OAccess _ _ _ | OComplete _ _ _ => dres (o_res o) g1
  | _ => []
  end.

Lemma noinit_set l i s : NoInit l -> s_bst s <> BInit -> NoInit (set_src l i s).
Proof.
  intros HN Hs j Hj. unfold set_src in Hj. rewrite set_nth_length in Hj.
  destruct (Nat.eq_dec j i) as [->|Hne]; [rewrite get_set_same by exact Hj; exact Hs|].
  rewrite get_set_other by exact Hne. apply HN. exact Hj.
Qed.

Lemma die_tinv scs R D g l q ao ev : length l = length scs -> Pfx (Sof scs R) D (length l) ->
  let '(g1, o) := die g l q ao ev in TInv scs R D g1 /\ dres (o_res o) g1 = [].
Proof.
  intros Hl H. unfold die. destruct (drain q (count g)) as [[q1 c1] bl].
  destruct bl; unfold TInv; cbn; rewrite ?map_length; auto.
Qed.

Lemma dstep_rejected x g : dstep x rejected g = [].
Proof. destruct x; reflexivity. Qed.

Lemma allok_yielded S pre D l q i : AllOK S pre D l q (Some i) -> i < length l ->
  s_bst (get_src l i) = BYield /\ ~ In i q /\ s_done (get_src l i) = false /\ s_exn (get_src l i) = None /\
  forall fut, S i fut = dj D i ++ remf pre (get_src l i) fut.
Proof.
  intros (HS & _) Hi. destruct (HS i Hi) as [HE HM]. rewrite holds_same in HE, HM. unfold held in HE.
  destruct (s_bst (get_src l i));
    [destruct HM as (_ & H & _); discriminate| |destruct HM as (_ & H & _); discriminate|destruct HM as (_ & H); discriminate].
  destruct HM as ((v & Hr) & Hd & Hx & Hq). rewrite Hr in HE. repeat split; auto. intro H. apply Hq in H. discriminate.
Qed.

Lemma allok_reorder S pre D l q p yi : AllOK S pre D l q yi -> AllOK S pre D l (reorder q p) yi.
Proof.
  pose proof (reorder_perm p q) as HP. intros (HS & HN & HQ). split; [|split].
  - intros j Hj. apply (srcok_transfer S S pre D D l l q _ yi yi j (HS j Hj)); try reflexivity.
    split; apply Permutation_in; [exact HP|apply Permutation_sym; exact HP].
  - eapply Permutation_NoDup; [apply Permutation_sym; exact HP|exact HN].
  - apply reorder_QB. exact HQ.
Qed.

Lemma Sof_other scs R i a j fut : j <> i -> Sof scs (R ++ [(i, a)]) j fut = Sof scs R j fut.
Proof. intro H. rewrite Sof_app, rj_single. assert (Nat.eqb i j = false) by (apply Nat.eqb_neq; congruence). rewrite H0. reflexivity. Qed.

Lemma Sof_same scs R i a fut : Sof scs (R ++ [(i, a)]) i fut = Sof scs R i (a :: fut).
Proof. rewrite Sof_app, rj_single, Nat.eqb_refl. reflexivity. Qed.

Lemma charge_allok scs R D l q i a s1 b e : AllOK (Sof scs R) None D l q (Some i) -> i < length l ->
  charge (get_src l i) a = Some (s1, b, e) ->
  AllOK (Sof scs (R ++ [(i, a)])) None D (set_src l i s1) (if b then q ++ [i] else q) None /\ s_bst s1 <> BInit.
Proof.
  intros HA Hi Hc. destruct (allok_yielded _ _ _ _ _ _ HA Hi) as (Eb & Hnin & Hd & Hx & Hv). destruct HA as (HS & HN & HQ).
  unfold charge in Hc. rewrite Eb in Hc. unfold remf in Hv. rewrite Eb in Hv.
  set (s_in := mkSrc (s_pc (get_src l i)) (s_gds (get_src l i)) a a BYield (s_ret (get_src l i)) (s_exn (get_src l i)) (s_done (get_src l i))) in *.
  pose proof (fire_ok (Sof scs (R ++ [(i, a)])) None D l q (Some i) None i s_in (s_gds (get_src l i)) a a) as HF.
  cbn [s_in s_pc s_done s_exn s_arg] in HF.
  destruct (src_after s_in _) as [[s2 b2] ev0]. injection Hc as <- <- _.
  apply HF; auto; try discriminate.
  - intros j Hj Hne. apply (srcok_transfer (Sof scs R) _ None D D l l q q (Some i) (Some i) j (HS j Hj)); try tauto.
    intro fut. apply Sof_other. exact Hne.
  - intros j Hne. symmetry. apply holds_other. exact Hne.
  - intro fut. rewrite Sof_same. apply Hv.
Qed.

Lemma complete_allok S D l q yi i v s1 b e : AllOK S None D l q yi -> i < length l ->
  complete_src (get_src l i) v = Some (s1, b, e) ->
  AllOK S None D (set_src l i s1) (if b then q ++ [i] else q) yi /\ s_bst s1 <> BInit.
Proof.
  intros (HS & HN & HQ) Hi Hc. unfold complete_src in Hc.
  destruct (HS i Hi) as [Hv HM]. unfold held, remf in Hv.
  destruct (s_bst (get_src l i)) eqn:Eb; try discriminate Hc. destruct HM as (Hnin & Hy & Hd & Hx).
  pose proof (fire_ok S None D l q yi yi i (get_src l i) (s_gds (get_src l i)) (s_cur (get_src l i)) (s_arg (get_src l i))
                (fun j Hj _ => HS j Hj) HN HQ Hi Hnin Hy (fun _ _ => eq_refl) Hd Hx Hv eq_refl) as HF.
  destruct (src_after _ _) as [[s2 b2] ev0]. injection Hc as <- <- _. exact HF.
Qed.

Lemma step_tinv : forall ha scs R D g x, TInv scs R D g ->
  let '(g1, o) := step ha g x in TInv scs (R ++ rstep ha g x) (D ++ dstep x o g1) g1.
Proof.
  intros ha scs R D g x HT. pose proof (tinv_pfx scs R D g HT) as HP. pose proof HT as [HL HT0].
  step_cases ha g x; cbn [rstep dstep].
  - rewrite Er, dstep_rejected, !app_nil_r. exact HT.
  - rewrite Ea in HT0. contradiction.
  - rewrite Ea in HT0. contradiction.
  - rewrite Eg, Ea. rewrite Ea in HT0. destruct HT0 as (-> & -> & (HS0 & HN0 & HQ0) & HF). cbn [app].
    set (R' := all_recv (length (srcs g)) a).
    assert (HA : AllOK (Sof scs R') (Some a) [] (srcs g) [] None).
    { split; [|split; assumption]. intros j Hj. destruct (HS0 j Hj) as [HE HM]. unfold SrcOK. split; [|exact HM].
      intro fut. change R' with ([] ++ R'). rewrite Sof_app. unfold R'. rewrite rj_all_recv by exact Hj.
      rewrite HE. unfold held, remf. rewrite (forall_init_get (srcs g) j HF). reflexivity. }
    pose proof (charge_all_ok (Sof scs R') a (srcs g) HF HA) as HC. rewrite Ec in HC. destruct HC as (Hl & HA' & HNI).
    apply (resume_tinv scs R' []); [congruence|apply allok_reorder, (allok_pre _ (Some a)); assumption|exact HNI].
  - rewrite Eg, Ea. rewrite Ea in HT0. destruct HT0 as (HA & HNI & Hi).
    destruct (charge_allok scs R D _ _ i a s1 b e HA Hi Ec) as [HF HN1].
    apply resume_tinv; [rewrite set_src_length; exact HL|apply allok_reorder; exact HF|apply noinit_set; assumption].
  - (* a source parked at its yield can always be resumed *)
    rewrite Ea in HT0. destruct HT0 as (HA & _ & Hi). destruct (allok_yielded _ _ _ _ _ _ HA Hi) as (Eb & _).
    unfold charge in Ec. rewrite Eb in Ec. destruct (src_after _ _) as [[s2 b2] ev0]. discriminate.
  - rewrite Eg, Ea. unfold dres. cbn [o_res]. rewrite Ea. destruct r; rewrite !app_nil_r; exact HT.
  - rewrite Ea in HT0. destruct HT0 as (HA & HNI).
    destruct (complete_allok _ D _ _ None i v s1 b e HA Hi Ec) as [HF HN1]. rewrite app_nil_r.
    apply resume_tinv; [rewrite set_src_length; exact HL|apply allok_reorder; exact HF|apply noinit_set; assumption].
  - pose proof (die_tinv scs R D g (set_src (srcs g) i s1) (if b then queue g ++ [i] else queue g) (aout g) (tag_ev i e)) as HD.
    rewrite set_src_length in HD. destruct (die g _ _ _ _) as [g1 o]. destruct (HD HL HP) as [H1 ->]. rewrite !app_nil_r. exact H1.
  - cbn [o_res dres]. rewrite !app_nil_r. unfold TInv. cbn [ast srcs queue]. rewrite set_src_length. split; [exact HL|].
    destruct Ea as [Ea|[[j Ea]|Ea]]; rewrite Ea in *.
    + destruct HT0 as (_ & _ & _ & HF). unfold complete_src in Ec. rewrite (forall_init_get _ i HF) in Ec. discriminate.
    + destruct HT0 as (HA & HNI & Hj). destruct (complete_allok _ D _ _ _ i v s1 b e HA Hi Ec) as [HF HN1].
      split; [exact HF|]. split; [apply noinit_set; assumption|exact Hj].
    + destruct HT0 as (HA & HNI). destruct (complete_allok _ D _ _ _ i v s1 b e HA Hi Ec) as [HF HN1].
      split; [exact HF|apply noinit_set; assumption].
  - unfold finish_destroy, TInv. cbn. rewrite !app_nil_r, map_length. split; [exact HL|exact HP].
  - pose proof (die_tinv scs R D g (srcs g) (queue g) (Some 0%Z) [] HL HP) as HD.
    destruct (die g _ _ _ _) as [g1 o]. rewrite !app_nil_r. apply HD.
  - rewrite !app_nil_r. exact HT.
Qed.

Fixpoint deliv (ha : bool) (g : agg) (ops : list op) : list (nat * Z) :=
  match ops with
  | [] => []
  | x :: t => let '(g1, o) := step ha g x in dstep x o g1 ++ deliv ha g1 t
  end.

(* the (source, argument) receptions of a run: the first access hands its argument to every source, every later
   one to the source whose value was returned last *)
Fixpoint recvd (ha : bool) (g : agg) (ops : list op) : list (nat * Z) :=
  match ops with
  | [] => []
  | x :: t => rstep ha g x ++ recvd ha (fst (step ha g x)) t
  end.

Lemma run_tinv : forall ha scs ops g R D, TInv scs R D g ->
  TInv scs (R ++ recvd ha g ops) (D ++ deliv ha g ops) (snd (run_from ha g ops)).
Proof.
  intros ha scs. induction ops as [|x ops IH]; intros g R D HT.
  - cbn. rewrite !app_nil_r. exact HT.
  - rewrite arun_cons. cbn [snd deliv recvd].
    pose proof (step_tinv ha scs R D g x HT) as HS. destruct (step ha g x) as [g1 o]. cbn [fst].
    rewrite !app_assoc. apply IH. exact HS.
Qed.

(* an aggregate built over sources with the scripts scs, its coroutine not started *)
Definition build_state (scs : list (list instr)) : agg :=
  mkAgg (map src0 scs) [] (length scs) None AInit None None false None false.

Lemma get_src_map scs j : get_src (map src0 scs) j = src0 (nth j scs []).
Proof. unfold get_src. change (src0 []) with (src0 (@nil instr)). apply map_nth. Qed.

Lemma build_tinv scs : TInv scs [] [] (build_state scs).
Proof.
  unfold TInv, build_state. cbn [ast srcs].
  split; [apply map_length|]. split; [reflexivity|]. split; [reflexivity|]. split.
  - split; [|split; [constructor|constructor]].
    intros j Hj. unfold SrcOK. rewrite get_src_map. cbn. repeat split; auto.
  - apply Forall_forall. intros s Hs. apply in_map_iff in Hs. destruct Hs as (sc & <- & _). reflexivity.
Qed.

Lemma build_ainv scs : AInv (build_state scs).
Proof.
  unfold AInv, build_state. cbn. rewrite map_length. repeat split; auto.
  apply Forall_forall. intros s Hs. apply in_map_iff in Hs. destruct Hs as (sc & <- & _). reflexivity.
Qed.

Lemma apply_outcome_srcs' g l r y : srcs (fst (apply_outcome g l r y)) = l.
Proof. destruct r as [[[o q] c] x]. destruct o; reflexivity. Qed.

Lemma resume_shape g0 l q c x y ev r : r = resume g0 l q c x y ev ->
  srcs (fst r) = l /\ o_ev (snd r) = ev /\
  ((exists i v, ast (fst r) = AYield i /\ o_res (snd r) = RVal v) \/ (ast (fst r) = AWait /\ o_res (snd r) = RPend) \/
   (ast (fst r) = AFinal /\ terminal_res (o_res (snd r)))).
Proof. intros ->. unfold resume. destruct (agg_loop l q c x) as [[[o q'] c'] x']. destruct o; cbn; eauto 8. Qed.

Lemma answer_shape ha g x r : r = step ha g x ->
  (match x with OAccess _ _ _ | OComplete _ _ _ => True | _ => False end) ->
  (exists i v, ast (fst r) = AYield i /\ o_res (snd r) = RVal v) \/ (ast (fst r) = AWait /\ o_res (snd r) = RPend) \/
  (ast (fst r) = AFinal /\ terminal_res (o_res (snd r))) \/
  ((o_st (snd r) = 1%Z \/ exists i v p, x = OComplete i v p) /\ forall v, o_res (snd r) <> RVal v).
Proof.
  intros -> Hx.
  assert (RS : forall r g0 l q c x0 y ev, r = resume g0 l q c x0 y ev ->
            (exists i v, ast (fst r) = AYield i /\ o_res (snd r) = RVal v) \/ (ast (fst r) = AWait /\ o_res (snd r) = RPend) \/
            (ast (fst r) = AFinal /\ terminal_res (o_res (snd r))) \/
            ((o_st (snd r) = 1%Z \/ exists i v p, x = OComplete i v p) /\ forall v, o_res (snd r) <> RVal v)).
  { intros r g0 l q c x0 y ev Hr. destruct (resume_shape _ _ _ _ _ _ _ _ Hr) as (_ & _ & [H|[H|H]]); auto. }
  step_cases ha g x; try contradiction; try (eapply RS; reflexivity); cbn [fst snd o_res o_st].
  - right. right. right. split; [left; reflexivity|discriminate].
  - exact (RS _ _ _ _ _ _ _ _ (eq_sym Er)).
  - auto.
  - right. right. right. split; [eauto|]. unfold die. destruct (drain _ _) as [[q1 c1] []]; cbn; discriminate.
  - right. right. right. split; [eauto|discriminate].
Qed.

Lemma run_per_source ha scs ops g R D : TInv scs R D g ->
  Pfx (Sof scs (R ++ recvd ha g ops)) (D ++ deliv ha g ops) (length scs).
Proof. intro HT. pose proof (run_tinv ha scs ops g R D HT) as H. rewrite <- (proj1 H). apply tinv_pfx, H. Qed.

Lemma tinv_final scs R D g : TInv scs R D g -> AInv g -> ast g = AFinal ->
  forall j, j < length scs -> forall fut, dj D j = Sof scs R j fut.
Proof.
  intros HT HI Hf j Hj fut. unfold TInv in HT. unfold AInv in HI. rewrite Hf in HT, HI.
  destruct HT as (HL & (HS & _) & HNI). destruct HI as (_ & Hq & Hnp). rewrite <- HL in Hj.
  destruct (HS j Hj) as [HE HM]. rewrite HE. unfold held, remf.
  pose proof (HNI j Hj) as Hni. pose proof (npend_zero_nth _ j Hnp) as Hp. unfold pendb in Hp.
  destruct (s_bst (get_src (srcs g) j)); [congruence| |discriminate|rewrite !app_nil_r; reflexivity].
  destruct HM as (_ & _ & _ & Hiff). rewrite Hq in Hiff. destruct (proj2 Hiff eq_refl).
Qed.

Lemma run_union ha scs ops g R D : TInv scs R D g -> AInv g -> ast (snd (run_from ha g ops)) = AFinal ->
  forall j, j < length scs -> forall fut, dj (D ++ deliv ha g ops) j = Sof scs (R ++ recvd ha g ops) j fut.
Proof. intros HT HI. apply tinv_final; [apply run_tinv, HT|apply run_inv, HI]. Qed.

Definition all_final (l : list src) : Prop := forall j, j < length l -> s_bst (get_src l j) = BFinal.

Lemma all_final_npend l : all_final l -> npend l = 0.
Proof.
  unfold all_final, get_src. induction l as [|s t IH]; intro H; [reflexivity|].
  cbn. pose proof (H 0 ltac:(cbn; lia)) as H0. cbn in H0. unfold pendb. rewrite H0. cbn.
  apply IH. intros j Hj. apply (H (S j)). cbn. lia.
Qed.

Lemma step_end_if_all_ended ha scs R D g y a p : TInv scs R D g -> AInv g ->
  let '(g1, o) := step ha g (OAccess y a p) in
  o_st o = 0%Z -> all_final (srcs g1) -> ast g1 = AFinal /\ terminal_res (o_res o).
Proof.
  intros HT HI.
  pose proof (step_tinv ha scs _ _ g (OAccess y a p) HT) as HT1.
  pose proof (step_inv ha g (OAccess y a p) HI) as HI1.
  pose proof (answer_shape ha g (OAccess y a p) _ eq_refl I) as HR.
  destruct (step ha g (OAccess y a p)) as [g1 o]. cbn [fst snd] in *.
  intros Hst Hfin. destruct HR as [(i & v & Hy & _)|[(Hw & _)|[Hf|([H|(? & ? & ? & H)] & _)]]].
  - exfalso. unfold TInv in HT1. rewrite Hy in HT1. destruct HT1 as (_ & (HS & _) & _ & Hi).
    destruct (HS i Hi) as [_ HM]. rewrite (Hfin i Hi), holds_same in HM. destruct HM as [_ H]. discriminate.
  - exfalso. unfold AInv in HI1. rewrite Hw in HI1. destruct HI1 as (Hc & _ & Hpos & _).
    rewrite (all_final_npend _ Hfin) in Hc. lia.
  - exact Hf.
  - rewrite H in Hst. discriminate.
  - discriminate H.
Qed.

(* the value answers of a run, in order *)
Definition vals_of (ops : list op) (os : list obs) : list Z :=
  flat_map (fun p => match fst p with
                     | OAccess _ _ _ | OComplete _ _ _ => match o_res (snd p) with RVal v => [v] | _ => [] end
                     | _ => []
                     end) (combine ops os).

Lemma step_val ha g x w : o_res (snd (step ha g x)) = RVal w ->
  (match x with OAccess _ _ _ | OComplete _ _ _ => True | _ => False end) -> exists i, ast (fst (step ha g x)) = AYield i.
Proof.
  intros Hw Hx.
  destruct (answer_shape ha g x _ eq_refl Hx) as [(i & v & H & _)|[(_ & H)|[(_ & H)|(_ & H)]]];
    [eauto|rewrite Hw in H; discriminate|rewrite Hw in H; contradiction|exfalso; exact (H _ Hw)].
Qed.

(* what is delivered is exactly what the consumer observes: a value answer leaves the aggregate parked at the yield
   of the source it came from *)
Theorem aggr_deliv_is_observed : forall ha ops g,
  map snd (deliv ha g ops) = vals_of ops (fst (run_from ha g ops)).
Proof.
  intros ha. induction ops as [|x ops IH]; intros g; [reflexivity|].
  rewrite arun_cons. cbn [deliv fst]. unfold vals_of. cbn [combine flat_map fst snd].
  pose proof (step_val ha g x) as HV. destruct (step ha g x) as [g1 o]. cbn [fst snd] in *.
  rewrite map_app. f_equal; [|apply IH].
  destruct x; cbn [dstep]; try reflexivity; unfold dres;
  (destruct (o_res o) eqn:Er; try reflexivity;
   destruct (HV _ eq_refl I) as [i0 ->]; reflexivity).
Qed.

Definition ccount (f : event -> bool) (j : nat) (l : list sevent) : nat :=
  count_ev f (map snd (filter (fun p => Nat.eqb (fst p) j) l)).

Lemma ccount_app f j a b : ccount f j (a ++ b) = ccount f j a + ccount f j b.
Proof. unfold ccount. rewrite filter_app, map_app. apply count_ev_app. Qed.

Lemma ccount_tag f j i e : ccount f j (tag_ev i e) = if Nat.eqb i j then count_ev f e else 0.
Proof.
  unfold ccount, tag_ev. destruct (Nat.eqb i j) eqn:E; induction e as [|x e IH]; cbn [map filter fst snd]; rewrite ?E; cbn [map]; auto.
  cbn [count_ev]. rewrite IH. reflexivity.
Qed.

Definition gcount (x : Z) (l : list src) (j : nat) : nat := count_z x (s_gds (get_src l j)).

(* one source runs: events tagged i, only source i's locals change *)
Lemma fire_bal x l i s1 e j : i < length l ->
  count_ev (is_ctor x) e + count_z x (s_gds (get_src l i)) = count_ev (is_dtor x) e + count_z x (s_gds s1) ->
  ccount (is_ctor x) j (tag_ev i e) + gcount x l j = ccount (is_dtor x) j (tag_ev i e) + gcount x (set_src l i s1) j.
Proof.
  intros Hi H. rewrite !ccount_tag. unfold gcount.
  destruct (Nat.eqb_spec i j) as [<-|N]; [rewrite get_set_same by exact Hi; exact H|rewrite get_set_other by congruence; lia].
Qed.

Lemma destroy_srcs_count x j : forall l k,
  ccount (is_ctor x) j (destroy_srcs l k) = 0 /\
  ccount (is_dtor x) j (destroy_srcs l k) = (if Nat.leb k j then gcount x l (j - k) else 0).
Proof.
  induction l as [|s t IH]; intros k.
  - split; [reflexivity|]. cbn [destroy_srcs]. destruct (Nat.leb k j); [|reflexivity]. unfold gcount, get_src. destruct (j - k); reflexivity.
  - cbn [destroy_srcs]. rewrite !ccount_app, !ccount_tag. destruct (IH (S k)) as [IH1 IH2]. rewrite IH1, IH2.
    rewrite count_ctor_map, count_dtor_map.
    destruct (Nat.eqb k j) eqn:E.
    + apply Nat.eqb_eq in E. subst. rewrite Nat.leb_refl, Nat.sub_diag.
      assert (Nat.leb (S j) j = false) by (apply Nat.leb_gt; lia). rewrite H. unfold gcount, get_src. cbn. split; lia.
    + apply Nat.eqb_neq in E. split; [destruct (Nat.leb (S k) j); reflexivity|].
      destruct (Nat.leb k j) eqn:L.
      * apply Nat.leb_le in L. assert (Nat.leb (S k) j = true) by (apply Nat.leb_le; lia). rewrite H.
        unfold gcount, get_src. replace (j - k) with (S (j - S k)) by lia. cbn. lia.
      * apply Nat.leb_gt in L. assert (Nat.leb (S k) j = false) by (apply Nat.leb_gt; lia). rewrite H. reflexivity.
Qed.

Lemma destroy_bal x j l :
  ccount (is_ctor x) j (destroy_srcs l 0) = 0 /\ ccount (is_dtor x) j (destroy_srcs l 0) = gcount x l j /\
  gcount x (map (fun s => mkSrc (s_pc s) [] (s_cur s) (s_arg s) (s_bst s) (s_ret s) (s_exn s) (s_done s)) l) j = 0.
Proof.
  destruct (destroy_srcs_count x j l 0) as [H1 H2]. rewrite H1, H2. cbn [Nat.leb]. rewrite Nat.sub_0_r.
  split; [reflexivity|]. split; [reflexivity|]. clear H1 H2.
  unfold gcount, get_src. revert j. induction l as [|s t IH]; intros [|k]; cbn [map nth s_gds count_z src0]; try reflexivity. apply IH.
Qed.

Lemma die_bal x j g l q ao ev r : r = die g l q ao ev ->
  ccount (is_ctor x) j (o_ev (snd r)) + gcount x l j + ccount (is_dtor x) j ev
  = ccount (is_dtor x) j (o_ev (snd r)) + gcount x (srcs (fst r)) j + ccount (is_ctor x) j ev /\
  (ast (fst r) = ADead -> gcount x (srcs (fst r)) j = 0).
Proof.
  intros ->. unfold die. destruct (drain q (count g)) as [[q1 c1] bl].
  destruct bl; cbn [fst snd o_ev srcs ast finish_destroy]; [split; [lia|discriminate]|].
  destruct (destroy_bal x j l) as (H1 & H2 & H3). rewrite !ccount_app, H1, H2, H3. split; [lia|reflexivity].
Qed.

Lemma gcount_app_src0 x l sc j : gcount x (l ++ [src0 sc]) j = gcount x l j.
Proof.
  unfold gcount, get_src. destruct (Nat.lt_ge_cases j (length l)) as [H|H].
  - rewrite app_nth1 by exact H. reflexivity.
  - rewrite app_nth2 by exact H. rewrite (nth_overflow l) by exact H.
    destruct (j - length l) as [|[|k]]; reflexivity.
Qed.

(* one step: constructions + live locals before = destructions + live locals after, per source and local id;
   and a dead aggregate holds no live local *)
Lemma step_bal ha g x0 x j : AInv g ->
  ccount (is_ctor x) j (o_ev (snd (step ha g x0))) + gcount x (srcs g) j
  = ccount (is_dtor x) j (o_ev (snd (step ha g x0))) + gcount x (srcs (fst (step ha g x0))) j /\
  ((ast g = ADead -> gcount x (srcs g) j = 0) -> ast (fst (step ha g x0)) = ADead -> gcount x (srcs (fst (step ha g x0))) j = 0).
Proof.
  intro HI. unfold AInv in HI.
  assert (RS : forall r g0 l q c x1 y ev, r = resume g0 l q c x1 y ev ->
            ccount (is_ctor x) j ev + gcount x (srcs g) j = ccount (is_dtor x) j ev + gcount x l j ->
            ccount (is_ctor x) j (o_ev (snd r)) + gcount x (srcs g) j = ccount (is_dtor x) j (o_ev (snd r)) + gcount x (srcs (fst r)) j /\
            ((ast g = ADead -> gcount x (srcs g) j = 0) -> ast (fst r) = ADead -> gcount x (srcs (fst r)) j = 0)).
  { intros r g0 l q c x1 y ev Hr Hb. destruct (resume_shape _ _ _ _ _ _ _ _ Hr) as (-> & -> & [(i & v & -> & _)|[(-> & _)|(-> & _)]]);
    (split; [exact Hb|discriminate]). }
  step_cases ha g x0;
    cbn [fst snd o_ev srcs ast]; try (split; [reflexivity|auto]; fail).
  - rewrite gcount_app_src0. split; [reflexivity|discriminate].
  - split; [reflexivity|discriminate].
  - eapply RS; [reflexivity|]. rewrite Ea in HI. destruct HI as (_ & HF & _).
    pose proof (charge_all_ind (fun _ l0 _ ev0 => ccount (is_ctor x) j ev0 + gcount x (srcs g) j = ccount (is_dtor x) j ev0 + gcount x l0 j)
                  (srcs g) a HF eq_refl) as HC.
    rewrite Ec in HC. apply HC. intros i l0 q0 ev0 s1 b e0 Hi _ Hc0 HP. rewrite !ccount_app.
    pose proof (fire_bal x l0 i s1 e0 j Hi (charge_bal x _ _ _ _ _ Hc0)). lia.
  - rewrite Ea in HI. destruct HI as (_ & Hi & _).
    eapply RS; [reflexivity|]. exact (fire_bal x (srcs g) i s1 e j Hi (charge_bal x _ _ _ _ _ Ec)).
  - exact (RS _ _ _ _ _ _ _ _ (eq_sym Er) eq_refl).
  - eapply RS; [reflexivity|]. exact (fire_bal x (srcs g) i s1 e j Hi (complete_bal x _ _ _ _ _ Ec)).
  - pose proof (fire_bal x (srcs g) i s1 e j Hi (complete_bal x _ _ _ _ _ Ec)) as HF.
    destruct (die_bal x j g (set_src (srcs g) i s1) (if b then queue g ++ [i] else queue g) (aout g) (tag_ev i e) _ eq_refl) as [H1 H2].
    split; [lia|intros _; exact H2].
  - split; [exact (fire_bal x (srcs g) i s1 e j Hi (complete_bal x _ _ _ _ _ Ec))|].
    intros _ Hd. destruct Ea as [Ea|[[k Ea]|Ea]]; congruence.
  - unfold finish_destroy. cbn [fst snd o_ev srcs].
    destruct (destroy_bal x j (srcs g)) as (H1 & H2 & H3). rewrite H1, H2, H3. split; [lia|reflexivity].
  - destruct (die_bal x j g (srcs g) (queue g) (Some 0%Z) [] _ eq_refl) as [H1 H2]. cbn in H1. split; [lia|intros _; exact H2].
Qed.

Definition all_sevents (os : list obs) : list sevent := flat_map o_ev os.

Lemma run_bal ha x j : forall ops g, AInv g ->
  ccount (is_ctor x) j (all_sevents (fst (run_from ha g ops))) + gcount x (srcs g) j
  = ccount (is_dtor x) j (all_sevents (fst (run_from ha g ops))) + gcount x (srcs (snd (run_from ha g ops))) j /\
  ((ast g = ADead -> gcount x (srcs g) j = 0) ->
   ast (snd (run_from ha g ops)) = ADead -> gcount x (srcs (snd (run_from ha g ops))) j = 0).
Proof.
  induction ops as [|x0 ops IH]; intros g HI; [cbn; split; [lia|auto]|].
  rewrite arun_cons. cbn [fst snd all_sevents flat_map]. fold (all_sevents (fst (run_from ha (fst (step ha g x0)) ops))).
  rewrite !ccount_app.
  destruct (step_bal ha g x0 x j HI) as [HS HD]. destruct (IH _ (step_inv ha g x0 HI)) as [IH1 IH2].
  split; [lia|auto].
Qed.
