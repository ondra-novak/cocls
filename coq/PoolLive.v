(* PoolLive.v — deadlock freedom of the thread-pool model (C11: stop() and the destructor terminate and join all
   workers for every timing, including stop() from a worker and concurrent stops): every state that has the
   invariants and in which some thread has not finished has an enabled step — except when a client thread sits in
   worker() of an idle pool that nobody stops, or some thread waits for the outcome of a submission (the client
   program made itself depend on it). *)
From Cocls Require Import Base BaseProofs PoolDefs PoolProofs.
Require Import Lia.
Local Open Scope nat_scope.

Definition awake (p : pc) : bool :=
  match p with WIdle | WSub _ _ _ | WHop _ _ | WPeek _ _ | WStop _ | WQry _ _ | WWait _ _ => true | _ => false end.
Definition asleep_or_awake (p : pc) : bool := match p with WSleep => true | _ => awake p end.

(* when a running pool has work queued, a notify_one is pending or some worker is on its way back to the queue *)
Definition Wake (s : st) : Prop :=
  exit_ s = false -> queue s <> [] -> 0 < tokens s \/ exists i p, T s i = Some p /\ awake p = true.

(* Invariant C, the condition variable: every notification that some sleeper still needs has been given *)
Record InvC (s : st) : Prop := {
  c_ex : exit_ s = true -> forall i, T s i = Some WSleep -> is_woken s i = true;
  c_st : stopped s = true -> forall i l q a, T s i = Some (SWait l q a) -> is_woken s i = true;
  c_first : exit_ s = true -> stopped s = false -> exists t p, T s t = Some p /\ stopper p = true;
  c_wake : Wake s;
  c_wpc : exit_ s = false -> forall i p, T s i = Some p -> nclients s <= i -> asleep_or_awake p = true;
  c_hasw : nclients s < length (thrs s);
  c_jw : forall t l q f a w, T s t = Some (Join l q f a) -> In w l -> poolw s w /\ w <> t;
  c_wk0 : exit_ s = false -> woken s = [];
  c_tokq : exit_ s = false -> Nat.min (length (queue s)) (sleepers s) <= tokens s
}.

Lemma invc_frame s s' i p old : InvC s -> T s i = Some old ->
  thrs s' = set_nth (thrs s) i p -> nclients s' = nclients s ->
  (exit_ s' = true -> (forall j, j <> i -> T s j = Some WSleep -> is_woken s' j = true) /\
                      (p = WSleep -> is_woken s' i = true)) ->
  (stopped s' = true -> (forall j l q a, j <> i -> T s j = Some (SWait l q a) -> is_woken s' j = true) /\
                         (forall l q a, p = SWait l q a -> is_woken s' i = true)) ->
  (exit_ s' = true -> stopped s' = false -> stopper p = true \/ exists t pt, t <> i /\ T s t = Some pt /\ stopper pt = true) ->
  Wake s' ->
  (exit_ s' = false -> exit_ s = false /\ (nclients s <= i -> asleep_or_awake p = true)) ->
  (forall l q f a w, p = Join l q f a -> In w l -> poolw s w /\ w <> i) ->
  (exit_ s' = false -> woken s' = []) ->
  (exit_ s' = false -> Nat.min (length (queue s')) (sleepers s') <= tokens s') ->
  InvC s'.
Proof.
  intros [Cex Cst Cfirst Cwake Cwpc Chasw Cjw Cwk0 Ctokq] H Et En Nex Nst Nfirst Nwake Nwpc Njw Nwk0 Ntokq.
  pose proof (TT_set s s' i p old H Et) as TT.
  assert (LEN : length (thrs s') = length (thrs s)) by (rewrite Et; apply set_nth_length).
  constructor; auto.
  - intros X j. rewrite TT. destruct (Nex X) as [A Bq]. destruct (Nat.eqb_spec i j) as [E|E].
    + intros Q. inversion Q. subst j. apply Bq. assumption.
    + apply A. auto.
  - intros X j l q a. rewrite TT. destruct (Nst X) as [A Bq]. destruct (Nat.eqb_spec i j) as [E|E].
    + intros Q. inversion Q. subst j. eapply Bq. eassumption.
    + apply A. auto.
  - intros X Sf. destruct (Nfirst X Sf) as [Sp|(t & pt & Nt & Ht & St)].
    + exists i, p. rewrite TT, Nat.eqb_refl. auto.
    + exists t, pt. rewrite TT. assert (Nat.eqb i t = false) by (apply Nat.eqb_neq; auto). rewrite H0. auto.
  - intros X j pj. rewrite TT, En. destruct (Nwpc X) as [X0 Xp]. destruct (Nat.eqb_spec i j) as [E|E].
    + intros Q L. inversion Q; subst. apply Xp, L.
    + apply Cwpc, X0.
  - rewrite En, LEN. exact Chasw.
  - intros t l q f a w. rewrite TT. unfold poolw. rewrite En, LEN. destruct (Nat.eqb_spec i t) as [E|E].
    + intros Q Hin. inversion Q. subst t. eapply Njw; eassumption.
    + apply Cjw.
Qed.

Lemma filter_set_nth (l : list pc) : forall i p old, nth_error l i = Some old ->
  length (filter is_sleep (set_nth l i p)) + Nat.b2n (is_sleep old) = length (filter is_sleep l) + Nat.b2n (is_sleep p).
Proof.
  induction l as [|x l IH]; intros [|i] p old H; cbn [nth_error] in H; try discriminate.
  - inversion H; subst. cbn [set_nth filter]. destruct (is_sleep old), (is_sleep p); cbn [length Nat.b2n]; lia.
  - cbn [set_nth filter]. specialize (IH i p old H). destruct (is_sleep x); cbn [length]; lia.
Qed.
Lemma sleepers_set s s' i p old : T s i = Some old -> thrs s' = set_nth (thrs s) i p ->
  sleepers s' + Nat.b2n (is_sleep old) = sleepers s + Nat.b2n (is_sleep p).
Proof. intros H E. unfold sleepers. rewrite E. apply filter_set_nth. exact H. Qed.

Lemma wake_self s' i p : T s' i = Some p -> awake p = true -> Wake s'.
Proof. intros H A _ _. right. exists i, p. split; assumption. Qed.
Lemma wake_exit s' : exit_ s' = true -> Wake s'.
Proof. intros E X. congruence. Qed.
Lemma wake_keep s s' i p old : Wake s -> T s i = Some old -> thrs s' = set_nth (thrs s) i p ->
  awake old = false \/ awake p = true ->
  exit_ s' = exit_ s -> queue s' = queue s -> tokens s <= tokens s' -> Wake s'.
Proof.
  intros W H Et A Ee Eq Ek X Q. rewrite Ee in X. rewrite Eq in Q. destruct (W X Q) as [Wt|(j & pj & Hj & Aj)].
  - left. lia.
  - right. pose proof (TT_set s s' i p old H Et) as TT. destruct (Nat.eqb_spec i j) as [E|E].
    + subst j. destruct A as [A|A]; [unfold T in *; congruence|]. exists i, p. rewrite TT, Nat.eqb_refl. auto.
    + exists j, pj. rewrite TT. apply Nat.eqb_neq in E. rewrite E. auto.
Qed.

(* flags of other threads survive a wake-up of thread i *)
Lemma is_woken_wake s i j : j <> i -> is_woken (wake s i) j = is_woken s j.
Proof.
  intros N. unfold wake. destruct (is_woken s i); [|reflexivity].
  unfold is_woken, with_woken. cbn [woken].
  induction (woken s) as [|x l IH]; [reflexivity|]. cbn [filter existsb].
  destruct (Nat.eqb_spec x i) as [E|E]; cbn [negb].
  - subst x. assert (Nat.eqb j i = false) by (apply Nat.eqb_neq; auto). rewrite H. cbn. exact IH.
  - cbn [existsb]. rewrite IH. reflexivity.
Qed.

(* notify_all flags every thread that sleeps *)
Lemma sleeper_ids_in s j p : T s j = Some p -> is_sleep p = true -> existsb (Nat.eqb j) (sleeper_ids s) = true.
Proof.
  intros H S. apply existsb_exists. exists j. split; [|apply Nat.eqb_refl].
  unfold sleeper_ids. apply filter_In. split.
  - apply in_seq. pose proof (T_lt s j p H). lia.
  - unfold sleeps. unfold T in H. rewrite H. exact S.
Qed.

Lemma sleepers_pos s i p : T s i = Some p -> is_sleep p = true -> 1 <= sleepers s.
Proof.
  intros H S. unfold sleepers. apply nth_error_In in H.
  assert (X : In p (filter is_sleep (thrs s))) by (apply filter_In; split; assumption).
  destruct (filter is_sleep (thrs s)); [contradiction|cbn; lia].
Qed.

Lemma wpc_awake p : asleep_or_awake p = true -> p <> WSleep -> awake p = true.
Proof. destruct p; cbn; try congruence; intros _ X; exfalso; apply X; reflexivity. Qed.

Lemma some_worker_awake s : InvC s -> exit_ s = false -> sleepers s = 0 ->
  exists w pw, T s w = Some pw /\ nclients s <= w /\ awake pw = true.
Proof.
  intros C X Z. pose proof (c_hasw s C) as HW.
  destruct (nth_error (thrs s) (nclients s)) as [pw|] eqn:E; [|apply nth_error_None in E; lia].
  exists (nclients s), pw. split; [exact E|]. split; [lia|].
  apply wpc_awake; [apply (c_wpc s C X _ _ E); lia|].
  intros ->. pose proof (sleepers_pos s _ _ E eq_refl). lia.
Qed.

Lemma goes_on_awake i old p : goes_on i old p ->
  is_sleep p = false /\ stopper p = false /\ (awake old = false \/ awake p = true) /\ (is_client old = false -> asleep_or_awake p = true).
Proof.
  intros [O C].
  assert (A : is_client old = true -> awake old = false) by (destruct old; try reflexivity; discriminate).
  destruct p; try discriminate O; cbn [is_client] in C; repeat split; auto; intros X; rewrite X in C; discriminate C.
Qed.

(* a thread moves between pcs that do not sleep; flags, tokens and queue stay *)
Lemma invc_move s i p old : InvC s -> T s i = Some old -> is_sleep old = false ->
  is_sleep p = false -> (awake old = false \/ awake p = true) ->
  (exit_ s = false -> nclients s <= i -> asleep_or_awake p = true) ->
  (stopper old = true -> stopper p = true) ->
  (forall l q f a w, p = Join l q f a -> In w l -> exists l0, old = Join l0 q f a /\ In w l0) ->
  InvC (with_thr s i p).
Proof.
  intros C H So Sp A Wp St J.
  set (s' := with_thr s i p).
  pose proof (sleepers_set s s' i p old H eq_refl) as SL. rewrite So, Sp in SL. cbn [Nat.b2n] in SL.
  assert (W' : forall j, is_woken s' j = is_woken s j) by reflexivity.
  apply (invc_frame s s' i p old C H); try reflexivity.
  - change (exit_ s') with (exit_ s). intros X. split; [intros j _; rewrite W'; apply (c_ex s C X)|]. intros ->. discriminate.
  - change (stopped s') with (stopped s). intros X. split; [intros j l q a _; rewrite W'; apply (c_st s C X)|]. intros l q a ->. discriminate.
  - change (exit_ s') with (exit_ s). change (stopped s') with (stopped s).
    intros X Sf. destruct (c_first s C X Sf) as (t & pt & Ht & Spt). destruct (Nat.eq_dec t i) as [->|N].
    + left. apply St. unfold T in *. congruence.
    + right. exists t, pt. auto.
  - apply (wake_keep s s' i p old (c_wake s C) H); auto.
  - change (exit_ s') with (exit_ s). auto.
  - intros l q f a w E Hin. destruct (J l q f a w E Hin) as (l0 & -> & I0). eapply (c_jw s C); eassumption.
  - apply (c_wk0 s C).
  - change (exit_ s') with (exit_ s). change (queue s') with (queue s). change (tokens s') with (tokens s).
    intros X. pose proof (c_tokq s C X). lia.
Qed.

Lemma plain_stopper p : in_stop p = false -> stopper p = false.
Proof. destruct p; try reflexivity; discriminate. Qed.

Lemma invc_goes_on s i p old : InvB s -> InvC s -> T s i = Some old -> at_op old -> goes_on i old p ->
  InvC (with_thr s i p).
Proof.
  intros B C H [NS So] G. destruct (goes_on_awake i old p G) as (Sp & St & A & W).
  apply (invc_move s i p old C H So Sp A).
  - intros _ L. apply W, (b_class s B i old H), L.
  - rewrite (plain_stopper old NS). discriminate.
  - intros l q f a w ->. discriminate.
Qed.

Lemma invc_enqueue s i l k b p old : InvB s -> InvC s -> T s i = Some old -> at_op old -> goes_on i old p ->
  InvC (with_thr (fst (enqueue s i l k b)) i p).
Proof.
  intros B C H [NS So] G. destruct (goes_on_awake i old p G) as (Sp & NSp & A & W).
  assert (Wp : nclients s <= i -> asleep_or_awake p = true) by (intros L; apply W, (b_class s B i old H), L).
  pose proof (plain_stopper old NS) as NSo.
  destruct (enqueue_shell s i l k b _ eq_refl) as (hq & he & hs & ht & hk & hw & hd & hn & hth & hc & hx & hu & _).
  set (s1 := fst (enqueue s i l k b)) in *.
  set (s' := with_thr s1 i p).
  assert (Et : thrs s' = set_nth (thrs s) i p) by (unfold s', with_thr; cbn [thrs]; rewrite hth; reflexivity).
  assert (E1 : exit_ s' = exit_ s) by exact he.
  assert (E2 : stopped s' = stopped s) by exact hs.
  assert (E3 : forall j, is_woken s' j = is_woken s j) by (intros j; unfold is_woken, s', with_thr; cbn [woken]; rewrite hw; reflexivity).
  assert (E4 : woken s' = woken s) by exact hw.
  assert (E5 : tokens s' = tokens s1) by reflexivity.
  assert (E6 : queue s' = queue s1) by reflexivity.
  apply (invc_frame s s' i p old C H Et).
  - exact hn.
  - rewrite E1. intros X. split; [intros j _; rewrite E3; apply (c_ex s C X)|]. intros ->. discriminate.
  - rewrite E2. intros X. split; [intros j l0 q a _; rewrite E3; apply (c_st s C X)|]. intros l0 q a ->. discriminate.
  - rewrite E1, E2. intros X Sf. destruct (c_first s C X Sf) as (t & pt & Ht & Spt). right. exists t, pt.
    repeat split; auto. intros ->. unfold T in *. congruence.
  - destruct (throws k) eqn:TK.
    { apply (wake_keep s s' i p old (c_wake s C) H Et A E1).
      - rewrite E6, hq, Bool.orb_true_r. reflexivity.
      - rewrite E5, hk, Bool.orb_true_r. lia. }
    intros X Q. rewrite E1 in X. rewrite E5, hk, X, (c_wk0 s C X). cbn [length orb]. rewrite Nat.add_0_r.
    destruct (Nat.ltb_spec (tokens s) (sleepers s)) as [L|L]; [left; lia|].
    destruct (Nat.eq_dec (tokens s) 0) as [Z|Z]; [|left; lia].
    right. destruct (some_worker_awake s C X) as (w & pw & Hw & Lw & Aw); [lia|].
    pose proof (TT_set s s' i p old H Et) as TT.
    destruct (Nat.eqb_spec i w) as [E|E].
    + subst w. exists i, p. rewrite TT, Nat.eqb_refl. split; [reflexivity|]. apply wpc_awake; auto. intros ->. discriminate.
    + exists w, pw. rewrite TT. apply Nat.eqb_neq in E. rewrite E. auto.
  - rewrite E1. auto.
  - intros l0 q f a w E. subst p. discriminate.
  - rewrite E1, E4. apply (c_wk0 s C).
  - rewrite E1, E5, E6, hq, hk. intros X. rewrite X, (c_wk0 s C X). cbn [length orb]. rewrite Nat.add_0_r.
    pose proof (sleepers_set s s' i p old H Et) as SL. rewrite So, Sp in SL. cbn [Nat.b2n] in SL.
    pose proof (c_tokq s C X) as TQ. destruct (throws k); [lia|]. rewrite app_length. cbn [length].
    destruct (Nat.ltb_spec (tokens s) (sleepers s)); lia.
Qed.

Lemma fin_pc_props t first a : is_sleep (fin_pc t first a) = false /\ (first = true -> stopper (fin_pc t first a) = true) /\
  (forall l q f a0, fin_pc t first a <> Join l q f a0).
Proof.
  destruct first; cbn [fin_pc].
  - repeat split; auto. discriminate.
  - pose proof (pc_after_plain t a) as X. repeat split.
    + destruct a as [r| |[|] r]; cbn [pc_after]; try reflexivity.
      * unfold next_client. destruct r; [destruct (Nat.eqb t 0)|]; reflexivity.
      * destruct r as [|[] r]; reflexivity.
    + discriminate.
    + intros l q f a0 E. rewrite E in X. discriminate.
Qed.

(* the join loop of a stop(): from the state s0 right after the critical section / wake-up *)
Lemma invc_after_wait s s0 t l q first a old : InvC s -> T s t = Some old ->
  thrs s0 = thrs s -> nclients s0 = nclients s -> exit_ s0 = true ->
  (forall j p, j <> t -> T s j = Some p -> is_sleep p = true -> (p = WSleep \/ stopped s0 = true) -> existsb (Nat.eqb j) (woken s0) = true) ->
  (stopped s0 = false -> first = true \/ (l = [] /\ exists t' pt, t' <> t /\ T s t' = Some pt /\ stopper pt = true)) ->
  (forall w, In w l -> poolw s w /\ w <> t) ->
  InvC (fst (after_wait s0 t l q first a)).
Proof.
  intros C H Et En EX HW HF HJ.
  destruct (after_wait_shell s0 t l q first a _ eq_refl) as (E & K & Q & D & Th).
  set (s' := fst (after_wait s0 t l q first a)) in *.
  destruct E as (e1 & e2 & e3 & e4 & e5 & e6 & e7 & e8 & e9).
  set (p := match l with [] => fin_pc t first a | _ => Join l q first a end) in *.
  destruct (fin_pc_props t first a) as (F1 & F2 & F3).
  assert (SL : is_sleep p = false) by (unfold p; destruct l; [exact F1|reflexivity]).
  assert (Et' : thrs s' = set_nth (thrs s) t p) by (rewrite Th, Et; reflexivity).
  apply (invc_frame s s' t p old C H Et').
  - congruence.
  - intros _. split.
    + intros j Nj Hj. unfold is_woken. rewrite e5. apply (HW j WSleep Nj Hj); auto.
    + intros ->. discriminate.
  - rewrite e2. intros ST. split.
    + intros j l0 q0 a0 Nj Hj. unfold is_woken. rewrite e5. apply (HW j _ Nj Hj); auto.
    + intros l0 q0 a0 ->. discriminate.
  - rewrite e2. intros _ ST. destruct (HF ST) as [->|(-> & t' & pt & N & Ht & Sp)].
    + left. unfold p. destruct l; [apply F2; reflexivity|reflexivity].
    + right. exists t', pt. auto.
  - apply wake_exit. congruence.
  - rewrite e1, EX. discriminate.
  - intros l0 q0 f0 a0 w E0. unfold p in E0. destruct l as [|w0 l]; [exfalso; eapply F3, E0|].
    inversion E0; subst. apply HJ.
  - rewrite e1, EX. discriminate.
  - rewrite e1, EX. discriminate.
Qed.

Lemma invc_stop_mark s t a old : InvB s -> InvC s -> T s t = Some old -> stopper old = false ->
  InvC (fst (stop_mark s t a)).
Proof.
  intros B C H NSo.
  set (s1 := marked s (sleeper_ids s)).
  assert (HW : forall j p, j <> t -> T s j = Some p -> is_sleep p = true -> (p = WSleep \/ stopped s1 = true) ->
               existsb (Nat.eqb j) (woken s1) = true).
  { intros j p _ Hj S _. apply (sleeper_ids_in s j p Hj S). }
  assert (OTHER : exit_ s = true -> stopped s = false -> exists t' pt, t' <> t /\ T s t' = Some pt /\ stopper pt = true).
  { intros X Sf. destruct (c_first s C X Sf) as (t' & pt & Ht & Sp). exists t', pt. repeat split; auto.
    intros ->. unfold T in *. congruence. }
  apply stop_mark_cases.
  - intros X _ Sf. fold s1. set (p := SWait _ _ _).
    apply (invc_frame s (with_thr s1 t p) t p old C H); try reflexivity; try discriminate.
    + intros _. split; [|discriminate]. intros j Nj Hj. apply (HW j WSleep Nj Hj); auto.
    + unfold with_thr, s1, marked. cbn [stopped]. rewrite Sf. discriminate.
    + intros _ _. right. apply OTHER; assumption.
  - intros _. apply (invc_after_wait s s1 t _ (queue s) _ _ old C H); try reflexivity.
    + exact HW.
    + intros Sf. change (stopped s1) with (stopped s) in Sf. destruct (exit_ s) eqn:X; [|left; reflexivity].
      right. destruct (b_exit s B X) as [_ Th]. split; [unfold stop_list; rewrite Th; reflexivity|]. apply OTHER; auto.
    + intros w Hin. apply filter_ne_in in Hin. destruct Hin as [N Hin]. split; [apply (b_thr s B w Hin)|exact N].
Qed.

Lemma invc_worker_cs s s0 w old : InvC s -> T s w = Some old -> stopper old = false ->
  thrs s0 = thrs s -> nclients s0 = nclients s -> exit_ s0 = exit_ s -> stopped s0 = stopped s -> queue s0 = queue s ->
  (forall j, j <> w -> is_woken s0 j = is_woken s j) -> (exit_ s0 = false -> woken s0 = []) ->
  (exit_ s0 = false -> (is_sleep old = false /\ tokens s0 = tokens s) \/ (is_sleep old = true /\ S (tokens s0) = tokens s)) ->
  InvC (fst (worker_cs s0 w)).
Proof.
  intros C H NSo Et En Ee Es Eq Ew Ew0 HT.
  assert (FR : forall p s2, thrs s2 = thrs s0 -> nclients s2 = nclients s0 -> exit_ s2 = exit_ s0 ->
             stopped s2 = stopped s0 -> woken s2 = woken s0 -> stopper p = false ->
             (forall l q a, p <> SWait l q a) ->
             (exit_ s0 = true -> p <> WSleep) ->
             (exit_ s0 = false -> asleep_or_awake p = true /\ (awake p = true \/ queue s2 = [])) ->
             tokens s2 = tokens s0 ->
             (exit_ s0 = false -> queue s2 = [] \/ (is_sleep p = false /\ S (length (queue s2)) = length (queue s))) ->
             InvC (with_thr s2 w p)).
  { intros p s2 E1 E2 E3 E4 E5 NSp NSW PX PN E6 PQ.
    set (s' := with_thr s2 w p).
    assert (Et2 : thrs s' = set_nth (thrs s) w p) by (unfold s', with_thr; cbn [thrs]; rewrite E1, Et; reflexivity).
    assert (W' : forall j, is_woken s' j = is_woken s0 j) by (intros j; unfold is_woken, s', with_thr; cbn [woken]; rewrite E5; reflexivity).
    apply (invc_frame s s' w p old C H Et2).
    - unfold s', with_thr; cbn [nclients]. congruence.
    - change (exit_ s') with (exit_ s2). rewrite E3. intros X. split.
      + intros j Nj Hj. rewrite W', Ew by exact Nj. apply (c_ex s C); [congruence|exact Hj].
      + intros Q. exfalso. apply (PX X Q).
    - change (stopped s') with (stopped s2). rewrite E4, Es. intros X. split.
      + intros j l q a Nj Hj. rewrite W', Ew by exact Nj. apply (c_st s C X j l q a Hj).
      + intros l q a Q. exfalso. apply (NSW l q a Q).
    - change (exit_ s') with (exit_ s2). change (stopped s') with (stopped s2). rewrite E3, E4, Ee, Es. intros X Sf.
      destruct (c_first s C X Sf) as (t & pt & Ht & Sp). right. exists t, pt. repeat split; auto.
      intros ->. unfold T in *. congruence.
    - intros X Q. change (exit_ s') with (exit_ s2) in X. rewrite E3 in X. destruct (PN X) as [_ [A|A]].
      + right. exists w, p. split; [|exact A]. rewrite (TT_set s s' w p old H Et2), Nat.eqb_refl. reflexivity.
      + exfalso. apply Q. exact A.
    - change (exit_ s') with (exit_ s2). rewrite E3. intros X. split; [congruence|]. intros _. apply (PN X).
    - intros l q f a w0 E. subst p. discriminate.
    - change (exit_ s') with (exit_ s2). change (woken s') with (woken s2). rewrite E3, E5. exact Ew0.
    - change (exit_ s') with (exit_ s2). change (queue s') with (queue s2). change (tokens s') with (tokens s2).
      rewrite E3, E6. intros X. destruct (PQ X) as [Q0|[Sp Q1]]; [rewrite Q0; cbn [length]; lia|].
      pose proof (sleepers_set s s' w p old H Et2) as SL. rewrite Sp in SL. cbn [Nat.b2n] in SL.
      assert (X0 : exit_ s = false) by congruence. pose proof (c_tokq s C X0) as TQ.
      destruct (HT X) as [[So Tk]|[So Tk]]; rewrite So in SL; cbn [Nat.b2n] in SL; lia. }
  unfold worker_cs. destruct (exit_ s0) eqn:EX.
  - cbn [fst]. unfold exit_pc. destruct (Nat.ltb w (nclients s0)); [|apply FR; auto; discriminate].
    destruct (next_client_on w (nth w (cont s0) []) CDone eq_refl) as [G _].
    destruct (goes_on_awake w CDone _ G) as (Sp & St & _). pose proof (ordinary_plain w _ (proj1 G)) as NS.
    apply FR; auto; try discriminate; [intros l q a E|intros _ E]; rewrite E in *; discriminate.
  - destruct (queue s0) as [|c0 r] eqn:QQ.
    + cbn [fst]. apply FR; auto; try discriminate.
    + unfold run_job. destruct (nth_error (clos (with_queue s0 r)) c0) as [x|].
      * cbn [fst]. assert (A : awake (job_next (cb x)) = true) by (destruct (cb x) as [|[] ?]; reflexivity).
        apply FR; try reflexivity; try discriminate; try exact EX.
        -- destruct (cb x) as [|[] ?]; reflexivity.
        -- intros l q a E. rewrite E in A. discriminate.
        -- intros _. split; [unfold asleep_or_awake; destruct (job_next (cb x)); auto|left; exact A].
        -- intros _. right. split; [destruct (cb x) as [|[] ?]; reflexivity|]. rewrite <- Eq. reflexivity.
      * cbn [fst]. apply FR; try reflexivity; try discriminate; try exact EX.
        -- intros _. split; [reflexivity|left; reflexivity].
        -- intros _. right. split; [reflexivity|]. rewrite <- Eq. reflexivity.
Qed.

Lemma invc_swait_again s i : InvC s -> (exists p, T s i = Some p /\ p <> WSleep) ->
  stopped s = false -> exit_ s = true -> InvC (wake s i).
Proof.
  intros C (p & H & NW) Sf X.
  assert (TH : thrs (wake s i) = thrs s) by (unfold wake; destruct (is_woken s i); reflexivity).
  assert (EXq : exit_ (wake s i) = exit_ s) by (unfold wake; destruct (is_woken s i); reflexivity).
  assert (STq : stopped (wake s i) = stopped s) by (unfold wake; destruct (is_woken s i); reflexivity).
  assert (NC : nclients (wake s i) = nclients s) by (unfold wake; destruct (is_woken s i); reflexivity).
  assert (TT : forall j, T (wake s i) j = T s j) by (intros j; unfold T; rewrite TH; reflexivity).
  destruct C as [Cex Cst Cfirst Cwake Cwpc Chasw Cjw Cwk0 Ctokq].
  constructor.
  - intros _ j Hj. rewrite TT in Hj. rewrite is_woken_wake; [apply Cex; auto|].
    intros ->. unfold T in *. rewrite H in Hj. inversion Hj. subst p. apply NW. reflexivity.
  - rewrite STq, Sf. discriminate.
  - rewrite EXq, STq. intros A Bq. destruct (Cfirst A Bq) as (t & pt & Ht & Sp). exists t, pt. rewrite TT. auto.
  - apply wake_exit. congruence.
  - rewrite EXq, X. discriminate.
  - rewrite NC. unfold wake. destruct (is_woken s i); exact Chasw.
  - intros t l q f a w. rewrite TT. unfold poolw. rewrite NC, TH. apply Cjw.
  - rewrite EXq, X. discriminate.
  - rewrite EXq, X. discriminate.
Qed.

Theorem invc_core s i : InvB s -> InvC s -> enabled s i = true -> InvC (cstep s i).
Proof.
  intros B C EN. destruct (cstep_path s i EN) as (old & H & P).
  assert (EXT : in_stop old = true -> exit_ s = true) by apply (b_join s B i old H).
  (* _exit flags the sleepers in worker(), _stopped those in stop() *)
  assert (WOKE : exit_ s = true -> forall j p, T s j = Some p -> is_sleep p = true -> p = WSleep \/ stopped s = true ->
                 is_woken s j = true).
  { intros X j p Hj S [->|ST]; [apply (c_ex s C X j Hj)|].
    destruct p; try discriminate; [apply (c_ex s C X j Hj)|apply (c_st s C ST j _ _ _ Hj)]. }
  destruct P as [old p M|old l k b p E|old a S|old s0 W|l q f a J|l q a ST|l q a ST|a].
  - destruct (moves_cases s i old p M) as [(O & G & _)|(w & l & q & f & a & -> & -> & NE & _)].
    + apply (invc_goes_on s i p old B C H O G).
    + apply (invc_move s i _ _ C H); auto.
      * rewrite (EXT eq_refl). discriminate.
      * intros l0 q0 f0 a0 w' E Hin. inversion E; subst. eexists. split; [reflexivity|right; exact Hin].
  - destruct (enqs_on i old l k b p E) as [[G _] O]. apply (invc_enqueue s i l k b p old B C H O G).
  - apply (invc_stop_mark s i a old B C H), plain_stopper, (stops_plain old a S).
  - destruct W as [r| |].
    + apply (invc_worker_cs s (with_ext s i r) i _ C H); auto. apply (c_wk0 s C).
    + apply (invc_worker_cs s s i _ C H); auto. apply (c_wk0 s C).
    + 
      assert (W0 : exit_ s = false -> woken s = [] /\ wake s i = with_tokens s (pred (tokens s)) /\ 0 < tokens s).
      { intros X. pose proof (c_wk0 s C X) as W0. split; [exact W0|]. unfold wake, is_woken. rewrite W0. split; [reflexivity|].
        unfold enabled, is_woken in EN. unfold T in H. rewrite H, W0, Bool.orb_false_r in EN. apply Nat.ltb_lt, EN. }
      apply (invc_worker_cs s (wake s i) i _ C H); rewrite ?(wake_frame exit_) by reflexivity;
        try (apply wake_frame; reflexivity); auto.
      * intros j Nj. apply is_woken_wake, Nj.
      * intros X. destruct (W0 X) as (W1 & -> & _). exact W1.
      * intros X. right. destruct (W0 X) as (_ & -> & TK). split; [reflexivity|]. cbn [tokens with_tokens]. lia.
  - rewrite (b_first s B i l q f a H). apply (invc_after_wait s s i [] q true a _ C H); auto.
    + intros j p _ Hj. apply (WOKE (EXT eq_refl) j p Hj).
    + intros w [].
  - destruct (b_swait s B i l q a H) as (-> & -> & _).
    apply (invc_after_wait s (wake s i) i [] [] false a _ C H); rewrite ?(wake_frame exit_), ?(wake_frame stopped) by reflexivity;
      try (apply wake_frame; reflexivity); auto.
    + intros j p Nj Hj S _. change (is_woken (wake s i) j = true). rewrite is_woken_wake by exact Nj.
      apply (WOKE (EXT eq_refl) j p Hj S). auto.
    + congruence.
    + intros w [].
  - apply invc_swait_again; auto. exists (SWait l q a). split; [exact H|discriminate].
  - apply (invc_after_wait s (finished s (sleeper_ids s)) i [] [] false a _ C H); auto.
    + intros j p _ Hj S _. apply (sleeper_ids_in s j p Hj S).
    + intros w [].
Qed.
Theorem invc_step s i : Inv s -> InvC s -> enabled s i = true -> InvC (step s i).
Proof. intros [_ B U] C EN. rewrite (step_is_core s i U EN). apply invc_core; assumption. Qed.

Lemma invc_init ops : InvC (init ops).
Proof.
  destruct (init_shape ops) as (m & cl & n & M & N & LC & NC & TH & THR & SH).
  pose proof (init_cls ops) as CLS.
  assert (PL : forall i p, T (init ops) i = Some p -> in_stop p = false /\ p <> WSleep).
  { intros i p H. destruct (CLS i p H) as [(L & r & ->)|(L & ->)]; [|split; [reflexivity|discriminate]].
    destruct (next_client_plain i r) as (X & _). split; [exact X|].
    unfold next_client. destruct r; [destruct (Nat.eqb i 0)|]; discriminate. }
  constructor; try discriminate.
  - intros _ Q. exfalso. apply Q. reflexivity.
  - intros _ i p H L. destruct (CLS i p H) as [(L2 & _)|(_ & ->)]; [lia|reflexivity].
  - rewrite NC, TH, app_length, repeat_length. lia.
  - intros t l q f a w H. destruct (PL t _ H) as [X _]. discriminate.
  - reflexivity.
  - intros _. apply Nat.le_0_l.
Qed.

Theorem invc_reachable ops s : reachable ops s -> InvC s.
Proof.
  induction 1; [apply invc_init|]. apply invc_step; auto. eapply inv_reachable; eassumption.
Qed.

(* a deadlock of the client program, not of the pool: a client thread sits in worker() of an idle pool that nobody stops *)
Definition user_stuck (s : st) : Prop :=
  exit_ s = false /\ queue s = [] /\ exists j, j < nclients s /\ T s j = Some WSleep.

Lemma dec_thr s (f : pc -> bool) :
  (exists i p, T s i = Some p /\ f p = true) \/ (forall i p, T s i = Some p -> f p = false).
Proof.
  destruct (existsb f (thrs s)) eqn:E.
  - left. apply existsb_exists in E. destruct E as (p & Hin & A). apply In_nth_error in Hin. destruct Hin as [i Hi].
    exists i, p. split; assumption.
  - right. intros i p H. destruct (f p) eqn:A; [|reflexivity].
    assert (X : existsb f (thrs s) = true) by (apply existsb_exists; exists p; split; [eapply nth_error_In, H|exact A]).
    congruence.
Qed.

Lemma sleeper_enabled s i p : T s i = Some p -> is_sleep p = true -> (0 < tokens s \/ is_woken s i = true) -> enabled s i = true.
Proof.
  unfold T, enabled. intros -> S W. destruct p; try discriminate;
    (destruct W as [W|W]; [apply Bool.orb_true_iff; left; apply Nat.ltb_lt; exact W|apply Bool.orb_true_iff; right; exact W]).
Qed.

Lemma nth_error_firstn_some {A} (l : list A) : forall n j x, nth_error (firstn n l) j = Some x -> nth_error l j = Some x /\ j < n.
Proof.
  induction l as [|y l IH]; intros [|n] [|j] x H; cbn in *; try discriminate.
  - split; [exact H|lia].
  - destruct (IH n j x H). split; [assumption|lia].
Qed.

Lemma enabled_list_complete s n : forall from i, from <= i < from + n -> enabled s i = true -> In i (enabled_list s n from).
Proof.
  induction n as [|n IH]; intros from i L E; [lia|]. cbn [enabled_list]. apply in_or_app.
  destruct (Nat.eq_dec i from) as [->|N]; [left; rewrite E; left; reflexivity|right; apply IH; [lia|exact E]].
Qed.

Lemma all_enabled_nil s : all_enabled s = [] -> forall i, enabled s i = false.
Proof.
  intros E i. destruct (enabled s i) eqn:X; [|reflexivity]. exfalso.
  assert (L : i < length (thrs s)).
  { unfold enabled in X. destruct (nth_error (thrs s) i) eqn:H; [|discriminate]. apply nth_error_Some. congruence. }
  pose proof (enabled_list_complete s (length (thrs s)) 0 i (conj (Nat.le_0_l _) L) X) as I.
  unfold all_enabled in E. rewrite E in I. contradiction.
Qed.

(* a thread waits for the outcome of a submission (the client program / a job made itself depend on it) *)
Definition is_wait (p : pc) : bool := match p with WWait _ _ | CAt (OWait _ :: _) => true | _ => false end.
Definition waits_for_submission (s : st) : Prop := exists i p, T s i = Some p /\ is_wait p = true.

Lemma disabled_cases s i p : T s i = Some p -> enabled s i = false -> is_wait p = false ->
  p = CDone \/ p = WExit \/ (p = CXWait /\ xwait_ok s = false) \/
  (is_sleep p = true /\ tokens s = 0 /\ is_woken s i = false) \/
  (exists w l q f a, p = Join (w :: l) q f a /\ is_wexit s w = false).
Proof.
  unfold T, enabled. intros -> E W.
  assert (SL : Nat.ltb 0 (tokens s) || is_woken s i = false -> tokens s = 0 /\ is_woken s i = false).
  { intros O. apply Bool.orb_false_iff in O. destruct O as [O1 O2]. apply Nat.ltb_ge in O1. split; [lia|exact O2]. }
  destruct p as [[|[] ?]| | | | | | | | | | | | |[|w l] q f a| |]; try discriminate; auto 6.
  - right. right. right. left. split; [reflexivity|apply SL, E].
  - right. right. right. right. eauto 8.
  - right. right. right. left. split; [reflexivity|apply SL, E].
Qed.

(* Suppose no thread can step and none waits for a submission.  A joiner would have at the head of its list a pool
   thread still in worker(), but none can be stuck there once _exit is set; so nobody joins, hence nobody waits for a
   first stop, and what is left are finished threads, thread 0 waiting for the others, and sleepers without a wake-up. *)
Theorem stop_no_deadlock s : Inv s -> InvC s -> ~ terminal s ->
  (exists i, enabled s i = true) \/ user_stuck s \/ waits_for_submission s.
Proof.
  intros [_ B U] C NT.
  destruct (all_enabled s) as [|i0 r] eqn:AE;
    [|left; exists i0; apply (enabled_list_In s (length (thrs s)) 0); fold (all_enabled s); rewrite AE; left; reflexivity].
  pose proof (all_enabled_nil s AE) as NE. right.
  destruct (dec_thr s is_wait) as [(i & p & H & A)|NW]; [right; exists i, p; auto|]. left.
  pose proof (fun i p H => disabled_cases s i p H (NE i) (NW i p H)) as DC.
  assert (NJ : forall t w l q f a, T s t <> Some (Join (w :: l) q f a)).
  { intros t w l q f a H. pose proof (b_join s B t _ H eq_refl) as X.
    destruct (c_jw s C t _ q f a w H (or_introl eq_refl)) as ([L1 L2] & NE').
    destruct (nth_error (thrs s) w) as [pw|] eqn:E; [|apply nth_error_None in E; lia].
    pose proof (proj1 (b_class s B w pw E) L1) as CW.
    pose proof (NE t) as NX. unfold enabled in NX. unfold T in H. rewrite H in NX. unfold is_wexit in NX. rewrite E in NX.
    destruct (DC w pw E) as [->|[->|[[-> _]|[(S & _ & NWk)|(w2 & l2 & q2 & f2 & a2 & -> & _)]]]]; try discriminate.
    - destruct pw; try discriminate S.
      + rewrite (c_ex s C X w E) in NWk. discriminate.
      + destruct (b_swait s B w _ _ _ E) as (_ & _ & CU). cbn [is_client] in CW. destruct a0; discriminate.
    - apply NE'. eapply (u_uniq s U); [exact E|exact H|reflexivity|reflexivity]. }
  assert (NS : forall t l q a, T s t <> Some (SWait l q a)).
  { intros t l q a H. pose proof (b_join s B t _ H eq_refl) as X.
    destruct (DC t _ H) as [D|[D|[[D _]|[(_ & _ & NWk)|(? & ? & ? & ? & ? & D & _)]]]]; try discriminate D.
    destruct (stopped s) eqn:ST; [rewrite (c_st s C ST t l q a H) in NWk; discriminate|].
    destruct (c_first s C X ST) as (k & pk & Hk & Sp).
    destruct (DC k pk Hk) as [->|[->|[[-> _]|[[S _]|(w & l' & q' & f' & a' & -> & _)]]]]; try discriminate Sp.
    - destruct pk; discriminate.
    - apply (NJ k _ _ _ _ _ Hk). }
  assert (CL : forall i p, T s i = Some p -> p = CDone \/ p = WExit \/ p = CXWait /\ xwait_ok s = false \/
                                            p = WSleep /\ tokens s = 0 /\ is_woken s i = false).
  { intros i p H. destruct (DC i p H) as [D|[D|[D|[(S & R)|(w & l & q & f & a & -> & _)]]]]; auto.
    - destruct p; try discriminate S; [auto 6|exfalso; apply (NS _ _ _ _ H)].
    - exfalso. apply (NJ _ _ _ _ _ _ H). }
  assert (SLEEP : forall j, j < nclients s -> T s j = Some WSleep -> user_stuck s).
  { intros j L H. destruct (CL j _ H) as [D|[D|[[D _]|(_ & TK & NWk)]]]; try discriminate D.
    destruct (exit_ s) eqn:X; [rewrite (c_ex s C X j H) in NWk; discriminate|].
    destruct (queue s) as [|c0 r] eqn:Q; [unfold user_stuck; rewrite X, Q; eauto|].
    exfalso. destruct (c_wake s C X) as [TK'|(k & pk & Hk & Ak)]; [rewrite Q; discriminate|lia|].
    destruct (CL k pk Hk) as [->|[->|[[-> _]|[-> _]]]]; discriminate Ak. }
  pose proof (b_ncl s B) as [N1 N2].
  destruct (nth_error (thrs s) 0) as [p0|] eqn:E0; [|apply nth_error_None in E0; lia].
  destruct (CL 0 p0 E0) as [->|[->|[[-> XW]|[-> _]]]].
  - exfalso. apply NT, (u_dead s U), (b_done0 s B E0).
  - exfalso. apply (proj2 (b_class s B 0 WExit E0) N1). reflexivity.
  - 
    set (sl := fun j => match nth_error (thrs s) j with Some WSleep => true | _ => false end).
    destruct (existsb sl (seq 0 (nclients s))) eqn:EB.
    + apply existsb_exists in EB. destruct EB as (k & Hk & Ek). apply in_seq in Hk. apply (SLEEP k); [lia|].
      unfold T. unfold sl in Ek. destruct (nth_error (thrs s) k) as [[]|]; try discriminate. reflexivity.
    + exfalso. assert (Y : xwait_ok s = true); [|congruence].
      apply forallb_forall. intros p Hin. apply In_nth_error in Hin. destruct Hin as [j Hj].
      destruct (nth_error_firstn_some _ _ _ _ Hj) as [Hj' Lj].
      destruct (CL j p Hj') as [->|[->|[[-> _]|[-> _]]]]; try reflexivity.
      * exfalso. apply (proj2 (b_class s B j WExit Hj') Lj). reflexivity.
      * assert (Z : existsb sl (seq 0 (nclients s)) = true); [|congruence].
        apply existsb_exists. exists j. split; [apply in_seq; lia|]. unfold sl. unfold T in Hj'. rewrite Hj'. reflexivity.
  - apply (SLEEP 0 N1 E0).
Qed.

(* no lost wake-up: a worker that sleeps while work is queued has a wake-up pending *)
Theorem no_lost_wakeup s i : InvC s -> exit_ s = false -> queue s <> [] -> T s i = Some WSleep ->
  enabled s i = true.
Proof.
  intros C X Q H. pose proof (c_tokq s C X) as TQ.
  pose proof (sleepers_pos s i WSleep H eq_refl) as SP.
  apply (sleeper_enabled s i WSleep H eq_refl). left. destruct (queue s); [congruence|]. cbn [length] in TQ. lia.
Qed.
