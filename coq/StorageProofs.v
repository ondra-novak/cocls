(* StorageProofs.v — invariants of the storage-policy model and the run-level theorems of C19, for every policy and every
   history (any length, any sizes).  The invariant counts the threads holding _busy, so that StorageMtProofs.v can reuse it. *)
From Cocls Require Import Base BaseProofs StorageDefs.
Require Import ZifyBool.
Local Open Scope Z_scope.
(* lia is to reason about / and mod: ceil(n / itemsz), align_up *)
Ltac Zify.zify_post_hook ::= Z.div_mod_to_equations.

Fixpoint sumw (w : frame -> Z) (l : list (nat * frame)) : Z :=
  match l with [] => 0 | (_, f) :: t => w f + sumw w t end.
Arguments sumw : simpl never.

Lemma sumw_cons w k f l : sumw w ((k, f) :: l) = w f + sumw w l.
Proof. reflexivity. Qed.
Lemma sumw_nil w : sumw w [] = 0.
Proof. reflexivity. Qed.
Lemma sumw_nonneg w l : (forall f, 0 <= w f) -> 0 <= sumw w l.
Proof.
  intros W. induction l as [|[k f] l IH]; [rewrite sumw_nil; lia|]. rewrite sumw_cons. specialize (W f). lia.
Qed.

Definition keys (l : list (nat * frame)) := map fst l.
Definition blocks (l : list (nat * frame)) := map (fun q => f_blk (snd q)) l.

Lemma fget_In l i f : fget l i = Some f -> In (i, f) l.
Proof.
  induction l as [|[k g] l IH]; cbn [fget]; [discriminate|].
  destruct (Nat.eqb_spec i k) as [E|E]; intros H.
  - inversion H; subst. left; reflexivity.
  - right. apply IH, H.
Qed.

Lemma fget_None_keys l i : fget l i = None -> ~ In i (keys l).
Proof.
  induction l as [|[k g] l IH]; cbn [fget keys map fst]; [tauto|].
  destruct (Nat.eqb_spec i k) as [E|E]; [discriminate|]. intros H [A|A]; [congruence|]. exact (IH H A).
Qed.

Lemma In_fget l k g : NoDup (keys l) -> In (k, g) l -> fget l k = Some g.
Proof.
  induction l as [|[k' g'] l IH]; cbn [keys map fst In fget]; [tauto|].
  intros H A. inversion H as [|? ? N D]; subst.
  destruct (Nat.eqb_spec k k') as [E|E]; destruct A as [A|A]; try congruence.
  - subst. destruct N. exact (in_map fst l (k', g) A).
  - exact (IH D A).
Qed.

Lemma In_fdel l i k g : In (k, g) (fdel l i) <-> In (k, g) l /\ k <> i.
Proof.
  induction l as [|[k' g'] l IH]; cbn [fdel In]; [tauto|].
  destruct (Nat.eqb_spec i k') as [E|E]; cbn [In]; rewrite ?IH; split.
  - intros [A B]; split; auto.
  - intros [[A|A] B]; [inversion A; subst; congruence|auto].
  - intros [A|[A B]]; [inversion A; subst; split; [auto|congruence]|split; auto].
  - intros [[A|A] B]; auto.
Qed.

Lemma In_map_fdel {B} (r : nat * frame -> B) l i b : In b (map r (fdel l i)) -> In b (map r l).
Proof.
  rewrite !in_map_iff. intros [[k g] [E H]]. apply In_fdel in H. exists (k, g). tauto.
Qed.

Lemma NoDup_map_fdel {B} (r : nat * frame -> B) l i : NoDup (map r l) -> NoDup (map r (fdel l i)).
Proof.
  induction l as [|[k g] l IH]; cbn [fdel map]; [auto|].
  intros H. inversion H as [|? ? N D]; subst.
  destruct (Nat.eqb i k); [apply IH, D|].
  cbn [map]. constructor; [|apply IH, D]. intros A. exact (N (In_map_fdel r l i _ A)).
Qed.

Lemma fdel_notin l k : ~ In k (keys l) -> fdel l k = l.
Proof.
  induction l as [|[k' g] l IH]; cbn [fdel keys map fst In]; [reflexivity|]. intros N.
  destruct (Nat.eqb_spec k k') as [E|E]; [destruct N; left; congruence|].
  rewrite IH; [reflexivity|]. intros A. apply N. right. exact A.
Qed.

Lemma sumw_fdel w l i f : NoDup (keys l) -> fget l i = Some f -> sumw w l = w f + sumw w (fdel l i).
Proof.
  induction l as [|[k g] l IH]; cbn [fget fdel keys map fst]; [discriminate|].
  intros H G. inversion H as [|? ? N D]; subst. rewrite sumw_cons.
  destruct (Nat.eqb_spec i k) as [E|E].
  - inversion G; subst. rewrite (fdel_notin l k N). reflexivity.
  - rewrite sumw_cons, (IH D G). lia.
Qed.

Lemma fdel_length l i : (length (fdel l i) <= length l)%nat.
Proof. induction l as [|[k g] l IH]; cbn [fdel length]; [lia|]. destruct (Nat.eqb i k); cbn [length]; lia. Qed.

Lemma blocks_distinct l i j fi fj :
  NoDup (blocks l) -> fget l i = Some fi -> fget l j = Some fj -> i <> j -> f_blk fi <> f_blk fj.
Proof.
  induction l as [|[k h] l IH]; cbn [fget blocks map snd]; [discriminate|].
  intros H Gi Gj N. inversion H as [|? ? NB D]; subst.
  destruct (Nat.eqb_spec i k) as [Ei|Ei]; destruct (Nat.eqb_spec j k) as [Ej|Ej]; subst; try congruence.
  - inversion Gi; subst. intros E. apply NB. rewrite E. exact (in_map (fun q => f_blk (snd q)) l _ (fget_In _ _ _ Gj)).
  - inversion Gj; subst. intros E. apply NB. rewrite <- E. exact (in_map (fun q => f_blk (snd q)) l _ (fget_In _ _ _ Gi)).
  - exact (IH D Gi Gj N).
Qed.

Definition ids (h : heap) : list nat := map fst (h_live h).

Record heap_ok (h : heap) : Prop := {
  hk_bad : h_bad h = 0;
  hk_cnt : h_allocs h - h_frees h = zlen (h_live h);
  hk_lt : forall b z, In (b, z) (h_live h) -> (b < h_next h)%nat;
  hk_nd : NoDup (ids h)
}.

Lemma hmem_In b l z : In (b, z) l -> hmem b l = true.
Proof.
  induction l as [|[x y] l IH]; cbn [In hmem]; [tauto|].
  intros [A|A]; [inversion A; subst; rewrite Nat.eqb_refl; reflexivity|]. rewrite (IH A). apply orb_true_r.
Qed.

Lemma hmem_ids b l : hmem b l = true -> In b (map fst l).
Proof.
  induction l as [|[x y] l IH]; cbn [hmem map fst In]; [discriminate|].
  destruct (Nat.eqb_spec b x); [left; congruence|right; apply IH; assumption].
Qed.

Lemma hrem_In b l x z : In (x, z) l -> x <> b -> In (x, z) (hrem b l).
Proof.
  induction l as [|[x' y] l IH]; cbn [In hrem]; [tauto|].
  intros [A|A] N; destruct (Nat.eqb_spec b x') as [E|E]; subst.
  - inversion A; subst. congruence.
  - left; exact A.
  - exact A.
  - right. exact (IH A N).
Qed.

Lemma hrem_In_inv b l x z : In (x, z) (hrem b l) -> In (x, z) l.
Proof.
  induction l as [|[x' y] l IH]; cbn [In hrem]; [tauto|].
  destruct (Nat.eqb_spec b x'); cbn [In]; [tauto|]. intros [A|A]; [left; exact A|right; exact (IH A)].
Qed.

Lemma hrem_length b l : hmem b l = true -> zlen (hrem b l) = zlen l - 1.
Proof.
  unfold zlen. induction l as [|[x y] l IH]; cbn [hmem hrem length]; [discriminate|].
  destruct (Nat.eqb_spec b x); cbn [orb length]; [lia|]. intros H. specialize (IH H). lia.
Qed.

Lemma hrem_nodup b l : NoDup (map fst l) -> NoDup (map fst (hrem b l)).
Proof.
  induction l as [|[x y] l IH]; cbn [hrem map fst]; [auto|]. intros H. inversion H as [|? ? N D]; subst.
  destruct (Nat.eqb b x); [exact D|]. cbn [map fst]. constructor; [|exact (IH D)].
  intros A. apply N. apply in_map_iff in A. destruct A as [[x' z] [E A]].
  apply in_map_iff. exists (x', z). split; [exact E|exact (hrem_In_inv _ _ _ _ A)].
Qed.

Lemma hrem_gone b l : NoDup (map fst l) -> hmem b (hrem b l) = false.
Proof.
  induction l as [|[x y] l IH]; cbn [hrem map fst hmem]; [auto|]. intros H. inversion H as [|? ? N D]; subst.
  destruct (Nat.eqb_spec b x) as [E|E].
  - subst. destruct (hmem x l) eqn:M; [|reflexivity]. destruct N. exact (hmem_ids _ _ M).
  - cbn [hmem]. destruct (Nat.eqb_spec b x); [congruence|]. exact (IH D).
Qed.

Lemma hnew_ok h sz : heap_ok h -> heap_ok (fst (hnew h sz)).
Proof.
  intros [B C L ND]. unfold hnew. cbn [fst]. constructor; unfold ids in *; cbn [h_bad h_allocs h_frees h_live h_next map fst].
  - exact B.
  - rewrite zlen_cons. lia.
  - intros b z [A|A]; [inversion A; lia|]. specialize (L _ _ A). lia.
  - constructor; [|exact ND]. intros A. apply in_map_iff in A. destruct A as [[b z] [E A]]. cbn [fst] in E. subst.
    specialize (L _ _ A). lia.
Qed.

Lemma hdel_live h b z : In (b, z) (h_live h) ->
  hdel h b = mkHeap (h_next h) (hrem b (h_live h)) (h_allocs h) (h_frees h + 1) (h_bad h).
Proof. intros I. unfold hdel. rewrite (hmem_In _ _ _ I). reflexivity. Qed.

Lemma hdel_ok h b z : heap_ok h -> In (b, z) (h_live h) -> heap_ok (hdel h b).
Proof.
  intros [B C L ND] I. rewrite (hdel_live _ _ _ I). constructor; unfold ids in *; cbn [h_bad h_allocs h_frees h_live h_next].
  - exact B.
  - rewrite hrem_length by exact (hmem_In _ _ _ I). lia.
  - intros x y A. apply hrem_In_inv in A. exact (L _ _ A).
  - exact (hrem_nodup _ _ ND).
Qed.

Lemma hdel_opt_ok h po z : heap_ok h -> (forall b, po = Some b -> In (b, z) (h_live h)) ->
  heap_ok (hdel_opt h po) /\ h_next (hdel_opt h po) = h_next h /\
  zlen (h_live (hdel_opt h po)) = zlen (h_live h) - match po with Some _ => 1 | None => 0 end /\
  forall x y, In (x, y) (h_live h) -> po <> Some x -> In (x, y) (h_live (hdel_opt h po)).
Proof.
  intros HK V. destruct po as [b|]; cbn [hdel_opt].
  - specialize (V b eq_refl). split; [exact (hdel_ok _ _ _ HK V)|]. rewrite (hdel_live _ _ _ V). cbn [h_next h_live].
    split; [reflexivity|]. split; [exact (hrem_length _ _ (hmem_In _ _ _ V))|].
    intros x y A N. apply hrem_In; [exact A|congruence].
  - split; [exact HK|]. split; [reflexivity|]. split; [lia|auto].
Qed.

Definition single (pol : policy) : bool := match pol with PReu | PPlc | PBuf => true | _ => false end.

Definition nsown (pol : policy) (s : sto) : Z :=
  match pol with
  | PReu | PMts | PBuf => match s_ptr s with Some _ => 1 | None => 0 end
  | _ => 0
  end.
(* 1 if the frame's dealloc has to free the frame's block *)
Definition owns (pol : policy) (f : frame) : Z :=
  match pol with
  | PDef => 1 | PMts => if f_tr f then 0 else 1 | PStk => if f_tr f then 1 else 0 | _ => 0
  end.
Definition trw (f : frame) : Z := if f_tr f then 1 else 0.

Lemma trw_eq f : trw f = if f_tr f then 1 else 0. Proof. reflexivity. Qed.
Lemma trw_nonneg f : 0 <= trw f. Proof. unfold trw. destruct (f_tr f); lia. Qed.

Lemma sumw_trw_zero l i f : sumw trw l = 0 -> In (i, f) l -> f_tr f = false.
Proof.
  induction l as [|[k g] l IH]; cbn [In]; [tauto|]. rewrite sumw_cons.
  pose proof (trw_nonneg g). pose proof (sumw_nonneg trw l trw_nonneg).
  intros E [A|A].
  - inversion A; subst. unfold trw in *. destruct (f_tr f); [lia|reflexivity].
  - apply IH; [lia|exact A].
Qed.

(* the frame that mk_frame builds from what Base::alloc granted *)
Definition frame_of (p : prm) (fid : nat) (sz : Z) (g : grant) : frame :=
  mkFr fid (g_blk g) (nreq p sz) (g_need g) (g_room g) (g_tr g) sz.

Record frame_ok (p : prm) (h : heap) (s : sto) (f : frame) : Prop := {
  fo_req : 0 < f_sz f /\ f_n f = nreq p (f_sz f);
  fo_need : f_need f = f_n f + trailer (p_pol p);
  fo_room : f_need f <= f_room f;
  fo_live : match f_blk f with
            | BHeap b => In (b, f_room f) (h_live h)
            | BOwn j => match p_pol p with PStk => (j < s_ownc s)%nat | PPlc => j = O /\ f_room f = p_a p | _ => False end
            | BNull => False
            end;
  fo_kind : match p_pol p with
            | PDef => exists b, f_blk f = BHeap b
            | PReu | PBuf => f_blk f = optblk (s_ptr s)
            | PMts => if f_tr f then f_blk f = optblk (s_ptr s) else exists b, f_blk f = BHeap b /\ s_ptr s <> Some b
            | PStk => if f_tr f then exists b, f_blk f = BHeap b else exists j, f_blk f = BOwn j
            | PPlc => f_blk f = BOwn 0
            end
}.

Definition reu_ok (h : heap) (s : sto) : Prop :=
  0 <= s_cap s /\ match s_ptr s with Some b => In (b, s_cap s) (h_live h) | None => s_cap s = 0 end.

Definition sto_ok (p : prm) (h : heap) (s : sto) : Prop :=
  match p_pol p with
  | PReu | PMts => reu_ok h s
  | PBuf => 0 < p_a p /\ 0 <= s_bsize s <= s_bcap s /\
            match s_ptr s with Some b => In (b, s_bcap s * p_a p) (h_live h) | None => s_bcap s = 0 end
  | _ => True
  end.

(* k: threads that have won the _busy exchange and not yet placed their frame in the shared block *)
Definition busy_ok (pol : policy) (k : Z) (s : sto) (l : list (nat * frame)) : Prop :=
  match pol with PMts => 0 <= k /\ k + sumw trw l = b2z (s_busy s) | _ => k = 0 end.

(* the T is for the threads it counts: k as in busy_ok, 0 in sequential use *)
Record InvT (p : prm) (k : Z) (h : heap) (s : sto) (l : list (nat * frame)) : Prop := {
  i_heap : heap_ok h;
  i_cnt : zlen (h_live h) = nsown (p_pol p) s + sumw (owns (p_pol p)) l;
  i_frames : forall i f, In (i, f) l -> frame_ok p h s f;
  i_blocks : NoDup (blocks l);
  i_keys : NoDup (keys l);
  i_sto : sto_ok p h s;
  i_busy : busy_ok (p_pol p) k s l;
  i_single : single (p_pol p) = true -> (length l <= 1)%nat;
  i_pos : 0 <= p_x p /\ 0 < p_xal p
}.

Lemma InvT_buf_pos p k h s l : InvT p k h s l -> p_pol p = PBuf -> 0 < p_a p.
Proof. intros I E. pose proof (i_sto _ _ _ _ _ I) as S. unfold sto_ok in S. rewrite E in S. tauto. Qed.

Lemma InvT_push p k k1 h s l h1 s1 slot f :
  InvT p k h s l -> ~ In slot (keys l) -> (single (p_pol p) = true -> l = []) ->
  heap_ok h1 -> sto_ok p h1 s1 ->
  zlen (h_live h1) = nsown (p_pol p) s1 + (owns (p_pol p) f + sumw (owns (p_pol p)) l) ->
  frame_ok p h1 s1 f -> ~ In (f_blk f) (blocks l) -> (forall i g, In (i, g) l -> frame_ok p h1 s1 g) ->
  busy_ok (p_pol p) k1 s1 ((slot, f) :: l) ->
  InvT p k1 h1 s1 ((slot, f) :: l).
Proof.
  intros I K SG HK SO C FN NB FO B. constructor; try assumption.
  - intros i g [A|A]; [inversion A; subst; exact FN|exact (FO _ _ A)].
  - cbn [blocks map snd]. constructor; [exact NB|exact (i_blocks _ _ _ _ _ I)].
  - cbn [keys map fst]. constructor; [exact K|exact (i_keys _ _ _ _ _ I)].
  - intros X. rewrite (SG X). cbn [length]. lia.
  - exact (i_pos _ _ _ _ _ I).
Qed.

Lemma InvT_pop p k h s l h1 s1 slot :
  InvT p k h s l -> heap_ok h1 -> sto_ok p h1 s1 ->
  zlen (h_live h1) = nsown (p_pol p) s1 + sumw (owns (p_pol p)) (fdel l slot) ->
  (forall i g, In (i, g) (fdel l slot) -> frame_ok p h1 s1 g) ->
  busy_ok (p_pol p) k s1 (fdel l slot) -> InvT p k h1 s1 (fdel l slot).
Proof.
  intros I HK SO C FO B. constructor; try assumption.
  - exact (NoDup_map_fdel _ _ _ (i_blocks _ _ _ _ _ I)).
  - exact (NoDup_map_fdel _ _ _ (i_keys _ _ _ _ _ I)).
  - intros X. pose proof (i_single _ _ _ _ _ I X). pose proof (fdel_length l slot). lia.
  - exact (i_pos _ _ _ _ _ I).
Qed.

Lemma frame_ok_heap p h h1 s f : frame_ok p h s f ->
  (forall b, f_blk f = BHeap b -> In (b, f_room f) (h_live h) -> In (b, f_room f) (h_live h1)) -> frame_ok p h1 s f.
Proof. intros [A B C V R] M. constructor; auto. destruct (f_blk f); auto. Qed.

Lemma frame_ok_sto p h s s' f : s_ptr s' = s_ptr s -> (s_ownc s <= s_ownc s')%nat -> frame_ok p h s f -> frame_ok p h s' f.
Proof.
  intros EP EO [A B C V R]. constructor; auto.
  - destruct (f_blk f); auto. destruct (p_pol p); auto. lia.
  - rewrite EP. exact R.
Qed.

Lemma fresh_not_in_blocks p k h s l : InvT p k h s l -> ~ In (BHeap (h_next h)) (blocks l).
Proof.
  intros I A. apply in_map_iff in A. destruct A as [[i f] [E A]]. cbn [snd] in E.
  pose proof (fo_live _ _ _ _ (i_frames _ _ _ _ _ I _ _ A)) as V. rewrite E in V.
  pose proof (hk_lt _ (i_heap _ _ _ _ _ I) _ _ V). lia.
Qed.

Lemma own_not_in_blocks p k h s l : InvT p k h s l -> p_pol p = PStk -> ~ In (BOwn (s_ownc s)) (blocks l).
Proof.
  intros I EP A. apply in_map_iff in A. destruct A as [[i f] [E A]]. cbn [snd] in E.
  pose proof (fo_live _ _ _ _ (i_frames _ _ _ _ _ I _ _ A)) as V. rewrite E, EP in V. lia.
Qed.

Lemma ceil_mul n a : 0 < a -> n <= (n + a - 1) / a * a.
Proof.
  intros A. pose proof (Z.div_mod (n + a - 1) a ltac:(lia)) as D.
  pose proof (Z.mod_pos_bound (n + a - 1) a A) as M. lia.
Qed.
Lemma ceil_mono a n m : 0 < a -> n <= m -> (n + a - 1) / a <= (m + a - 1) / a.
Proof. intros A L. apply Z.div_le_mono; lia. Qed.

Lemma align_up_ge n a : 0 < a -> n <= align_up n a.
Proof. exact (ceil_mul n a). Qed.
Lemma align_up_mod n a : 0 < a -> align_up n a mod a = 0.
Proof. intros A. unfold align_up. apply Z.mod_mul. lia. Qed.
Lemma nreq_ge p sz : 0 <= p_x p /\ 0 < p_xal p -> sz <= xoff p sz /\ xoff p sz + (if 0 <? p_x p then p_x p else 0) <= nreq p sz.
Proof.
  intros [X A]. unfold nreq, xoff. destruct (0 <? p_x p) eqn:G; [|lia].
  pose proof (align_up_ge sz (p_xal p) A). pose proof (align_up_ge (align_up sz (p_xal p) + p_x p) 8 ltac:(lia)). lia.
Qed.
Lemma nreq_pos p sz : 0 <= p_x p /\ 0 < p_xal p -> 0 < sz -> 0 < nreq p sz.
Proof. intros H S. pose proof (nreq_ge p sz H). destruct (0 <? p_x p); lia. Qed.

(* shared by reusable_storage and the winner of the _busy exchange; growing and reusing in one statement *)
Lemma reu_alloc_spec h s m : heap_ok h -> 0 < m -> reu_ok h s ->
  let '(h1, s1, blk) := reu_alloc h s m in
  heap_ok h1 /\ reu_ok h1 s1 /\ m <= s_cap s1 /\ (exists b1, s_ptr s1 = Some b1 /\ blk = BHeap b1) /\
  zlen (h_live h1) = zlen (h_live h) + 1 - match s_ptr s with Some _ => 1 | None => 0 end /\
  s_busy s1 = s_busy s /\ s_ownc s1 = s_ownc s /\
  forall x y, In (x, y) (h_live h) -> s_ptr s <> Some x -> In (x, y) (h_live h1) /\ s_ptr s1 <> Some x.
Proof.
  intros HK M [C0 V]. unfold reu_alloc. destruct (m >? s_cap s) eqn:G.
  - destruct (hdel_opt_ok h (s_ptr s) (s_cap s) HK) as (H1 & H2 & H3 & H4).
    { intros b E. rewrite E in V. exact V. }
    pose proof (hnew_ok _ m H1) as H5. unfold hnew in *. cbn [fst] in H5.
    unfold reu_ok. cbn [s_ptr s_cap s_busy s_ownc h_live]. rewrite zlen_cons, H3.
    refine (conj H5 (conj (conj _ (in_eq _ _)) (conj _ (conj _ (conj _ (conj eq_refl (conj eq_refl _))))))); try lia.
    + eexists. split; reflexivity.
    + intros x y A N. split; [right; exact (H4 _ _ A N)|]. rewrite H2. intros E. inversion E; subst.
      pose proof (hk_lt _ HK _ _ A). lia.
  - destruct (s_ptr s) as [b|] eqn:EP; [|lia]. cbn [optblk].
    refine (conj HK (conj _ (conj _ (conj _ (conj _ (conj eq_refl (conj eq_refl _))))))); try lia.
    + unfold reu_ok. rewrite EP. auto.
    + exists b. auto.
    + auto.
Qed.

(* default storage, the loser of the _busy exchange, the heap fallback of the stack storage *)
Lemma own_block_inv p k h s s1 l slot fid sz z tr :
  InvT p k h s l -> 0 < sz -> ~ In slot (keys l) -> single (p_pol p) = false ->
  z = nreq p sz + trailer (p_pol p) -> tr = match p_pol p with PStk => true | _ => false end ->
  s_ptr s1 = s_ptr s -> s_cap s1 = s_cap s -> s_busy s1 = s_busy s -> (s_ownc s <= s_ownc s1)%nat ->
  InvT p k (fst (hnew h z)) s1 ((slot, frame_of p fid sz (mkGr (BHeap (h_next h)) z z tr)) :: l).
Proof.
  intros I SZ K SG -> -> E1 E2 E3 E4. pose proof I as [IH IC IF _ _ IS IBZ _ IX]. pose proof (nreq_pos p sz IX SZ) as N.
  unfold hnew. cbn [fst]. apply (InvT_push p k k h s l _ _ slot _ I K); unfold busy_ok, sto_ok, reu_ok, nsown in *; rewrite ?E1, ?E2, ?E3 in *.
  - congruence.
  - exact (hnew_ok h _ IH).
  - destruct (p_pol p); try discriminate; auto. destruct IS as [C0 IS]. split; [exact C0|]. destruct (s_ptr s); [right; exact IS|exact IS].
  - cbn [h_live]. rewrite zlen_cons, IC. destruct (p_pol p); try discriminate; cbn [owns frame_of f_tr g_tr]; lia.
  - constructor; cbn [frame_of f_sz f_n f_need f_room f_blk f_tr g_blk g_need g_room g_tr h_live]; [auto|lia|lia|apply in_eq|].
    destruct (p_pol p); try discriminate; cbv iota; [exists (h_next h); reflexivity| |exists (h_next h); reflexivity].
    exists (h_next h). split; [reflexivity|]. rewrite E1. intros E.
    rewrite E in IS. pose proof (hk_lt _ IH _ _ (proj2 IS)). lia.
  - exact (fresh_not_in_blocks _ _ _ _ _ I).
  - intros i g A. apply (frame_ok_heap p h); [apply (frame_ok_sto p h s); eauto|]. intros b _ V. right. exact V.
  - rewrite sumw_cons. unfold trw at 1. cbn [frame_of f_tr g_tr]. destruct (p_pol p); try discriminate; cbv iota; lia.
Qed.

Lemma mts_lost_inv p k h s l slot fid sz :
  p_pol p = PMts -> InvT p k h s l -> 0 < sz -> ~ In slot (keys l) ->
  let '(h1, s1, g) := mts_lost h s (nreq p sz) in InvT p k h1 s1 ((slot, frame_of p fid sz g) :: l).
Proof.
  intros EP I SZ K. apply (own_block_inv p k h s s l slot fid sz _ false I SZ K); rewrite ?EP; reflexivity.
Qed.

Lemma mts_claim_inv p k h s l :
  p_pol p = PMts -> InvT p k h s l -> s_busy s = false -> k = 0 /\ InvT p 1 h (set_busy s true) l.
Proof.
  intros EP I B. destruct I as [IH IC IF IB IK IS IBZ ISG IX]. unfold busy_ok in IBZ. rewrite EP, B in IBZ. cbn [b2z] in IBZ.
  pose proof (sumw_nonneg trw l trw_nonneg) as NN. split; [lia|].
  constructor; try assumption.
  - intros i f A. apply (frame_ok_sto p h s); [reflexivity|cbn; lia|exact (IF _ _ A)].
  - unfold busy_ok. rewrite EP. cbn [set_busy s_busy b2z]. lia.
Qed.

(* the holder of _busy finds no frame in the shared block: every live frame sits in a heap block of its own *)
Lemma holder_alone p h s l : p_pol p = PMts -> InvT p 1 h s l ->
  s_busy s = true /\ sumw trw l = 0 /\
  forall i f, In (i, f) l -> f_tr f = false /\ exists b, f_blk f = BHeap b /\ s_ptr s <> Some b /\ In (b, f_room f) (h_live h).
Proof.
  intros EP I. pose proof (i_busy _ _ _ _ _ I) as B. unfold busy_ok in B. rewrite EP in B.
  pose proof (sumw_nonneg trw l trw_nonneg) as NN.
  assert (s_busy s = true /\ sumw trw l = 0) as (BT & TZ) by (destruct (s_busy s); cbn [b2z] in B; lia).
  refine (conj BT (conj TZ _)). intros i f A. pose proof (sumw_trw_zero _ _ _ TZ A) as T.
  destruct (i_frames _ _ _ _ _ I _ _ A) as [_ _ _ V R]. rewrite EP, T in R. destruct R as [b [E NE]].
  rewrite E in V. eauto.
Qed.

Lemma mts_won_inv p h s l slot fid sz :
  p_pol p = PMts -> InvT p 1 h s l -> 0 < sz -> ~ In slot (keys l) ->
  let '(h1, s1, g) := mts_won h s (nreq p sz) in InvT p 0 h1 s1 ((slot, frame_of p fid sz g) :: l).
Proof.
  intros EP I SZ K. pose proof I as [IH IC IF _ _ IS _ _ IX]. pose proof (nreq_pos p sz IX SZ) as N.
  destruct (holder_alone p h s l EP I) as (BT & TZ & HF).
  unfold sto_ok in IS. rewrite EP in IS.
  pose proof (reu_alloc_spec h s (nreq p sz + ptr_sz) IH ltac:(unfold ptr_sz; lia) IS) as R.
  unfold mts_won. destruct (reu_alloc h s (nreq p sz + ptr_sz)) as [[h1 s1] blk].
  destruct R as (R1 & R2 & R3 & (b1 & E1 & ->) & R4 & R5 & R6 & R7).
  apply (InvT_push p 1 0 h s l _ _ slot _ I K); unfold busy_ok, sto_ok; rewrite ?EP.
  - discriminate.
  - exact R1.
  - exact R2.
  - cbn [frame_of owns f_tr g_tr nsown]. rewrite E1, R4, IC, EP. cbn [nsown]. lia.
  - constructor; cbn [frame_of f_sz f_n f_need f_room f_blk f_tr g_blk g_need g_room g_tr]; rewrite ?EP, ?E1; cbn [trailer optblk];
      [auto|reflexivity|lia| |reflexivity].
    destruct R2 as [_ R2]. rewrite E1 in R2. exact R2.
  - intros A. apply in_map_iff in A. destruct A as [[i f] [E A]]. cbn [snd frame_of f_blk g_blk] in E.
    destruct (HF _ _ A) as (_ & b & E2 & NE & V). rewrite E2 in E. inversion E; subst b. exact (proj2 (R7 _ _ V NE) E1).
  - intros i f A. destruct (HF _ _ A) as (T & b & E2 & NE & V). destruct (IF _ _ A) as [F1 F2 F3 _ _].
    constructor; auto; rewrite ?E2, ?EP, ?T.
    + exact (proj1 (R7 _ _ V NE)).
    + exists b. split; [reflexivity|exact (proj2 (R7 _ _ V NE))].
  - rewrite sumw_cons, TZ, R5, BT. unfold trw. cbn [frame_of f_tr g_tr b2z]. lia.
Qed.

Lemma finish_inv p k h s l slot f :
  InvT p k h s l -> fget l slot = Some f ->
  let '(h1, s1) := bdealloc p h s (f_blk f) (f_tr f) in InvT p k h1 s1 (fdel l slot).
Proof.
  intros I G. pose proof I as [IH IC IF IB IK IS IBZ _ _].
  destruct (IF _ _ (fget_In _ _ _ G)) as [_ _ _ V R].
  pose proof (sumw_fdel (owns (p_pol p)) l slot f IK G) as SO.
  pose proof (sumw_fdel trw l slot f IK G) as ST. rewrite (trw_eq f) in ST.
  assert (SUB : forall i g, In (i, g) (fdel l slot) -> frame_ok p h s g).
  { intros i g A. apply In_fdel in A. exact (IF i g (proj1 A)). }
  (* default, mtsafe after a lost exchange, stack after the heap fallback *)
  assert (REL : forall b, f_blk f = BHeap b -> owns (p_pol p) f = 1 -> (p_pol p = PMts -> s_ptr s <> Some b) ->
                InvT p k (hdel h b) s (fdel l slot)).
  { intros b E OW NP. rewrite E in V.
    apply (InvT_pop p k h s l _ _ slot I (hdel_ok _ _ _ IH V)); rewrite ?(hdel_live _ _ _ V); cbn [h_live].
    - unfold sto_ok, reu_ok in *. destruct (p_pol p) eqn:EP; auto; cbn [owns] in OW; try lia.
      destruct IS as [C0 IS]. split; [exact C0|]. destruct (s_ptr s) as [b0|]; [|exact IS].
      apply hrem_In; [exact IS|]. intros X. apply (NP eq_refl). congruence.
    - rewrite hrem_length by exact (hmem_In _ _ _ V). lia.
    - intros i g A. apply In_fdel in A. destruct A as [A NE]. apply (frame_ok_heap p h); [exact (IF _ _ A)|].
      intros x EX VX. apply hrem_In; [exact VX|]. intros ->.
      apply (blocks_distinct l i slot g f IB (In_fget _ _ _ IK A) G NE). congruence.
    - unfold busy_ok in *. destruct (p_pol p); auto. cbn [owns] in OW. destruct (f_tr f); lia. }
  assert (KEEP : owns (p_pol p) f = 0 -> p_pol p <> PMts -> InvT p k h s (fdel l slot)).
  { intros OW NM. apply (InvT_pop p k h s l h s slot I IH IS); [lia|exact SUB|].
    unfold busy_ok in *. destruct (p_pol p); auto; congruence. }
  unfold bdealloc. destruct (p_pol p) eqn:EP.
  - destruct R as [b E]. rewrite E. apply REL; [exact E|reflexivity|discriminate].
  - apply KEEP; [reflexivity|discriminate].
  - unfold busy_ok in IBZ. destruct (f_tr f) eqn:T.
    + (* the frame in the shared block: _busy is cleared *)
      pose proof (sumw_nonneg trw (fdel l slot) trw_nonneg).
      assert (sumw trw (fdel l slot) = 0 /\ k = 0 /\ s_busy s = true) as (Z1 & Z2 & Z3)
        by (destruct (s_busy s); cbn [b2z] in IBZ; lia).
      apply (InvT_pop p k h s l h _ slot I IH); unfold busy_ok, sto_ok in *; rewrite ?EP in *.
      * exact IS.
      * cbn [owns nsown set_busy s_ptr] in *. rewrite T in SO. lia.
      * intros i g A. apply (frame_ok_sto p h s); [reflexivity|cbn; lia|exact (SUB _ _ A)].
      * cbn [set_busy s_busy b2z]. lia.
    + destruct R as [b [E NE]]. rewrite E. apply REL; [exact E|cbn [owns]; rewrite T; reflexivity|auto].
  - destruct (f_tr f) eqn:T.
    + destruct R as [b E]. rewrite E. apply REL; [exact E|cbn [owns]; rewrite T; reflexivity|discriminate].
    + apply KEEP; [cbn [owns]; rewrite T; reflexivity|discriminate].
  - apply KEEP; [reflexivity|discriminate].
  - apply KEEP; [reflexivity|discriminate].
Qed.

Lemma one_frame_inv p h s h1 s1 slot fid sz room b1 :
  InvT p 0 h s [] -> 0 < sz -> p_pol p = PReu \/ p_pol p = PBuf ->
  heap_ok h1 -> sto_ok p h1 s1 -> zlen (h_live h1) = 1 -> s_ptr s1 = Some b1 -> In (b1, room) (h_live h1) -> nreq p sz <= room ->
  InvT p 0 h1 s1 [(slot, frame_of p fid sz (mkGr (BHeap b1) room (nreq p sz) false))].
Proof.
  intros I SZ PP HK1 SO1 Z1 E1 V1 LE.
  apply (InvT_push p 0 0 h s [] _ _ slot _ I (fun A => A) (fun _ => eq_refl) HK1 SO1).
  - rewrite Z1, sumw_nil. destruct PP as [-> | ->]; cbn [owns nsown]; rewrite E1; lia.
  - constructor; cbn [frame_of f_sz f_n f_need f_room f_blk f_tr g_blk g_need g_room g_tr]; rewrite ?E1;
      [auto| |lia|exact V1|]; destruct PP as [-> | ->]; cbn [trailer optblk]; (lia || reflexivity).
  - intros [].
  - intros i g [].
  - unfold busy_ok. destruct PP as [-> | ->]; reflexivity.
Qed.

(* `if (_buff.size() < items) _buff.resize(items)` with items = ceil(n / sizeof(item)) *)
Lemma buf_alloc_inv p h s slot fid sz : p_pol p = PBuf -> InvT p 0 h s [] -> 0 < sz ->
  let items := (nreq p sz + p_a p - 1) / p_a p in
  let '(h1, s1) := if s_bsize s <? items then vec_resize h s (p_a p) items else (h, s) in
  InvT p 0 h1 s1 [(slot, frame_of p fid sz (mkGr (optblk (s_ptr s1)) (s_bcap s1 * p_a p) (nreq p sz) false))].
Proof.
  intros EP I SZ items. pose proof I as [IH IC _ _ _ IS _ _ IX]. pose proof (nreq_pos p sz IX SZ) as N.
  rewrite EP, sumw_nil in IC. cbn [nsown] in IC. unfold sto_ok in IS. rewrite EP in IS. destruct IS as (A0 & [S0 S1] & IS).
  pose proof (ceil_mul (nreq p sz) (p_a p) A0) as CM. fold items in CM.
  assert (I1 : 1 <= items).
  { unfold items. pose proof (Z.div_mod (nreq p sz + p_a p - 1) (p_a p) ltac:(lia)).
    pose proof (Z.mod_pos_bound (nreq p sz + p_a p - 1) (p_a p) A0). nia. }
  assert (FIN : forall h1 s1 b1, heap_ok h1 -> zlen (h_live h1) = 1 -> items <= s_bcap s1 -> 0 <= s_bsize s1 <= s_bcap s1 ->
                s_ptr s1 = Some b1 -> In (b1, s_bcap s1 * p_a p) (h_live h1) ->
                InvT p 0 h1 s1 [(slot, frame_of p fid sz (mkGr (optblk (s_ptr s1)) (s_bcap s1 * p_a p) (nreq p sz) false))]).
  { intros h1 s1 b1 HK Z1 LE SZ1 E1 V1. rewrite E1. apply (one_frame_inv p h s h1 s1 slot fid sz _ b1 I SZ); auto; [|nia].
    unfold sto_ok. rewrite EP, E1. auto. }
  assert (HAS : s_bcap s <> 0 -> exists b0, s_ptr s = Some b0) by (destruct (s_ptr s); [eauto|tauto]).
  destruct (s_bsize s <? items) eqn:G1.
  - unfold vec_resize. destruct (items >? s_bcap s) eqn:G2.
    + pose proof (hnew_ok h (Z.max (2 * s_bsize s) items * p_a p) IH) as HK1. unfold hnew in *. cbn [fst] in HK1.
      destruct (hdel_opt_ok _ (s_ptr s) (s_bcap s * p_a p) HK1) as (D1 & _ & D2 & D3).
      { intros b0 E. rewrite E in IS. right. exact IS. }
      cbn [h_live] in D2, D3. rewrite zlen_cons in D2.
      apply (FIN _ _ (h_next h) D1); cbn [s_bcap s_bsize s_ptr]; [lia|lia|lia|reflexivity|].
      apply D3; [apply in_eq|]. intros E. rewrite E in IS. pose proof (hk_lt _ IH _ _ IS). lia.
    + destruct HAS as [b0 EP0]; [lia|]. rewrite EP0 in IS, IC.
      apply (FIN h _ b0 IH); cbn [s_bcap s_bsize s_ptr]; auto; lia.
  - destruct HAS as [b0 EP0]; [lia|]. rewrite EP0 in IS, IC. apply (FIN h s b0 IH); auto; lia.
Qed.

Lemma balloc_inv p h s l slot fid sz :
  InvT p 0 h s l -> 0 < sz -> ~ In slot (keys l) ->
  (single (p_pol p) = true -> l = []) -> (p_pol p = PPlc -> nreq p sz <= p_a p) ->
  let '(h1, s1, g) := balloc p h s (nreq p sz) in InvT p 0 h1 s1 ((slot, frame_of p fid sz g) :: l).
Proof.
  intros I SZ K SG PL. pose proof I as [IH IC IF _ _ IS _ _ IX]. pose proof (nreq_pos p sz IX SZ) as N.
  pose proof (fun h1 s1 f => InvT_push p 0 0 h s l h1 s1 slot f I K SG) as PUSH.
  pose proof (fun s1 z tr => own_block_inv p 0 h s s1 l slot fid sz z tr I SZ K) as OWN.
  unfold balloc. destruct (p_pol p) eqn:EP.
  - (* PDef *)
    apply (OWN s (nreq p sz) false); cbn [trailer]; (reflexivity || lia).
  - (* PReu *)
    rewrite (SG eq_refl) in *. rewrite sumw_nil in IC. cbn [nsown] in IC.
    unfold sto_ok in IS. rewrite EP in IS. pose proof (reu_alloc_spec h s (nreq p sz) IH N IS) as R.
    destruct (reu_alloc h s (nreq p sz)) as [[h1 s1] blk]. destruct R as (R1 & R2 & R3 & (b1 & E1 & ->) & R4 & _).
    apply (one_frame_inv p h s h1 s1 slot fid sz (s_cap s1) b1 I SZ); auto; [unfold sto_ok; rewrite EP; exact R2|lia|].
    destruct R2 as [_ R2]. rewrite E1 in R2. exact R2.
  - (* PMts *)
    destruct (s_busy s) eqn:B.
    + exact (mts_lost_inv p 0 h s l slot fid sz EP I SZ K).
    + exact (mts_won_inv p h (set_busy s true) l slot fid sz EP (proj2 (mts_claim_inv p 0 h s l EP I B)) SZ K).
  - (* PStk *)
    destruct (nreq p sz + 1 <=? s_state s) eqn:G.
    + apply PUSH.
      * exact IH.
      * unfold sto_ok. rewrite EP. exact Logic.I.
      * cbn [frame_of owns f_tr g_tr nsown]. rewrite IC. cbn [nsown]. lia.
      * constructor; cbn [frame_of f_sz f_n f_need f_room f_blk f_tr g_blk g_need g_room g_tr s_ownc]; rewrite ?EP; cbn [trailer];
          [auto|lia|lia|lia|eexists; reflexivity].
      * exact (own_not_in_blocks _ _ _ _ _ I EP).
      * intros i f A. apply (frame_ok_sto p h s); [reflexivity|cbn; lia|exact (IF _ _ A)].
      * exact eq_refl.
    + apply (OWN _ (nreq p sz + 1) true); cbn [trailer s_ownc]; (reflexivity || lia).
  - (* PPlc *)
    pose proof (SG eq_refl) as L0. specialize (PL eq_refl). apply (PUSH _ _ _ IH IS); rewrite ?L0.
    + cbn [frame_of owns nsown]. rewrite IC, L0. cbn [nsown]. lia.
    + constructor; cbn [frame_of f_sz f_n f_need f_room f_blk f_tr g_blk g_need g_room g_tr]; rewrite ?EP; cbn [trailer]; auto; lia.
    + intros [].
    + intros i g [].
    + exact eq_refl.
  - (* PBuf *)
    rewrite (SG eq_refl) in *. pose proof (buf_alloc_inv p h s slot fid sz EP I SZ) as B. cbn zeta in B.
    destruct (if s_bsize s <? _ then _ else _) as [h1 s1]. exact B.
Qed.

Lemma heap0_ok : heap_ok heap0.
Proof. constructor; cbn; auto; [intros b z []|constructor]. Qed.

Lemma init_inv p : 0 <= p_x p /\ 0 < p_xal p -> 0 <= p_a p -> 0 <= p_b p -> (p_pol p = PBuf -> 0 < p_a p) ->
  InvT p 0 (hp (init_core p)) (st (init_core p)) (frs (init_core p)) /\ c_up (init_core p) = true.
Proof.
  intros X A B PB. unfold init_core.
  assert (BASE : forall s, s_ptr s = None -> s_cap s = 0 -> s_busy s = false -> s_bsize s = 0 -> s_bcap s = 0 ->
                 InvT p 0 heap0 s []).
  { intros s E1 E2 E3 E4 E5. constructor.
    - exact heap0_ok.
    - rewrite sumw_nil. unfold nsown. rewrite E1. destruct (p_pol p); reflexivity.
    - intros i f [].
    - constructor.
    - constructor.
    - unfold sto_ok, reu_ok. rewrite E1, E2, E4, E5. destruct (p_pol p) eqn:EP; auto; try lia.
    - unfold busy_ok. rewrite sumw_nil, E3. destruct (p_pol p); cbn; lia.
    - cbn [length]. lia.
    - exact X. }
  destruct (p_pol p) eqn:EP; try (split; [apply BASE; reflexivity|reflexivity]).
  destruct (0 <? p_b p) eqn:G; [|split; [apply BASE; reflexivity|reflexivity]].
  unfold hnew, heap0. cbn [hp st frs c_up h_next]. split; [|reflexivity].
  specialize (PB eq_refl). constructor; unfold busy_ok, sto_ok; rewrite ?EP.
  - exact (hnew_ok heap0 (p_b p * p_a p) heap0_ok).
  - reflexivity.
  - intros i f [].
  - constructor.
  - constructor.
  - cbn [s_bsize s_bcap s_ptr h_live]. repeat split; try lia. apply in_eq.
  - reflexivity.
  - cbn [length]. lia.
  - exact X.
Qed.

Lemma destroy_inv p c : InvT p 0 (hp c) (st c) [] -> heap_ok (hp (destroy p c)) /\ h_live (hp (destroy p c)) = [].
Proof.
  intros [IH IC _ _ _ IS _ _ _]. rewrite sumw_nil in IC. unfold destroy. cbn [hp]. unfold sto_ok, reu_ok in IS.
  assert (DEL : forall z, (forall b, s_ptr (st c) = Some b -> In (b, z) (h_live (hp c))) ->
                zlen (h_live (hp c)) = match s_ptr (st c) with Some _ => 1 | None => 0 end ->
                heap_ok (hdel_opt (hp c) (s_ptr (st c))) /\ h_live (hdel_opt (hp c) (s_ptr (st c))) = []).
  { intros z V E. destruct (hdel_opt_ok _ _ z IH V) as (D1 & _ & D2 & _). split; [exact D1|]. apply zlen_nil_inv. lia. }
  destruct (p_pol p); cbn [nsown] in IC; try (split; [exact IH|apply zlen_nil_inv; lia]).
  - apply (DEL (s_cap (st c))); [|lia]. intros b E. rewrite E in IS. exact (proj2 IS).
  - apply (DEL (s_cap (st c))); [|lia]. intros b E. rewrite E in IS. exact (proj2 IS).
  - apply (DEL (s_bcap (st c) * p_a p)); [|lia]. intros b E. rewrite E in IS. exact (proj2 (proj2 IS)).
Qed.

Lemma wf_init c x a b xal : wf_op c (OInit x a b xal) = true ->
  c_up c = false /\ c_nfid c = 0%nat /\ 0 <= x /\ 0 <= a /\ 0 <= b /\ 0 < xal.
Proof. cbn [wf_op]. rewrite !andb_true_iff, negb_true_iff, Nat.eqb_eq. intuition lia. Qed.
Lemma wf_create c slot sz : wf_op c (OCreate slot sz) = true -> c_up c = true /\ 0 < sz /\ fget (frs c) slot = None.
Proof. cbn [wf_op]. rewrite !andb_true_iff. destruct (fget (frs c) slot); intuition (discriminate || lia). Qed.
Lemma wf_finish c slot : wf_op c (OFinish slot) = true -> c_up c = true /\ exists f, fget (frs c) slot = Some f.
Proof. cbn [wf_op]. rewrite andb_true_iff. destruct (fget (frs c) slot); intuition (discriminate || eauto). Qed.
Lemma wf_destroy c : wf_op c ODestroy = true -> c_up c = true /\ frs c = [].
Proof. cbn [wf_op]. rewrite andb_true_iff. destruct (frs c); intuition discriminate. Qed.

(* A guarded step does nothing (refused), replaces the parameters while the storage is down (an Init that only the contract
   refuses), or is an admitted Init, Create, Finish or Destroy.  p1: the parameters in force after the step. *)
Lemma gstep_cases pol (G : prm -> core -> Prop) p c o :
  G p c ->
  (forall x a b xal, c_up c = false -> c_nfid c = 0%nat -> G (mkPrm pol x a b xal) c) ->
  (forall x a b xal, c_up c = false -> 0 <= x /\ 0 < xal -> 0 <= a -> 0 <= b -> (pol = PBuf -> 0 < a) ->
     G (mkPrm pol x a b xal) (init_core (mkPrm pol x a b xal))) ->
  (forall slot sz, c_up c = true -> 0 < sz -> fget (frs c) slot = None -> contract p c (OCreate slot sz) = true ->
     G p (fst (create p c slot sz))) ->
  (forall slot f, c_up c = true -> fget (frs c) slot = Some f -> G p (finish p c slot f)) ->
  (c_up c = true -> frs c = [] -> G p (destroy p c)) ->
  let p1 := if wf_op c o then prm_of pol p o else p in G p1 (fst (gstep p1 c o)).
Proof.
  intros REJ REP INI CRE FIN DES. cbn zeta. unfold gstep. destruct (wf_op c o) eqn:W; [|exact REJ].
  destruct o as [x a b xal|slot sz|slot| |]; cbn [prm_of andb].
  - apply wf_init in W. destruct W as (U & NF & X & A & B & XA).
    destruct (contract _ c _) eqn:CT; cbn [exec fst]; [|exact (REP _ _ _ _ U NF)].
    apply INI; auto. intros ->. cbn [contract p_pol] in CT. lia.
  - apply wf_create in W. destruct W as (U & SZ & G0).
    destruct (contract p c _) eqn:CT; [|exact REJ]. pose proof (CRE slot sz U SZ G0 CT) as X.
    cbn [exec]. destruct (create p c slot sz) as [c1 f]. exact X.
  - apply wf_finish in W. destruct W as (U & f & GF). cbn [contract exec]. rewrite GF. exact (FIN slot f U GF).
  - apply wf_destroy in W. exact (DES (proj1 W) (proj2 W)).
  - discriminate.
Qed.

Lemma run_inv pol (P : prm -> core -> Prop) :
  (forall p c o, P p c -> let p1 := if wf_op c o then prm_of pol p o else p in P p1 (fst (gstep p1 c o))) ->
  forall l p c, P p c -> P (fst (snd (run_with gstep pol p c l))) (snd (snd (run_with gstep pol p c l))).
Proof.
  intros ST. induction l as [|o l IH]; intros p c H; cbn [run_with]; [exact H|].
  specialize (ST p c o H). cbn zeta in ST.
  destruct (gstep (if wf_op c o then prm_of pol p o else p) c o) as [c1 ob]. cbn [fst] in ST. specialize (IH _ _ ST).
  destruct (run_with gstep pol (if wf_op c o then prm_of pol p o else p) c1 l) as [obs r]. exact IH.
Qed.

(* histories that respect the contract are executed identically with and without the contract guard *)
Lemma contract_ok_same pol : forall l p c, contract_ok_from pol p c l = true ->
  run_with ustep pol p c l = run_with gstep pol p c l.
Proof.
  induction l as [|o l IH]; intros p c H; cbn [run_with contract_ok_from] in *; [reflexivity|].
  apply andb_prop in H. destruct H as [H1 H2].
  set (p1 := if wf_op c o then prm_of pol p o else p) in *.
  assert (E : ustep p1 c o = gstep p1 c o).
  { unfold ustep, gstep. destruct (wf_op c o); cbn [negb orb andb] in *; [rewrite H1; reflexivity|reflexivity]. }
  rewrite <- E. destruct (ustep p1 c o) as [c1 ob]. cbn [fst] in H2. rewrite (IH _ _ H2). reflexivity.
Qed.

Definition contract_free (pol : policy) : bool := match pol with PDef | PMts | PStk => true | _ => false end.

Lemma contract_free_from pol l : contract_free pol = true -> forall p c, p_pol p = pol -> contract_ok_from pol p c l = true.
Proof.
  intros CF. induction l as [|o l IH]; intros p c EP; cbn [contract_ok_from]; [reflexivity|].
  assert (EP1 : p_pol (if wf_op c o then prm_of pol p o else p) = pol).
  { destruct (wf_op c o); [|exact EP]. destruct o; cbn [prm_of p_pol]; auto. }
  rewrite (IH _ _ EP1), andb_true_r.
  assert (contract (if wf_op c o then prm_of pol p o else p) c o = true) as ->; [|apply orb_true_r].
  unfold contract. rewrite EP1. destruct o; auto; destruct pol; auto; discriminate.
Qed.

Definition final_u (pol : policy) (l : list op) : core := snd (snd (run_u pol l)).
Definition final_p (pol : policy) (l : list op) : prm := fst (snd (run_u pol l)).

Lemma final_inv pol (P : prm -> core -> Prop) l :
  (forall p c o, P p c -> let p1 := if wf_op c o then prm_of pol p o else p in P p1 (fst (gstep p1 c o))) ->
  P (prm0 pol) core0 -> contract_ok pol l = true -> P (final_p pol l) (final_u pol l).
Proof.
  intros ST P0 H. unfold final_p, final_u, run_u. rewrite (contract_ok_same pol l _ _ H). exact (run_inv pol P ST l _ _ P0).
Qed.

Definition RunInv (pol : policy) (p : prm) (c : core) : Prop :=
  p_pol p = pol /\ heap_ok (hp c) /\
  (c_up c = true -> InvT p 0 (hp c) (st c) (frs c)) /\
  (c_up c = false -> frs c = [] /\ h_live (hp c) = []).

Lemma RunInv_up pol p c : p_pol p = pol -> c_up c = true -> InvT p 0 (hp c) (st c) (frs c) -> RunInv pol p c.
Proof. intros EP U I. refine (conj EP (conj (i_heap _ _ _ _ _ I) (conj (fun _ => I) _))). congruence. Qed.

Lemma gstep_RunInv pol p c o :
  RunInv pol p c ->
  let p1 := if wf_op c o then prm_of pol p o else p in
  RunInv pol p1 (fst (gstep p1 c o)).
Proof.
  intros (EP & HK & UP & DN). apply gstep_cases.
  - exact (conj EP (conj HK (conj UP DN))).
  - intros x a b xal U _. refine (conj eq_refl (conj HK (conj _ DN))). congruence.
  - intros x a b xal _ X A B PB. destruct (init_inv (mkPrm pol x a b xal) X A B PB) as [I U]. exact (RunInv_up _ _ _ eq_refl U I).
  - intros slot sz U SZ G CT. specialize (UP U).
    assert (SGL : single (p_pol p) = true -> frs c = []).
    { intros S. cbn [contract] in CT. destruct (p_pol p); try discriminate; destruct (frs c); auto; discriminate. }
    assert (PLC : p_pol p = PPlc -> nreq p sz <= p_a p).
    { intros E. cbn [contract] in CT. rewrite E in CT. destruct (frs c); [lia|discriminate]. }
    pose proof (balloc_inv p (hp c) (st c) (frs c) slot (c_nfid c) sz UP SZ (fget_None_keys _ _ G) SGL PLC) as BI.
    unfold create, mk_frame. destruct (balloc p (hp c) (st c) (nreq p sz)) as [[h1 s1] g]. apply RunInv_up; [exact EP|exact U|exact BI].
  - intros slot f U GF. pose proof (finish_inv p 0 (hp c) (st c) (frs c) slot f (UP U) GF) as FI.
    unfold finish. destruct (bdealloc p (hp c) (st c) (f_blk f) (f_tr f)) as [h1 s1]. apply RunInv_up; [exact EP|exact U|exact FI].
  - intros U EF. specialize (UP U). rewrite EF in UP. destruct (destroy_inv p c UP) as [D1 D2].
    refine (conj EP (conj D1 (conj _ (fun _ => conj EF D2)))). discriminate.
Qed.

Lemma core0_RunInv pol : RunInv pol (prm0 pol) core0.
Proof.
  refine (conj eq_refl (conj heap0_ok (conj _ (fun _ => conj eq_refl eq_refl)))). cbn. discriminate.
Qed.

Lemma RunInv_live pol p c i f : RunInv pol p c -> fget (frs c) i = Some f -> p_pol p = pol /\ InvT p 0 (hp c) (st c) (frs c).
Proof.
  intros (EP & _ & UP & DN) G. split; [exact EP|].
  destruct (c_up c); [exact (UP eq_refl)|]. rewrite (proj1 (DN eq_refl)) in G. discriminate.
Qed.

(* C19 size + validity: the block of a live frame is allocated (or the caller's own area), and from the frame's
   address it has room for the request, the extra object and the policy's trailer *)
Lemma InvT_frame_valid pol p k h s l i f : p_pol p = pol -> InvT p k h s l -> In (i, f) l ->
  0 < f_n f /\ f_n f + trailer pol <= f_room f /\
  match f_blk f with
  | BHeap b => In (b, f_room f) (h_live h)
  | BOwn _ => pol = PStk \/ pol = PPlc
  | BNull => False
  end.
Proof.
  intros EP I A. destruct (i_frames _ _ _ _ _ I _ _ A) as [[SP NE] F2 F3 V _].
  rewrite EP in *. split; [rewrite NE; exact (nreq_pos _ _ (i_pos _ _ _ _ _ I) SP)|]. split; [lia|].
  destruct (f_blk f); auto. destruct pol; auto; contradiction.
Qed.

(* C19 fallback freed exactly once: nothing is ever deleted that is not a live block (no double free), the live heap
   blocks are exactly the storage's own block plus one per live frame that owns a heap block, and once the storage
   is destroyed nothing is left: every allocation was released exactly once *)
Lemma RunInv_freed_once pol p c : RunInv pol p c ->
  h_bad (hp c) = 0 /\ h_allocs (hp c) - h_frees (hp c) = zlen (h_live (hp c)) /\
  (c_up c = true -> zlen (h_live (hp c)) = nsown pol (st c) + sumw (owns pol) (frs c)) /\
  (c_up c = false -> h_live (hp c) = [] /\ h_allocs (hp c) = h_frees (hp c)).
Proof.
  intros (EP & HK & UP & DN). refine (conj (hk_bad _ HK) (conj (hk_cnt _ HK) (conj _ _))).
  - intros U. rewrite <- EP. exact (i_cnt _ _ _ _ _ (UP U)).
  - intros U. destruct (DN U) as [_ E]. split; [exact E|]. pose proof (hk_cnt _ HK) as C. rewrite E, zlen_nil in C. lia.
Qed.

(* warm-up: cm is a size the policy has learned, i.e. can serve again without touching the heap *)
Definition Warm (p : prm) (s : sto) (cm : Z) : Prop :=
  0 <= cm /\
  match p_pol p with
  | PReu => cm <= s_cap s
  | PMts => 0 < cm -> cm + ptr_sz <= s_cap s
  | PStk => 0 < cm -> cm + 1 <= s_state s
  | PBuf => 0 < cm -> (cm + p_a p - 1) / p_a p <= s_bsize s
  | _ => True
  end.

Lemma balloc_Warm p h s n c : Warm p s (c_max c) -> 0 < n -> (p_pol p = PBuf -> 0 < p_a p) ->
  Warm p (snd (fst (balloc p h s n))) (learn p c n (snd (balloc p h s n))).
Proof.
  unfold learn. generalize (c_max c) as cm. intros cm [C0 W] N PB. unfold balloc, Warm. destruct (p_pol p) eqn:EP.
  - unfold hnew. cbn [fst snd]. split; [lia|exact Logic.I].
  - unfold reu_alloc, hnew. destruct (n >? s_cap s) eqn:G; cbn [fst snd s_cap]; split; lia.
  - destruct (s_busy s).
    + unfold mts_lost, hnew. cbn [fst snd g_tr]. split; [lia|exact W].
    + unfold mts_won, reu_alloc, hnew. cbn [set_busy s_cap s_ptr].
      destruct (n + ptr_sz >? s_cap s) eqn:G; cbn [fst snd g_tr s_cap set_busy]; split; unfold ptr_sz in *; lia.
  - destruct (n + 1 <=? s_state s) eqn:G; unfold hnew; cbn [fst snd s_state]; split; lia.
  - cbn [fst snd]. split; [lia|exact Logic.I].
  - specialize (PB eq_refl). set (items := (n + p_a p - 1) / p_a p).
    assert (BS : forall bs, s_bsize s <= bs -> items <= bs ->
                 0 <= Z.max cm n /\ (0 < Z.max cm n -> (Z.max cm n + p_a p - 1) / p_a p <= bs)).
    { intros bs L1 L2. split; [lia|]. intros _. destruct (Z.max_spec cm n) as [[M ->]|[M ->]]; [exact L2|].
      assert (0 < cm) by lia. specialize (W H). lia. }
    destruct (s_bsize s <? items) eqn:G1.
    + unfold vec_resize. destruct (items >? s_bcap s); unfold hnew; cbn [fst snd s_bsize]; apply BS; lia.
    + cbn [fst snd]. apply BS; lia.
Qed.

Lemma bdealloc_Warm p h s b tr cm : Warm p s cm -> Warm p (snd (bdealloc p h s b tr)) cm.
Proof.
  intros W. unfold bdealloc. destruct (p_pol p) eqn:EP; try destruct tr; cbn [snd]; exact W.
Qed.

(* after warm-up: a request no larger than what has been learned, made while the policy's block is free, costs nothing *)
Lemma balloc_warm p h s n cm : Warm p s cm -> 0 < n -> n <= cm -> (p_pol p = PBuf -> 0 < p_a p) ->
  (p_pol p = PMts -> s_busy s = false) -> p_pol p <> PDef ->
  fst (fst (balloc p h s n)) = h.
Proof.
  intros [C0 W] N L PB NB ND. unfold balloc. destruct (p_pol p) eqn:EP; try congruence.
  - unfold reu_alloc. destruct (n >? s_cap s) eqn:G; [lia|reflexivity].
  - rewrite (NB eq_refl). unfold mts_won, reu_alloc. cbn [set_busy s_cap].
    destruct (n + ptr_sz >? s_cap s) eqn:G; [unfold ptr_sz in *; lia|reflexivity].
  - destruct (n + 1 <=? s_state s) eqn:G; [reflexivity|lia].
  - reflexivity.
  - specialize (PB eq_refl). pose proof (ceil_mono (p_a p) n cm PB L).
    destruct (s_bsize s <? (n + p_a p - 1) / p_a p) eqn:G; [lia|reflexivity].
Qed.

Lemma balloc_learned p h s n c : (p_pol p = PMts -> s_busy s = false) -> n <= learn p c n (snd (balloc p h s n)).
Proof.
  intros NB. unfold learn, balloc. destruct (p_pol p) eqn:EP; try lia.
  rewrite (NB eq_refl). unfold mts_won. destruct (reu_alloc h (set_busy s true) (n + ptr_sz)) as [[h1 s1] b].
  cbn [snd g_tr]. lia.
Qed.

Definition RunWarm (p : prm) (c : core) : Prop := c_up c = true -> Warm p (st c) (c_max c).

Lemma gstep_RunWarm pol p c o : RunInv pol p c -> RunWarm p c ->
  let p1 := if wf_op c o then prm_of pol p o else p in RunWarm p1 (fst (gstep p1 c o)).
Proof.
  intros (EP & HK & UP & DN) W. apply gstep_cases.
  - exact W.
  - intros x a b xal U _ U1. congruence.
  - intros x a b xal _ _ _ _ _ _. unfold init_core. cbn [p_pol p_b p_a].
    assert (B : forall s, s_cap s = 0 -> Warm (mkPrm pol x a b xal) s 0).
    { intros s E. unfold Warm. split; [lia|]. cbn [p_pol]. destruct pol; auto; try lia. }
    destruct pol; try (apply B; reflexivity).
    destruct (0 <? b); [unfold hnew; cbn [st c_max]|]; apply B; reflexivity.
  - intros slot sz U SZ _ _ _. specialize (UP U).
    pose proof (balloc_Warm p (hp c) (st c) (nreq p sz) c (W U) (nreq_pos p sz (i_pos _ _ _ _ _ UP) SZ) (InvT_buf_pos _ _ _ _ _ UP)) as BW.
    unfold create, mk_frame. destruct (balloc p (hp c) (st c) (nreq p sz)) as [[h1 s1] g]. exact BW.
  - intros slot f U _ _. pose proof (bdealloc_Warm p (hp c) (st c) (f_blk f) (f_tr f) (c_max c) (W U)) as BW.
    unfold finish. destruct (bdealloc p (hp c) (st c) (f_blk f) (f_tr f)) as [h1 s1]. exact BW.
  - intros _ _. unfold destroy, RunWarm. cbn [c_up]. discriminate.
Qed.

Lemma core0_RunWarm p : RunWarm p core0.
Proof. unfold RunWarm. cbn. discriminate. Qed.

(* C19 warm: after a frame of size s, a frame of size <= s created while the policy's block is free leaves the heap untouched *)
Lemma warm_step pol p c slot sz : RunInv pol p c -> RunWarm p c ->
  wf_op c (OCreate slot sz) = true -> contract p c (OCreate slot sz) = true -> pol <> PDef ->
  nreq p sz <= c_max c -> (pol = PMts -> s_busy (st c) = false) ->
  hp (fst (create p c slot sz)) = hp c.
Proof.
  intros (EP & HK & UP & DN) W WF CT ND LE NB.
  apply wf_create in WF. destruct WF as (U & SZ & _). specialize (UP U). rewrite <- EP in ND, NB.
  pose proof (balloc_warm p (hp c) (st c) (nreq p sz) (c_max c) (W U) (nreq_pos p sz (i_pos _ _ _ _ _ UP) SZ) LE
                (InvT_buf_pos _ _ _ _ _ UP) NB ND) as BW.
  unfold create, mk_frame. destruct (balloc p (hp c) (st c) (nreq p sz)) as [[h1 s1] g]. exact BW.
Qed.

(* ... and every creation served by the policy's block is learned *)
Lemma create_learned p c slot sz : (p_pol p = PMts -> s_busy (st c) = false) -> nreq p sz <= c_max (fst (create p c slot sz)).
Proof.
  intros NB. pose proof (balloc_learned p (hp c) (st c) (nreq p sz) c NB) as BL.
  unfold create, mk_frame. destruct (balloc p (hp c) (st c) (nreq p sz)) as [[h1 s1] g]. exact BL.
Qed.

Lemma learned pol l slot sz :
  let c := final_u pol l in let p := final_p pol l in
  p_pol p = pol -> (pol = PMts -> s_busy (st c) = false) -> nreq p sz <= c_max (fst (create p c slot sz)).
Proof. intros c p EP NB. rewrite <- EP in NB. exact (create_learned p c slot sz NB). Qed.

(* ... and nothing is forgotten while the storage lives *)
Lemma cmax_mono p c o : c_up c = true -> c_max c <= c_max (fst (gstep p c o)).
Proof.
  intros U. unfold gstep. destruct (wf_op c o && contract p c o) eqn:G; [|cbn [fst]; lia].
  apply andb_prop in G. destruct G as [WF _].
  destruct o as [x a b xal|slot sz|slot| |]; cbn [exec fst].
  - apply wf_init in WF. destruct WF as [WF _]. congruence.
  - unfold create, mk_frame. destruct (balloc p (hp c) (st c) (nreq p sz)) as [[h1 s1] g]. cbn [fst c_max].
    unfold learn. destruct (p_pol p); try lia. destruct (g_tr g); lia.
  - destruct (fget (frs c) slot) as [f|]; cbn [fst]; [|lia].
    unfold finish. destruct (bdealloc p (hp c) (st c) (f_blk f) (f_tr f)). cbn [c_max]. lia.
  - unfold destroy. cbn [c_max]. lia.
  - discriminate.
Qed.

Definition evs_of (fid : nat) (log : list ev) : list Z := map fst (filter (fun e => Nat.eqb (snd e) fid) log).
Definition livef (fid : nat) (l : list (nat * frame)) : bool := existsb (fun q => Nat.eqb (f_id (snd q)) fid) l.
Definition fids (l : list (nat * frame)) : list nat := map (fun q => f_id (snd q)) l.
(* codes: 1 Base::alloc returned, 2 extra object constructed, 3 promise constructed | 6 promise destroyed,
   4 extra object destroyed, 5 Base::dealloc entered *)
Definition born (x : Z) : list Z := 1 :: (if 0 <? x then [2] else []) ++ [3].
Definition died (x : Z) : list Z := 6 :: (if 0 <? x then [4] else []) ++ [5].
Definition lifecycle (x : Z) (nfid : nat) (l : list (nat * frame)) (fid : nat) : list Z :=
  if (fid <? nfid)%nat then (if livef fid l then born x else born x ++ died x) else [].

Record LogInv (x : Z) (c : core) : Prop := {
  li_lt : forall i f, In (i, f) (frs c) -> (f_id f < c_nfid c)%nat;
  li_nd : NoDup (fids (frs c));
  li_keys : NoDup (keys (frs c));
  li_log : forall fid, evs_of fid (c_log c) = lifecycle x (c_nfid c) (frs c) fid
}.

Lemma evs_of_app fid a b : evs_of fid (a ++ b) = evs_of fid a ++ evs_of fid b.
Proof. unfold evs_of. rewrite filter_app, map_app. reflexivity. Qed.

Lemma evs_of_create fid x f0 : evs_of fid (create_evs x f0) = if Nat.eqb f0 fid then born x else [].
Proof.
  unfold evs_of, create_evs, born. destruct (0 <? x); cbn [app filter snd map fst]; destruct (Nat.eqb f0 fid); reflexivity.
Qed.
Lemma evs_of_finish fid x f0 : evs_of fid (finish_evs x f0) = if Nat.eqb f0 fid then died x else [].
Proof.
  unfold evs_of, finish_evs, died. destruct (0 <? x); cbn [app filter snd map fst]; destruct (Nat.eqb f0 fid); reflexivity.
Qed.

Lemma livef_In fid l : livef fid l = true <-> exists k g, In (k, g) l /\ f_id g = fid.
Proof.
  unfold livef. rewrite existsb_exists. split.
  - intros [[k g] [A E]]. cbn [snd] in E. apply Nat.eqb_eq in E. eauto.
  - intros (k & g & A & E). exists (k, g). cbn [snd]. split; [exact A|apply Nat.eqb_eq, E].
Qed.

Lemma fids_inj l k1 g1 k2 g2 : NoDup (fids l) -> In (k1, g1) l -> In (k2, g2) l -> f_id g1 = f_id g2 -> (k1, g1) = (k2, g2).
Proof.
  induction l as [|[k g] l IH]; cbn [fids map snd In]; [tauto|].
  intros H A B E. inversion H as [|? ? N D]; subst.
  destruct A as [A|A]; destruct B as [B|B]; try congruence.
  - inversion A; subst. destruct N. rewrite E. exact (in_map (fun q => f_id (snd q)) l _ B).
  - inversion B; subst. destruct N. rewrite <- E. exact (in_map (fun q => f_id (snd q)) l _ A).
  - exact (IH D A B E).
Qed.

Lemma livef_fdel fid l slot f : NoDup (keys l) -> NoDup (fids l) -> fget l slot = Some f ->
  livef fid (fdel l slot) = if Nat.eqb (f_id f) fid then false else livef fid l.
Proof.
  intros K D G. pose proof (fget_In _ _ _ G) as GI.
  destruct (Nat.eqb_spec (f_id f) fid) as [E|E].
  - destruct (livef fid (fdel l slot)) eqn:L; [|reflexivity]. exfalso.
    apply livef_In in L. destruct L as (k & g & A & EG). apply In_fdel in A. destruct A as [A NK].
    assert ((k, g) = (slot, f)) as X by (apply (fids_inj l); auto; congruence). inversion X. congruence.
  - destruct (livef fid l) eqn:L.
    + apply livef_In in L. destruct L as (k & g & A & EG). apply livef_In. exists k, g. split; [|exact EG].
      apply In_fdel. split; [exact A|]. intros ->. pose proof (In_fget _ _ _ K A). congruence.
    + destruct (livef fid (fdel l slot)) eqn:L2; [|reflexivity]. exfalso.
      apply livef_In in L2. destruct L2 as (k & g & A & EG). apply In_fdel in A.
      assert (livef fid l = true) by (apply livef_In; exists k, g; tauto). congruence.
Qed.

Lemma gstep_LogInv pol p c o : LogInv (p_x p) c ->
  let p1 := if wf_op c o then prm_of pol p o else p in LogInv (p_x p1) (fst (gstep p1 c o)).
Proof.
  intros L. apply (gstep_cases pol (fun p c => LogInv (p_x p) c)); [exact L|..]; destruct L as [LT ND KD LG].
  - (* no frame was ever created, so the size of the extra object occurs nowhere *)
    intros x a b xal _ Z. constructor; auto. intros fid. rewrite LG. unfold lifecycle. rewrite Z. reflexivity.
  - intros x a b xal _ _ _ _ _. cbn [p_x].
    assert (B : forall h s, LogInv x (mkCore h s [] 0 0 true [])).
    { intros h s. constructor; cbn [frs c_nfid c_log]; try constructor. intros i f []. }
    unfold init_core. cbn [p_pol p_b p_a]. destruct pol; try apply B. destruct (0 <? b); [unfold hnew|]; apply B.
  - intros slot sz _ _ G _.
    unfold create, mk_frame. destruct (balloc p (hp c) (st c) (nreq p sz)) as [[h1 s1] g]. cbn [fst].
    constructor; cbn [frs c_nfid c_log].
    + intros i f [A|A]; [inversion A; subst; cbn [f_id]; lia|]. specialize (LT _ _ A). lia.
    + cbn [fids map snd f_id]. constructor; [|exact ND].
      intros A. apply in_map_iff in A. destruct A as [[k g'] [E A]]. cbn [snd] in E. specialize (LT _ _ A). lia.
    + cbn [keys map fst]. constructor; [exact (fget_None_keys _ _ G)|exact KD].
    + intros fid. rewrite evs_of_app, evs_of_create, LG. unfold lifecycle, livef. cbn [existsb snd f_id].
      fold (livef fid (frs c)).
      destruct (Nat.eqb_spec (c_nfid c) fid) as [E|E].
      * subst fid. rewrite Nat.ltb_irrefl. cbn [app orb].
        assert ((c_nfid c <? S (c_nfid c))%nat = true) as -> by (apply Nat.ltb_lt; lia). reflexivity.
      * cbn [orb]. rewrite app_nil_r.
        assert ((fid <? S (c_nfid c))%nat = (fid <? c_nfid c)%nat) as ->; [|reflexivity].
        destruct (Nat.ltb_spec fid (S (c_nfid c))); destruct (Nat.ltb_spec fid (c_nfid c)); auto; lia.
  - intros slot f _ GF.
    unfold finish. destruct (bdealloc p (hp c) (st c) (f_blk f) (f_tr f)) as [h1 s1].
    constructor; cbn [frs c_nfid c_log].
    + intros i g A. apply In_fdel in A. apply (LT i g), A.
    + exact (NoDup_map_fdel _ _ _ ND).
    + exact (NoDup_map_fdel _ _ _ KD).
    + intros fid. rewrite evs_of_app, evs_of_finish, LG. unfold lifecycle.
      rewrite (livef_fdel fid _ _ _ KD ND GF).
      destruct (Nat.eqb_spec (f_id f) fid) as [E|E]; [|rewrite app_nil_r; reflexivity].
      subst fid. pose proof (LT _ _ (fget_In _ _ _ GF)) as LTf.
      assert ((f_id f <? c_nfid c)%nat = true) as -> by (apply Nat.ltb_lt; exact LTf).
      assert (livef (f_id f) (frs c) = true) as ->; [|reflexivity].
      apply livef_In. exists slot, f. split; [exact (fget_In _ _ _ GF)|reflexivity].
  - intros _ _. unfold destroy. constructor; cbn [frs c_nfid c_log]; auto.
Qed.

(* C19 bytes inside the block.  A live frame of compiler size sz occupies [0, sz) of its block; the extra object (size x,
   alignment xal) occupies [xoff, xoff + x) with sz <= xoff and xoff a multiple of xal; the base policy was asked for n bytes
   with xoff + x <= n and n a multiple of 8 (so the owner pointer / flag byte it writes at offset n is aligned; without an
   extra object n = sz), and n + trailer fits into the room behind the frame. *)
Lemma InvT_placed pol p k h s l i f : p_pol p = pol -> InvT p k h s l -> In (i, f) l ->
  let sz := f_sz f in let n := f_n f in
  0 < sz /\ sz <= xoff p sz /\ n + trailer pol <= f_room f /\
  (0 < p_x p -> xoff p sz mod p_xal p = 0 /\ xoff p sz + p_x p <= n /\ n mod 8 = 0) /\
  (p_x p = 0 -> xoff p sz = sz /\ n = sz).
Proof.
  intros EP I A sz n. destruct (i_frames _ _ _ _ _ I _ _ A) as [[SP NE] F2 F3 _ _]. rewrite EP in F2.
  pose proof (i_pos _ _ _ _ _ I) as [X XA]. pose proof (nreq_ge p sz (conj X XA)) as [G1 G2].
  refine (conj SP (conj G1 (conj _ (conj _ _)))).
  - unfold n. lia.
  - intros PX. unfold n. rewrite NE. fold sz. unfold nreq, xoff in *.
    assert (0 <? p_x p = true) as E by lia. rewrite E in *.
    refine (conj (align_up_mod _ _ XA) (conj G2 (align_up_mod _ 8 ltac:(lia)))).
  - intros PX. unfold n. rewrite NE. fold sz. unfold nreq, xoff. rewrite PX. cbn. auto.
Qed.

(* What the sequential results of C19 are read off.  li_log of the third part is C19 extra object / life cycle: the events of a
   frame id are exactly [alloc; (ctor;) promise] while it lives, then [promise dtor; (dtor;) dealloc], and none before it is created. *)
Theorem final_Good pol l : contract_ok pol l = true ->
  RunInv pol (final_p pol l) (final_u pol l) /\ RunWarm (final_p pol l) (final_u pol l) /\ LogInv (p_x (final_p pol l)) (final_u pol l).
Proof.
  apply (final_inv pol (fun p c => RunInv pol p c /\ RunWarm p c /\ LogInv (p_x p) c)).
  - intros p c o (R & W & L). exact (conj (gstep_RunInv pol p c o R) (conj (gstep_RunWarm pol p c o R W) (gstep_LogInv pol p c o L))).
  - refine (conj (core0_RunInv pol) (conj (core0_RunWarm _) _)). constructor; cbn; try constructor. intros ? ? [].
Qed.
