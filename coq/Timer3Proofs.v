(* Timer3Proofs.v — soundness of the C12 trace oracle: the model's own trace always satisfies `timer_oracle`
   (so an oracle failure on the implementation's trace is never an artefact of the oracle being stricter than the
   proved behaviour).  Built on Timer2Proofs.v. *)
From Cocls Require Import Base BaseProofs TimerDefs TimerProofs Timer2Proofs.
Require Import ZifyBool ZifyNat.
Local Open Scope Z_scope.

Lemma get_nth {A} (l : list (option A)) i : get l i = nth i l None.
Proof.
  unfold get. revert i. induction l as [|x l IH]; intros [|i]; cbn [nth_error nth]; try reflexivity.
  - destruct x; reflexivity.
  - apply IH.
Qed.

Lemma diff_same b : forall i, diff_from i b b = [].
Proof.
  induction b as [|y b IH]; intros i; cbn [diff_from hd tl]; [reflexivity|].
  rewrite Z.eqb_refl. cbn [app]. apply IH.
Qed.

(* one slot written: at most that slot is listed *)
Lemma diff_put v pid : forall a i,
  diff_from i a (put a pid v) =
  if scode (nth pid a None) =? scode v then [] else [Z.of_nat (i + pid); scode v].
Proof.
  unfold put. induction pid as [|j IH]; intros a i.
  - destruct a as [|h t]; cbn [ensure set_nth diff_from hd tl nth].
    + rewrite app_nil_r. replace (i + 0)%nat with i by lia. reflexivity.
    + rewrite diff_same, app_nil_r. replace (i + 0)%nat with i by lia. reflexivity.
  - destruct a as [|h t]; cbn [ensure set_nth diff_from hd tl nth].
    + rewrite Z.eqb_refl. cbn [app]. rewrite (IH [] (S i)).
      assert (nth j [] None = @None fstat) as N by (destruct j; reflexivity). rewrite N.
      replace (S i + j)%nat with (i + S j)%nat by lia. reflexivity.
    + rewrite Z.eqb_refl. cbn [app]. rewrite IH. replace (S i + j)%nat with (i + S j)%nat by lia. reflexivity.
Qed.

Lemma nth_tl {A} (a : list A) k d : nth k (tl a) d = nth (S k) a d.
Proof. destruct a; [destruct k; reflexivity|reflexivity]. Qed.

(* if every slot whose status code changed now has code c, the oracle reads the change list as the list of the changed
   positions *)
Lemma chg_pids_spec c b : forall a i,
  (forall k, scode (nth k a None) <> scode (nth k b None) -> scode (nth k b None) = c) ->
  exists ps, chg_pids (diff_from i a b) c = Some (map Z.of_nat ps) /\ NoDup ps /\
    forall j, In j ps <-> exists k, j = (i + k)%nat /\ (k < length b)%nat /\ scode (nth k a None) <> scode (nth k b None).
Proof.
  induction b as [|y b IH]; intros a i H.
  - exists []. split; [reflexivity|]. split; [constructor|]. intros j. split; [intros []|intros (k & _ & L & _); inversion L].
  - destruct (IH (tl a) (S i)) as (ps & E & ND & M).
    { intros k D. rewrite nth_tl in D. apply (H (S k) D). }
    (* the positions after the first, in terms of a and y :: b *)
    assert (forall j, In j ps <-> exists k, j = (i + S k)%nat /\ (S k < length (y :: b))%nat /\
                                      scode (nth (S k) a None) <> scode (nth (S k) (y :: b) None)) as M'.
    { intros j. rewrite M. split; intros (k & -> & L & D); exists k; rewrite nth_tl in *; cbn [length nth] in *;
        (split; [lia|]); (split; [lia|exact D]). }
    assert (scode (nth 0 a None) = scode (hd None a)) as HD by (destruct a; reflexivity).
    cbn [diff_from]. destruct (scode (hd None a) =? scode y) eqn:Q; cbn [app].
    + exists ps. split; [exact E|]. split; [exact ND|]. intros j. rewrite M'. split; [intros (k & R); exists (S k); exact R|].
      intros ([|k] & R); [|exists k; exact R]. cbn [nth] in R. lia.
    + exists (i :: ps). cbn [chg_pids map].
      assert (scode y = c) as -> by (apply (H 0%nat); cbn [nth]; rewrite HD; lia). rewrite Z.eqb_refl, E.
      split; [reflexivity|]. split; [constructor; [rewrite M'; intros (k & R); lia|exact ND]|].
      intros j. cbn [In]. rewrite M'. split.
      * intros [<-|(k & R)]; [exists 0%nat; cbn [length nth]; split; [lia|]; split; lia|exists (S k); exact R].
      * intros ([|k] & R); [left; lia|right; exists k; exact R].
Qed.

Lemma diff_even b : forall a i, exists k, length (diff_from i a b) = (2 * k)%nat.
Proof.
  induction b as [|y b IH]; intros a i; cbn [diff_from]; [exists 0%nat; reflexivity|].
  destruct (IH (tl a) (S i)) as [k K]. rewrite app_length, K.
  destruct (scode (hd None a) =? scode y); cbn [length]; [exists k|exists (S k)]; lia.
Qed.

Definition trip_of (e : entry) : trip :=
  (e_tp e, match e_p e with Some p => Z.of_nat p | None => -1 end, e_id e).

Lemma layout_length l : length (layout l) = (3 * length l)%nat.
Proof. unfold layout. induction l as [|e l IH]; cbn [flat_map length app]; [reflexivity|]. rewrite IH. lia. Qed.

Lemma triples_layout l : triples (layout l) = Some (map trip_of l).
Proof.
  unfold layout. induction l as [|e l IH]; cbn [flat_map app triples map]; [reflexivity|].
  rewrite IH. reflexivity.
Qed.

Lemma filter_live_trips l : filter (fun t => 0 <=? t_pid t) (map trip_of l) = map trip_of (pending l).
Proof.
  induction l as [|e l IH]; [reflexivity|].
  cbn [map filter]. unfold pending in *. cbn [filter]. rewrite IH.
  unfold t_pid, trip_of at 1. cbn [fst snd]. destruct (e_p e) as [p|]; cbn [isnone negb map].
  - destruct (0 <=? Z.of_nat p) eqn:E; [reflexivity|lia].
  - reflexivity.
Qed.

Lemma trip_eqb_eq a b : trip_eqb a b = true <-> a = b.
Proof.
  destruct a as [[a1 a2] a3], b as [[b1 b2] b3]. unfold trip_eqb, t_tp, t_pid, t_id. cbn [fst snd].
  split; intros H.
  - f_equal; [f_equal|]; lia.
  - inversion H; subst. lia.
Qed.

Lemma take_trip_In x l : In x l -> exists l', take_trip x l = Some l' /\ Permutation l (x :: l').
Proof.
  induction l as [|t r IH]; intros I; [destruct I|]. cbn [take_trip].
  destruct (trip_eqb x t) eqn:E.
  - apply trip_eqb_eq in E. subst t. exists r. auto.
  - destruct I as [->|I]; [rewrite (proj2 (trip_eqb_eq x x) eq_refl) in E; discriminate|].
    destruct (IH I) as (r' & E' & P). rewrite E'. exists (t :: r'). split; [reflexivity|].
    rewrite P. apply perm_swap.
Qed.

Lemma perm_trips_complete a : forall b, Permutation a b -> perm_trips a b = true.
Proof.
  induction a as [|x t IH]; intros b P; cbn [perm_trips].
  - apply Permutation_nil in P. subst b. reflexivity.
  - assert (In x b) as I by (apply (Permutation_in _ P); left; reflexivity).
    destruct (take_trip_In x b I) as (b' & E & P'). rewrite E. apply IH.
    apply (Permutation_cons_inv (a := x)). rewrite P. exact P'.
Qed.

Lemma heap_b_from_ok all : forall rest i,
  (forall k, (k < length rest)%nat -> (0 < i + k)%nat -> nth (parent (i + k)) all 0 <= nth k rest 0) ->
  heap_b_from i all rest = true.
Proof.
  induction rest as [|x r IH]; intros i H; cbn [heap_b_from]; [reflexivity|].
  apply andb_true_iff. split.
  - destruct (Nat.eq_dec i 0) as [->|N]; [reflexivity|].
    apply orb_true_iff. right. specialize (H 0%nat). cbn [length nth] in H.
    replace (i + 0)%nat with i in H by lia. apply Z.leb_le. apply H; lia.
  - apply IH. intros k K P. specialize (H (S k)). cbn [length nth] in H.
    replace (i + S k)%nat with (S i + k)%nat in H by lia. apply H; lia.
Qed.

Lemma layout_ok_sound l pend : heap_ok l -> Permutation (map trip_of (pending l)) pend ->
  layout_ok (layout l) pend = true.
Proof.
  intros H P. unfold layout_ok. rewrite triples_layout, filter_live_trips.
  rewrite (perm_trips_complete _ _ P). cbn [andb].
  assert (map t_tp (map trip_of l) = map e_tp l) as M.
  { rewrite map_map. apply map_ext. intros e. reflexivity. }
  rewrite M. apply heap_b_from_ok. intros k K P0. cbn [Nat.add] in *.
  rewrite map_length in K.
  change 0 with (e_tp dflt). rewrite !map_nth. apply (H k). lia.
Qed.

Lemma firstn_app_exact {A} (a b : list A) : firstn (length a) (a ++ b) = a.
Proof. induction a; cbn [length firstn app]; [destruct b; reflexivity|f_equal; assumption]. Qed.

Lemma skipn_app_exact {A} (a b : list A) : skipn (length a) (a ++ b) = b.
Proof. induction a; cbn [length skipn app]; [reflexivity|assumption]. Qed.

Lemma parse_encode o chg lay k n : o_st o <> -999 ->
  length chg = (2 * k)%nat -> length lay = (3 * n)%nat ->
  parse_obs (encode_obs (mkObs o chg lay)) = Some (mkP (o_st o) (o_r1 o) (o_r2 o) chg lay).
Proof.
  intros NE LC LL. unfold encode_obs. cbn [ob_out ob_chg ob_lay].
  destruct (o_st o =? -999) eqn:E; [lia|]. unfold parse_obs.
  assert ((2 * Z.to_nat (Z.of_nat (length chg / 2)))%nat = length chg) as Q.
  { rewrite Nat2Z.id, LC. replace (2 * k / 2)%nat with k; [reflexivity|].
    symmetry. rewrite Nat.mul_comm. apply Nat.div_mul. lia. }
  rewrite Q. rewrite skipn_app_exact, firstn_app_exact.
  assert ((3 * Z.to_nat (Z.of_nat (length lay / 3)))%nat = length lay) as Q3.
  { rewrite Nat2Z.id, LL. replace (3 * n / 3)%nat with n; [reflexivity|].
    symmetry. rewrite Nat.mul_comm. apply Nat.div_mul. lia. }
  rewrite Q3. rewrite !Nat.eqb_refl.
  destruct (0 <=? Z.of_nat (length chg / 2)) eqn:E1; [|lia].
  destruct (0 <=? Z.of_nat (length lay / 3)) eqn:E2; [|lia].
  reflexivity.
Qed.

Lemma parse_rejected s s1 : parse_obs (encode_obs (mk_obs s s1 rejected)) = Some (mkP 1 0 0 [] []).
Proof. reflexivity. Qed.

(* the simulation relation between the model's state and the oracle's: same liveness, the pending entries are the
   oracle's pending triples, the futures in use are the oracle's used promise ids *)
Record rel (s : st) (a : ost) : Prop := mkRel {
  r_alive : os_alive a = alive s;
  r_pend : Permutation (map trip_of (pending (sched s))) (os_pend a);
  r_used : forall pid, memz (Z.of_nat pid) (os_used a) = true <-> get (futs s) pid <> None }.

Lemma rel0 : rel st0 ost0.
Proof.
  split; cbn; auto. intros pid. split; [discriminate|]. intros H. exfalso. apply H. unfold get. destruct pid; reflexivity.
Qed.

Lemma trip_live t p : e_p t = Some p -> trip_of t = (e_tp t, Z.of_nat p, e_id t).
Proof. intros E. unfold trip_of. rewrite E. reflexivity. Qed.

Lemma trip_tp u : t_tp (trip_of u) = e_tp u. Proof. reflexivity. Qed.
Lemma trip_id u : t_id (trip_of u) = e_id u. Proof. reflexivity. Qed.

Lemma pids_of_trips l : map t_pid (map trip_of (pending l)) = map Z.of_nat (ppids l).
Proof.
  induction l as [|e l IH]; [reflexivity|]. rewrite pending_cons, ppids_cons, map_app, <- IH. unfold live, pid_of.
  destruct (e_p e) as [p|] eqn:EP; cbn [isnone negb map app]; [|reflexivity].
  rewrite (trip_live e p EP). reflexivity.
Qed.

Lemma rel_nodup s a : inv s -> rel s a -> NoDup (map t_pid (os_pend a)).
Proof.
  intros I R. rewrite <- (r_pend s a R), pids_of_trips.
  apply FinFun.Injective_map_NoDup; [intros x y; apply Nat2Z.inj|apply (inv_nodup s I)].
Qed.

Lemma take_pid_first L : forall x, NoDup (map t_pid L) -> In x L ->
  exists rest, take_pid (t_pid x) L = Some (x, rest) /\ Permutation L (x :: rest).
Proof.
  induction L as [|t r IH]; intros x ND I; [destruct I|]. cbn [take_pid].
  cbn [map] in ND. inversion ND as [|? ? NI ND']; subst.
  destruct (t_pid t =? t_pid x) eqn:E.
  - destruct I as [->|I]; [exists r; auto|].
    exfalso. apply NI. apply Z.eqb_eq in E. rewrite E. apply in_map. exact I.
  - destruct I as [->|I]; [rewrite Z.eqb_refl in E; discriminate|].
    destruct (IH x ND' I) as (rest & -> & P). exists (t :: rest). split; [reflexivity|].
    rewrite P. apply perm_swap.
Qed.

Lemma in_pend s a x : rel s a -> In x (os_pend a) -> exists u, In u (pending (sched s)) /\ x = trip_of u.
Proof.
  intros R I. rewrite <- (r_pend s a R) in I. apply in_map_iff in I. destruct I as (u & E & I). eauto.
Qed.

Lemma all_ge_ok s a tp : rel s a -> (forall u, In u (pending (sched s)) -> tp <= e_tp u) -> all_ge tp (os_pend a) = true.
Proof.
  intros R H. unfold all_ge. apply forallb_forall. intros x I.
  destruct (in_pend s a x R I) as (u & IU & ->). rewrite trip_tp. apply Z.leb_le. apply H. exact IU.
Qed.

Lemma has_id_false s a id : rel s a -> (forall u, In u (pending (sched s)) -> e_id u <> id) -> has_id id (os_pend a) = false.
Proof.
  intros R H. unfold has_id. destruct (existsb (fun t => t_id t =? id) (os_pend a)) eqn:E; [|reflexivity].
  apply existsb_exists in E. destruct E as (x & I & Q). destruct (in_pend s a x R I) as (u & IU & ->).
  rewrite trip_id in Q. exfalso. apply (H u IU). lia.
Qed.

Lemma parse_ok s s' o : o_st o = 0 ->
  parse_obs (encode_obs (mk_obs s s' o)) =
  Some (mkP 0 (o_r1 o) (o_r2 o) (diff_from 0 (futs s) (futs s')) (layout (sched s'))).
Proof.
  intros E. unfold mk_obs. rewrite E. cbn [Z.eqb].
  destruct (diff_even (futs s') (futs s) 0) as [k K].
  rewrite (parse_encode o _ _ k (length (sched s'))); [rewrite E; reflexivity|lia|exact K|apply layout_length].
Qed.

(* the two shapes of an accepted observation: exactly one future, the one of the pending entry t, was completed ... *)
Lemma one_completed_ok s a s' t h p r1 r2 okf :
  inv s -> rel s a -> alive s' = true -> heap_ok (sched s') -> e_p t = Some p ->
  Permutation (pending (sched s)) (t :: pending (sched s')) ->
  futs s' = put (futs s) p (Some (stat_of h)) -> scode (Some (stat_of h)) <> 0 -> okf (trip_of t) = true ->
  exists a',
    one_completed (mkP 0 r1 r2 (diff_from 0 (futs s) (futs s')) (layout (sched s'))) a (scode (Some (stat_of h))) okf
      = Some a' /\ rel s' a'.
Proof.
  intros I R A' H' EP P FE NZ OK.
  assert (In t (pending (sched s))) as IT by (rewrite P; left; reflexivity).
  assert (get (futs s) p = Some FPending) as GP by (apply (inv_pend s I), In_ppids; eauto).
  unfold one_completed. cbn [p_chg p_lay].
  rewrite FE, diff_put. rewrite <- get_nth, GP. change (scode (Some FPending)) with 0.
  destruct (0 =? scode (Some (stat_of h))) eqn:E0; [lia|]. cbn [Nat.add].
  assert (In (trip_of t) (os_pend a)) as IA by (rewrite <- (r_pend s a R); apply in_map; exact IT).
  destruct (take_pid_first (os_pend a) (trip_of t) (rel_nodup s a I R) IA) as (rest & ET & PR).
  rewrite (trip_live t p EP) in ET at 1. cbn [t_pid fst snd] in ET. rewrite ET, Z.eqb_refl, OK. cbn [andb].
  assert (Permutation (map trip_of (pending (sched s'))) rest) as PP.
  { apply (Permutation_cons_inv (a := trip_of t)). rewrite <- PR, <- (r_pend s a R), P. reflexivity. }
  rewrite (layout_ok_sound _ _ H' PP).
  eexists. split; [reflexivity|]. split; cbn [os_alive os_pend os_used]; [symmetry; exact A'|exact PP|].
  intros pid. rewrite (r_used s a R), FE. destruct (Nat.eq_dec pid p) as [->|N].
  - rewrite get_put_same, GP. split; discriminate.
  - rewrite get_put_other by congruence. reflexivity.
Qed.

(* ... or no future changed and the pending multiset is the same *)
Lemma nothing_completed_ok s a s' r1 r2 :
  rel s a -> alive s' = alive s -> heap_ok (sched s') -> Permutation (pending (sched s)) (pending (sched s')) ->
  futs s' = futs s ->
  nothing_completed (mkP 0 r1 r2 (diff_from 0 (futs s) (futs s')) (layout (sched s'))) a = Some a /\ rel s' a.
Proof.
  intros R A' H' P FE.
  assert (Permutation (map trip_of (pending (sched s'))) (os_pend a)) as PP by (rewrite <- (r_pend s a R), P; reflexivity).
  unfold nothing_completed. cbn [p_chg p_lay]. rewrite FE, diff_same. cbn [is_empty andb].
  rewrite (layout_ok_sound _ _ H' PP). split; [reflexivity|].
  split; [rewrite A'; apply R|exact PP|]. intros pid. rewrite FE. apply (r_used s a R).
Qed.

Definition wf_op (x : op) : Prop := match x with OCancelE _ c => 0 <= c | _ => True end.

Lemma decode_wf l : wf_op (decode l).
Proof.
  unfold decode.
  repeat match goal with
         | |- wf_op (if ?b then _ else _) => destruct b eqn:?
         | |- wf_op (match ?x with _ => _ end) => destruct x
         end; cbn [wf_op]; auto; lia.
Qed.

(* only the destructor ends the scheduler's life *)
Lemma do_remove_alive s id h s' o : do_remove s id h = Ok (s', o) -> alive s' = true.
Proof.
  unfold do_remove. destruct (remove (sched s) id) as [[l r]| |]; cbn [rbind snd fst]; try discriminate.
  destruct r; intros Q; inversion Q; reflexivity.
Qed.

(* schedule / sleep_until: the oracle accepts what the model does *)
Lemma oracle_schedule_ok s a pid id tp s' o : inv s -> rel s a -> alive s = true ->
  step s (OSchedule pid id tp) = Ok (s', o) ->
  exists p a', parse_obs (encode_obs (mk_obs s s' o)) = Some p /\ oracle_step a (OSchedule pid id tp) p = Some a' /\ rel s' a'.
Proof.
  intros I R A E. unfold oracle_step. rewrite (r_alive s a R), A. cbn [negb].
  unfold step in E. rewrite A in E. cbn [negb] in E.
  destruct (get (futs s) pid) as [v|] eqn:G; inversion E; subst; clear E.
  - assert (memz (Z.of_nat pid) (os_used a) = true) as -> by (apply (r_used s' a R); congruence).
    eexists _, a. split; [apply parse_rejected|]. split; [reflexivity|exact R].
  - assert (memz (Z.of_nat pid) (os_used a) = false) as ->.
    { destruct (memz (Z.of_nat pid) (os_used a)) eqn:M; [|reflexivity]. apply (r_used s a R) in M. congruence. }
    eexists _, _. split; [apply parse_ok; reflexivity|].
    cbn [o_r1 o_r2 futs sched schedule fst p_st p_r1 p_r2 p_chg p_lay Z.eqb andb].
    rewrite diff_put, <- get_nth, G. cbn [scode Z.eqb is_empty andb].
    destruct (schedule_ok (sched s) (mkE tp (Some pid) id) pid (inv_heap s I) eq_refl) as (H1 & P1 & _).
    assert (Permutation (map trip_of (pending (heap_push (sched s) (mkE tp (Some pid) id))))
                        ((tp, Z.of_nat pid, id) :: os_pend a)) as PP.
    { rewrite P1. cbn [map]. apply perm_skip, (r_pend s a R). }
    rewrite (layout_ok_sound _ _ H1 PP).
    split; [reflexivity|]. split; cbn [os_alive os_pend os_used alive sched futs]; auto.
    intros q. cbn [memz]. destruct (Nat.eq_dec q pid) as [->|N].
    + rewrite Z.eqb_refl, get_put_same. cbn [orb]. split; [discriminate|reflexivity].
    + rewrite get_put_other by congruence. destruct (Z.of_nat q =? Z.of_nat pid) eqn:Q; [lia|]. apply (r_used s a R).
Qed.

Lemma oracle_expired_ok s a now s' o : inv s -> rel s a -> alive s = true ->
  step s (OExpired now) = Ok (s', o) ->
  exists p a', parse_obs (encode_obs (mk_obs s s' o)) = Some p /\ oracle_step a (OExpired now) p = Some a' /\ rel s' a'.
Proof.
  intros I R A E. unfold oracle_step. rewrite (r_alive s a R), A. cbn [negb].
  destruct (step_spec s _ s' o I A E) as (I' & FE & SP). cbn [spec_step futs_effect] in SP, FE.
  assert (alive s' = true) as A'.
  { unfold step in E. rewrite A in E. cbn [negb] in E.
    destruct (get_expired (sched s) now) as [[l r]| |]; cbn [rbind snd fst] in E; try discriminate.
    destruct r; inversion E; reflexivity. }
  destruct SP as [(t & -> & IT & DUE & MIN & P)|[(tp & -> & FUT & (t & IT & ET) & MIN & P)|(-> & E0 & E1)]];
    cbn [o_evs fold_left] in FE.
  - destruct (proj1 (live_some t)) as [p EP]; [apply pending_In in IT; apply IT|].
    rewrite (complete_live _ _ _ _ EP) in FE.
    destruct (one_completed_ok s a s' t (ByExpiry now) p 1 0 (fun t0 => (t_tp t0 <=? now) && all_ge (t_tp t0) (os_pend a))
                I R A' (inv_heap s' I') EP P FE) as (a' & OC & R'); [cbn; discriminate| |].
    { rewrite trip_tp, (all_ge_ok s a (e_tp t) R MIN). cbn [andb]. lia. }
    eexists _, a'. split; [apply parse_ok; reflexivity|]. cbn [o_r1 o_r2 p_st p_r1 p_r2 Z.eqb].
    cbn [stat_of scode] in OC. rewrite OC. split; [reflexivity|exact R'].
  - destruct (nothing_completed_ok s a s' 0 tp R) as (NC & R'); auto using (inv_heap s' I'); [congruence|].
    eexists _, a. split; [apply parse_ok; reflexivity|]. cbn [o_r1 o_r2 p_st p_r1 p_r2 Z.eqb].
    assert (has_tp tp (os_pend a) = true) as ->.
    { unfold has_tp. apply existsb_exists. exists (trip_of t). split; [|rewrite trip_tp; lia].
      rewrite <- (r_pend s a R). apply in_map. exact IT. }
    rewrite (all_ge_ok s a tp R MIN), NC. assert (now <? tp = true) as -> by lia. split; [reflexivity|exact R'].
  - destruct (nothing_completed_ok s a s' 2 0 R) as (NC & R'); auto using (inv_heap s' I');
      [congruence|rewrite E0, E1; reflexivity|].
    eexists _, a. split; [apply parse_ok; reflexivity|]. cbn [o_r1 o_r2 p_st p_r1 p_r2 Z.eqb].
    assert (os_pend a = []) as EA by (apply Permutation_nil; rewrite <- (r_pend s a R), E0; reflexivity).
    rewrite EA in *. rewrite NC. split; [reflexivity|exact R'].
Qed.

Lemma oracle_remove_ok s a id h s' o :
  inv s -> rel s a -> alive s = true -> scode (Some (stat_of h)) <> 0 ->
  do_remove s id h = Ok (s', o) ->
  exists p a', parse_obs (encode_obs (mk_obs s s' o)) = Some p /\
               oracle_remove p a id (scode (Some (stat_of h))) = Some a' /\ rel s' a'.
Proof.
  intros I R A NZ E. pose proof (do_remove_alive s id h s' o E) as A'.
  destruct (do_remove_ok s id h I) as (s2 & o2 & E2 & I' & FE & SP).
  rewrite E in E2. inversion E2; subst s2 o2. clear E2.
  destruct SP as [(t & -> & IT & EI & P)|(-> & NO & P)]; cbn [o_evs fold_left] in FE.
  - destruct (proj1 (live_some t)) as [p EP]; [apply pending_In in IT; apply IT|].
    rewrite (complete_live _ _ _ _ EP) in FE.
    destruct (one_completed_ok s a s' t h p 1 0 (fun t0 => t_id t0 =? id) I R A' (inv_heap s' I') EP P FE NZ)
      as (a' & OC & R'); [rewrite trip_id; lia|].
    eexists _, a'. split; [apply parse_ok; reflexivity|]. unfold oracle_remove. cbn [o_r1 o_r2 p_st p_r1 p_r2 Z.eqb].
    rewrite OC. split; [reflexivity|exact R'].
  - destruct (nothing_completed_ok s a s' 0 0 R) as (NC & R'); auto using (inv_heap s' I'); [congruence|].
    eexists _, a. split; [apply parse_ok; reflexivity|]. unfold oracle_remove. cbn [o_r1 o_r2 p_st p_r1 p_r2 Z.eqb].
    rewrite (has_id_false s a id R NO), NC. split; [reflexivity|exact R'].
Qed.

(* ~scheduler: the futures that change are exactly those of the pending sleeps, all to "no value" *)
Lemma oracle_destroy_ok s a s' o : inv s -> rel s a -> alive s = true -> step s ODestroy = Ok (s', o) ->
  exists p a', parse_obs (encode_obs (mk_obs s s' o)) = Some p /\ oracle_step a ODestroy p = Some a' /\ rel s' a'.
Proof.
  intros I R A E. unfold oracle_step. rewrite (r_alive s a R), A. cbn [negb].
  unfold step in E. rewrite A in E. cbn [negb] in E. inversion E; subst. clear E.
  eexists _, _. split; [apply parse_ok; reflexivity|].
  cbn [o_r1 o_r2 p_st p_r1 p_r2 p_chg p_lay futs sched Z.eqb andb layout flat_map is_empty].
  set (f' := fold_left complete (map (fun e => (e, ByDestroy)) (pending (sched s))) (futs s)).
  assert (forall j, get f' j = if in_dec Nat.eq_dec j (ppids (sched s)) then Some FDropped else get (futs s) j) as GF.
  { intros j. unfold f'. rewrite fold_complete_destroy, ppids_pending. reflexivity. }
  destruct (chg_pids_spec 2 f' (futs s) 0) as (ps & -> & ND & M).
  { intros k. rewrite <- !get_nth, GF. destruct (in_dec Nat.eq_dec k (ppids (sched s))); [reflexivity|congruence]. }
  assert (forall j, In j ps <-> In j (ppids (sched s))) as CH.
  { intros j. rewrite M. split.
    - intros (k & -> & _ & D). rewrite <- !get_nth, GF in D.
      destruct (in_dec Nat.eq_dec k (ppids (sched s))); [assumption|congruence].
    - intros J. exists j. split; [reflexivity|]. pose proof (GF j) as G'.
      destruct (in_dec Nat.eq_dec j (ppids (sched s))); [|contradiction].
      split; [apply nth_error_Some; unfold get in G'; destruct (nth_error f' j); discriminate|].
      rewrite <- !get_nth, G', (proj2 (inv_pend s I j) J). cbn. discriminate. }
  assert (Permutation (map Z.of_nat ps) (map t_pid (os_pend a))) as PB.
  { rewrite <- (r_pend s a R), pids_of_trips. apply Permutation_map.
    apply NoDup_Permutation; [exact ND|apply (inv_nodup s I)|exact CH]. }
  rewrite (perm_b_complete _ _ PB).
  split; [reflexivity|]. split; cbn [os_alive os_pend os_used alive sched futs pending filter map]; auto.
  intros pid. rewrite (r_used s a R). fold f'. rewrite GF.
  destruct (in_dec Nat.eq_dec pid (ppids (sched s))) as [J|J]; [|reflexivity].
  apply (inv_pend s I) in J. rewrite J. split; discriminate.
Qed.

(* one call: whatever the model answers, the oracle accepts it and the two states stay related *)
Lemma oracle_step_ok s a x s' o : inv s -> rel s a -> wf_op x -> step s x = Ok (s', o) ->
  exists p a', parse_obs (encode_obs (mk_obs s s' o)) = Some p /\ oracle_step a x p = Some a' /\ rel s' a'.
Proof.
  intros I R WF E.
  destruct (alive s) eqn:A.
  2:{ rewrite (step_dead s x A) in E. inversion E; subst. unfold oracle_step. rewrite (r_alive s' a R), A.
      eexists _, a. split; [apply parse_rejected|]. split; [reflexivity|exact R]. }
  destruct x as [pid id tp|pid id tp|now|id|id|id c| |]; cbn [wf_op] in WF.
  - apply oracle_schedule_ok; assumption.
  - exact (oracle_schedule_ok s a pid id tp s' o I R A E).
  - apply oracle_expired_ok; assumption.
  - unfold step in E. rewrite A in E. unfold oracle_step. rewrite (r_alive s a R), A.
    apply (oracle_remove_ok s a id ByRemove s' o I R A); [cbn; discriminate|exact E].
  - unfold step in E. rewrite A in E. unfold oracle_step. rewrite (r_alive s a R), A.
    apply (oracle_remove_ok s a id (ByCancel 0) s' o I R A); [cbn; discriminate|exact E].
  - unfold step in E. rewrite A in E. unfold oracle_step. rewrite (r_alive s a R), A.
    apply (oracle_remove_ok s a id (ByCancel c) s' o I R A); [cbn [scode stat_of]; lia|exact E].
  - apply oracle_destroy_ok; assumption.
  - unfold step in E. rewrite A in E. inversion E; subst. unfold oracle_step. rewrite (r_alive s' a R), A.
    eexists _, a. split; [apply parse_rejected|]. split; [reflexivity|exact R].
Qed.

Lemma oracle_run_ok xs : forall s a, inv s -> rel s a -> Forall wf_op xs ->
  oracle_from a xs (map encode_obs (fst (run_from s xs))) = true.
Proof.
  induction xs as [|x t IH]; intros s a I R WF; cbn [run_from map fst oracle_from]; [reflexivity|].
  inversion WF as [|? ? WX WT]; subst.
  destruct (step_total s x I) as (s1 & o & E & I1). rewrite E. cbn [fst snd].
  destruct (run_from s1 t) as [os e] eqn:ER. cbn [fst map oracle_from].
  destruct (oracle_step_ok s a x s1 o I R WX E) as (p & a' & -> & -> & R').
  specialize (IH s1 a' I1 R' WT). rewrite ER in IH. exact IH.
Qed.

(* (oracle soundness) the trace the model produces for ANY wire-level op list is accepted by the property oracle *)
Theorem oracle_sound ops : timer_oracle ops (timer_run ops) = true.
Proof.
  unfold timer_oracle, timer_run. apply oracle_run_ok; [apply inv_st0|apply rel0|].
  apply Forall_forall. intros x I. apply in_map_iff in I. destruct I as (l & <- & _). apply decode_wf.
Qed.
