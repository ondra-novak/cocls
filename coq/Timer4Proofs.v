(* Timer4Proofs.v — the scheduler re-entered from callbacks (property C12): interval() generators whose stop callbacks
   call cancel, and engine "tx", callback-style sleepers whose completion handler cancels / arms other sleeps. *)
From Cocls Require Import Base BaseProofs TimerDefs TimerProofs Timer2Proofs.
Require Import ZifyBool ZifyNat.
Local Open Scope Z_scope.

(* every pending sleep belongs to exactly one generator, which is asleep, and carries that generator's ident *)
Record ginv (tg : nat -> Z) (s : ist) : Prop := mkG {
  g_lock : i_owner s = false;
  g_heap : heap_ok (i_sched s);
  g_own : forall t, In t (pending (i_sched s)) -> exists g, e_p t = Some g /\ e_id t = tg g /\ gen_of s g = GSleeping;
  g_nodup : NoDup (ppids (i_sched s));
  g_sleep : forall g, gen_of s g = GSleeping -> In g (ppids (i_sched s)) }.

Lemma ginv0 tg : ginv tg ist0.
Proof.
  split; cbn; auto using heap_ok_nil.
  - intros t [].
  - constructor.
  - intros g GS. unfold gen_of in GS. destruct g as [|[|[|[|g]]]]; cbn in GS; discriminate.
Qed.

Lemma gen_of_set s g x g' :
  gen_of (set_gen s g x) g' = if (Nat.eqb g g' && Nat.ltb g (length (i_gens s)))%bool then x else gen_of s g'.
Proof. apply nth_set_nth. Qed.

Lemma gen_of_lt s g : gen_of s g <> GNone -> (g < length (i_gens s))%nat.
Proof.
  unfold gen_of. intros H. destruct (Nat.lt_ge_cases g (length (i_gens s))) as [L|L]; [exact L|].
  rewrite nth_overflow in H by exact L. contradiction.
Qed.

(* the entry t (promise g0) leaves the pending set and generator g0 goes to a non-sleeping state x *)
Lemma ginv_take tg s l' t g0 x nx clk st :
  ginv tg s -> heap_ok l' -> e_p t = Some g0 -> Permutation (pending (i_sched s)) (t :: pending l') -> x <> GSleeping ->
  ginv tg (mkI l' (set_nth (i_gens s) g0 x) st false clk nx).
Proof.
  intros [IO IH OWN ND SL] H' EP P NX.
  pose proof (ppids_take _ _ _ _ EP P) as PP. rewrite PP in ND. inversion ND as [|? ? NI ND']; subst.
  split; cbn [i_sched i_gens i_owner]; unfold gen_of; cbn [i_gens]; auto.
  - intros u IU. destruct (OWN u) as (g & EG & EI & GS); [rewrite P; right; exact IU|].
    exists g. split; [exact EG|]. split; [exact EI|].
    rewrite nth_set_nth. destruct (Nat.eqb_spec g0 g) as [->|N]; [|exact GS].
    exfalso. apply NI, In_ppids. eauto.
  - intros g GS. rewrite nth_set_nth in GS.
    destruct (Nat.eqb_spec g0 g) as [->|N]; cbn [andb] in GS.
    + destruct (Nat.ltb g (length (i_gens s))) eqn:L; [congruence|].
      apply Nat.ltb_ge in L. rewrite nth_overflow in GS by exact L. discriminate.
    + apply SL in GS. rewrite PP in GS. destruct GS as [Q|Q]; [congruence|exact Q].
Qed.

Lemma ginv_same tg s l' st clk nx :
  ginv tg s -> heap_ok l' -> Permutation (pending (i_sched s)) (pending l') ->
  ginv tg (mkI l' (i_gens s) st false clk nx).
Proof.
  intros [IO IH OWN ND SL] H' P.
  split; cbn [i_sched i_gens i_owner]; unfold gen_of; cbn [i_gens]; auto.
  - intros u IU. apply OWN. rewrite P. exact IU.
  - rewrite <- (ppids_same _ _ P). exact ND.
  - intros g GS. rewrite <- (ppids_same _ _ P). apply SL. exact GS.
Qed.

Lemma ginv_gen tg s g x : ginv tg s -> gen_of s g <> GSleeping -> x <> GSleeping -> ginv tg (set_gen s g x).
Proof.
  intros [IO IH OWN ND SL] NS NX.
  split; cbn [set_gen i_sched i_gens i_owner]; auto.
  - intros u IU. destruct (OWN u IU) as (g' & EG & EI & GS). exists g'. split; [exact EG|]. split; [exact EI|].
    rewrite gen_of_set. destruct (Nat.eqb_spec g g') as [->|N]; [congruence|exact GS].
  - intros g' GS. rewrite gen_of_set in GS. destruct (Nat.eqb_spec g g') as [->|N]; cbn [andb] in GS.
    + destruct (Nat.ltb g' (length (i_gens s))); [congruence|]. apply SL. exact GS.
    + apply SL. exact GS.
Qed.

Lemma ginv_stops tg s st : ginv tg s -> ginv tg (mkI (i_sched s) (i_gens s) st (i_owner s) (i_clk s) (i_next s)).
Proof. intros [IO IH OWN ND SL]. split; auto. Qed.

Lemma ginv_sched tg s g tp clk nx : ginv tg s -> gen_of s g <> GSleeping -> (g < length (i_gens s))%nat ->
  ginv tg (mkI (fst (schedule (i_sched s) (mkE tp (Some g) (tg g)))) (set_nth (i_gens s) g GSleeping) (i_stops s) false clk nx).
Proof.
  intros [IO IH OWN ND SL] NS LT. cbn [schedule fst]. set (e := mkE tp (Some g) (tg g)).
  destruct (schedule_ok (i_sched s) e g IH eq_refl) as (H1 & P1 & PP).
  assert (~ In g (ppids (i_sched s))) as NI.
  { intros Q. apply In_ppids in Q. destruct Q as (u & IU & EU). destruct (OWN u IU) as (g' & EG & _ & GS). congruence. }
  apply Nat.ltb_lt in LT.
  split; cbn [i_sched i_gens i_owner]; unfold gen_of; cbn [i_gens]; auto.
  - intros u IU. rewrite P1 in IU. destruct IU as [<-|IU].
    + exists g. cbn [e_p e_id e]. split; [reflexivity|]. split; [reflexivity|].
      rewrite nth_set_nth, Nat.eqb_refl, LT. reflexivity.
    + destruct (OWN u IU) as (g' & EG & EI & GS). exists g'. split; [exact EG|]. split; [exact EI|].
      rewrite nth_set_nth. destruct (Nat.eqb_spec g g') as [->|N]; [rewrite LT; reflexivity|exact GS].
  - rewrite PP. constructor; assumption.
  - intros g' GS. rewrite PP. rewrite nth_set_nth in GS.
    destruct (Nat.eqb_spec g g') as [->|N]; [left; reflexivity|right; apply SL; exact GS].
Qed.

(* no hypothesis on the idents: the callback may end another generator's sleep *)
Lemma stop_callback_ok tg s g : ginv tg s ->
  exists s1 r, stop_callback false tg s g = IOk s1 [] /\ ginv tg s1 /\ i_stops s1 = i_stops s /\
    remove_spec (pending (i_sched s)) (tg g) (i_sched s1) r /\
    i_gens s1 = match r with
                | Some t => match e_p t with Some g' => set_nth (i_gens s) g' GDone | None => i_gens s end
                | None => i_gens s
                end.
Proof.
  intros G. unfold stop_callback, acquire. rewrite (g_lock tg s G). cbn [i_owner i_sched i_gens i_stops i_clk i_next].
  destruct (remove_ok (i_sched s) (tg g) (g_heap tg s G)) as (l & r & -> & H' & _ & SP).
  destruct r as [t|]; cbn [remove_spec] in SP.
  - destruct SP as (LT & EI & P). destruct (proj1 (live_some t) LT) as [g' EP]. rewrite EP.
    eexists _, (Some t). split; [reflexivity|]. cbn [i_stops i_sched i_gens remove_spec]. rewrite EP.
    split; [apply (ginv_take tg s l t g' GDone); auto; discriminate|]. auto.
  - eexists _, None. split; [reflexivity|]. cbn [i_stops i_sched i_gens remove_spec].
    split; [apply ginv_same; auto; apply SP|]. auto.
Qed.

(* how an observation line says that the call returned: it starts with the status 0 (ok) or 1 (rejected), not with
   the hang / crash markers -998 / -999 *)
Definition ob01 (ob : list Z) : Prop := exists t, ob = 0 :: t \/ ob = 1 :: t.

Lemma iobs01 s k : ob01 (iobs s k).
Proof. eexists. left. reflexivity. Qed.

Lemma one01 : ob01 [1].
Proof. eexists. right. reflexivity. Qed.

Lemma iok_intro tg s1 ob : ginv tg s1 -> ob01 ob ->
  exists s1' ob', IOk s1 ob = IOk s1' ob' /\ ginv tg s1' /\ ob01 ob'.
Proof. eauto. Qed.

(* distinct idents are not needed for this *)
Lemma istep'_ok tg s x : ginv tg s -> exists s1 ob, istep' false tg s x = IOk s1 ob /\ ginv tg s1 /\ ob01 ob.
Proof.
  intros G. destruct x as [g|g|g| |]; cbn [istep'].
  - (* ICreate *)
    destruct (gen_of s g) eqn:GG; [|apply iok_intro; [exact G|apply one01]..].
    apply iok_intro; [|apply iobs01]. apply ginv_gen; [exact G|congruence|discriminate].
  - (* ICall *)
    destruct (gen_of s g) eqn:GG.
    + apply iok_intro; [exact G|apply one01].
    + destruct (stop_of s g).
      * (* stop requested before the first call: the callback runs at once *)
        destruct (stop_callback_ok tg s g G) as (s1 & r & -> & G1 & _ & _ & EG).
        apply iok_intro; [|apply iobs01]. apply ginv_gen; [exact G1| |discriminate].
        unfold gen_of in *. rewrite EG. destruct r as [t|]; [destruct (e_p t)|]; try congruence.
        rewrite nth_set_nth. destruct (_ && _)%bool; congruence.
      * apply iok_intro; [|apply iobs01]. apply ginv_sched; [exact G|congruence|apply gen_of_lt; congruence].
    + apply iok_intro; [exact G|apply one01].
    + destruct (stop_of s g); (apply iok_intro; [|apply iobs01]).
      * apply ginv_gen; [exact G|congruence|discriminate].
      * apply ginv_sched; [exact G|congruence|apply gen_of_lt; congruence].
    + apply iok_intro; [exact G|apply one01].
  - (* IStop: a callback is registered only while the body is suspended *)
    destruct (stop_of s g); [apply iok_intro; [exact G|apply iobs01]|].
    set (s0 := mkI (i_sched s) (i_gens s) (set_nth (i_stops s) g true) (i_owner s) (i_clk s) (i_next s)).
    assert (ginv tg s0) as G0 by (apply ginv_stops; exact G).
    destruct (stop_callback_ok tg s0 g G0) as (s1 & r & E & G1 & _).
    destruct (gen_of s g).
    + apply iok_intro; [exact G0|apply iobs01].
    + apply iok_intro; [exact G0|apply iobs01].
    + rewrite E. apply iok_intro; [exact G1|apply iobs01].
    + rewrite E. apply iok_intro; [exact G1|apply iobs01].
    + apply iok_intro; [exact G0|apply iobs01].
  - (* IExp *)
    unfold acquire. rewrite (g_lock tg s G). cbn [i_sched i_clk].
    destruct (get_expired_ok (i_sched s) (i_clk s) (g_heap tg s G)) as (l' & r & -> & H' & SP).
    destruct r as [t|tp|]; cbn [expired_spec] in SP.
    + destruct SP as (LT & _ & P & _). destruct (proj1 (live_some t) LT) as [g' EP]. rewrite EP.
      apply iok_intro; [|apply iobs01]. apply (ginv_take tg s l' t g' GYielded); auto. discriminate.
    + destruct SP as (_ & P & _). apply iok_intro; [|apply iobs01]. apply ginv_same; auto.
    + destruct SP as (-> & EP). apply iok_intro; [|apply iobs01].
      apply ginv_same; auto using heap_ok_nil. rewrite EP. reflexivity.
  - apply iok_intro; [exact G|apply one01].
Qed.

(* (no hang, no crash through the stop tokens) whatever the sequence of generator calls, stop requests and get_expired
   calls on up to three generators — and whatever idents the generators use: every call returns (a stop callback never
   re-acquires a mutex its thread holds, remove never leaves the array) *)
Theorem irun_no_deadlock tg ops : forall s, ginv tg s ->
  length (irun_from false tg s ops) = length ops /\ Forall ob01 (irun_from false tg s ops).
Proof.
  induction ops as [|o t IH]; intros s G; cbn [irun_from].
  - split; [reflexivity|constructor].
  - unfold istep. destruct (istep'_ok tg s (decode_iop o) G) as (s1 & ob & -> & G1 & SH).
    destruct (IH s1 G1) as (L & F). cbn [length]. split; [rewrite L; reflexivity|]. constructor; assumption.
Qed.

Lemma istate_ginv tg ops : forall s, ginv tg s -> ginv tg (istate tg s ops).
Proof.
  induction ops as [|o t IH]; intros s G; cbn [istate]; [exact G|].
  unfold istep. destruct (istep'_ok tg s (decode_iop o) G) as (s1 & ob & -> & G1 & _). apply IH. exact G1.
Qed.

(* what a stop request for generator g does to a state s, giving s1:
     - if g is asleep: exactly ITS pending sleep (the entry whose promise belongs to g) is cancelled and g finishes;
     - otherwise the pending set is unchanged and g keeps its state;
     - every other generator keeps its state and its stop flag, and every other pending sleep stays pending. *)
Definition stop_effect (tg : nat -> Z) (s : ist) (g : nat) (s1 : ist) : Prop :=
    (gen_of s g = GSleeping ->
       exists t, In t (pending (i_sched s)) /\ e_p t = Some g /\ e_id t = tg g /\
                 Permutation (pending (i_sched s)) (t :: pending (i_sched s1)) /\ gen_of s1 g = GDone) /\
    (gen_of s g <> GSleeping -> Permutation (pending (i_sched s)) (pending (i_sched s1)) /\ gen_of s1 g = gen_of s g) /\
    (forall g', g' <> g -> gen_of s1 g' = gen_of s g' /\ stop_of s1 g' = stop_of s g').

Lemma stop_effect_idle tg s g : gen_of s g <> GSleeping -> stop_effect tg s g s.
Proof. intros NS. split; [contradiction|]. split; [|intros g' N]; split; reflexivity. Qed.

(* with pairwise distinct idents that is what generator g's stop callback does *)
Lemma stop_callback_own tg s g : (forall a b, tg a = tg b -> a = b) -> ginv tg s ->
  exists s1, stop_callback false tg s g = IOk s1 [] /\ stop_effect tg s g s1.
Proof.
  intros INJ G. destruct (stop_callback_ok tg s g G) as (s1 & r & E & _ & ES & SP & EG).
  exists s1. split; [exact E|]. destruct G as [IO IH OWN ND SL].
  pose proof (gen_of_lt s g) as RNG. unfold stop_effect, stop_of, gen_of in *. rewrite EG, ES. clear E ES EG.
  destruct r as [t|]; cbn [remove_spec] in SP.
  - (* the entry found carries g's ident, so it is g's own sleep *)
    destruct SP as (LT & EI & P).
    assert (In t (pending (i_sched s))) as IT by (rewrite P; left; reflexivity).
    destruct (OWN t IT) as (g2 & EP & EI2 & GS2). assert (g2 = g) by (apply INJ; congruence). subst g2. rewrite EP.
    split; [|split].
    + intros _. exists t. repeat split; auto.
      rewrite nth_set_nth_same; [reflexivity|apply RNG; congruence].
    + intros NS. congruence.
    + intros g' N. split; [|reflexivity]. apply nth_set_nth_other. congruence.
  - (* nothing pending carries g's ident, so g is not asleep *)
    destruct SP as (P & NO).
    assert (nth g (i_gens s) GNone <> GSleeping) as NS.
    { intros GS. apply SL, In_ppids in GS. destruct GS as (u & IU & EU).
      destruct (OWN u IU) as (g2 & EP & EI2 & _). assert (g2 = g) by congruence. subst g2. apply (NO u IU EI2). }
    split; [intros GS; contradiction|]. auto.
Qed.

(* (cancellation through a stop token, N generators) distinct idents => in any state satisfying the invariant, hence
   after ANY sequence of operations, request_stop() on generator g's source returns and has that effect *)
Theorem stop_hits_own tg s g : (forall a b, tg a = tg b -> a = b) -> ginv tg s ->
  stop_of s g = false -> exists s1 ob, istep' false tg s (IStop g) = IOk s1 ob /\ stop_effect tg s g s1.
Proof.
  intros INJ G ST. cbn [istep']. rewrite ST.
  set (s0 := mkI (i_sched s) (i_gens s) (set_nth (i_stops s) g true) (i_owner s) (i_clk s) (i_next s)).
  assert (forall s1, stop_effect tg s0 g s1 -> stop_effect tg s g s1) as FLAG.
  { intros s1 (A & B & C). split; [exact A|]. split; [exact B|]. intros g' N. destruct (C g' N) as (C1 & C2).
    split; [exact C1|]. rewrite C2. apply nth_set_nth_other. congruence. }
  destruct (stop_callback_own tg s0 g INJ (ginv_stops tg s _ G)) as (s1 & E & EFF).
  destruct (gen_of s g) eqn:GG; try rewrite E; eexists _, _; (split; [reflexivity|]); apply FLAG; try exact EFF.
  (* the body has not started or has finished: no callback is registered *)
  all: apply stop_effect_idle; change (gen_of s g <> GSleeping); congruence.
Qed.

(* the code's idents (&tag of each generator's own frame) are distinct *)
Lemma tag_inj a b : tag a = tag b -> a = b.
Proof. unfold tag. lia. Qed.

(* the number of pending futures bounds the depth of nested completions: each completion ends one *)
Definition is_pend (o : option fstat) : bool := match o with Some FPending => true | _ => false end.
Definition npending (f : list (option fstat)) : nat := length (filter is_pend f).

Lemma npending_le f : (npending f <= length f)%nat.
Proof. unfold npending. induction f as [|h t IH]; cbn [filter length]; [lia|]. destruct (is_pend h); cbn [length]; lia. Qed.

Lemma npending_put_done v : is_pend (Some v) = false -> forall p f, get f p = Some FPending ->
  S (npending (put f p (Some v))) = npending f.
Proof.
  intros NV. unfold put, npending, get. induction p as [|p IH]; intros f G.
  - destruct f as [|h t]; cbn [nth_error] in G; [discriminate|].
    destruct h as [[| | |c]|]; try discriminate. cbn [ensure set_nth filter]. rewrite NV. reflexivity.
  - destruct f as [|h t]; cbn [nth_error] in G; [discriminate|].
    cbn [ensure set_nth filter]. specialize (IH t G). destruct (is_pend h); cbn [length]; lia.
Qed.

(* the array is a heap; a promise sits in at most one slot; and only promises whose state is pending sit in the array *)
Record xinv (s : xst) : Prop := mkXI {
  xi_heap : heap_ok (x_sched s);
  xi_nodup : NoDup (ppids (x_sched s));
  xi_pend : forall p, In p (ppids (x_sched s)) -> get (x_fut s) p = Some FPending }.

Lemma xinv0 : xinv xst0.
Proof. split; cbn; auto using heap_ok_nil. constructor. intros p []. Qed.

Lemma xinv_same s l' : xinv s -> heap_ok l' -> Permutation (pending (x_sched s)) (pending l') ->
  xinv (mkX l' (x_fut s) (x_hnd s) (x_seq s)).
Proof.
  intros [H ND PE] H' P. apply ppids_same in P. split; cbn [x_sched x_fut]; [exact H'|rewrite <- P; exact ND|].
  intros p I. apply PE. rewrite P. exact I.
Qed.

(* arming a new future-backed sleep with a fresh promise id *)
Lemma xinv_arm s e p hn sq : xinv s -> e_p e = Some p -> get (x_fut s) p = None ->
  xinv (mkX (fst (schedule (x_sched s) e)) (put (x_fut s) p (Some FPending)) hn sq).
Proof.
  intros [H ND PE] EP FR. cbn [schedule fst].
  destruct (schedule_ok (x_sched s) e p H EP) as (H1 & _ & PP).
  assert (~ In p (ppids (x_sched s))) as NI by (intros Q; apply PE in Q; congruence).
  split; cbn [x_sched x_fut]; [exact H1|rewrite PP; constructor; assumption|].
  intros q I. rewrite PP in I. destruct (Nat.eq_dec q p) as [->|N]; [apply get_put_same|].
  rewrite get_put_other by congruence. destruct I as [I|I]; [congruence|apply PE; exact I].
Qed.

(* taking the entry t out of the array leaves a state in which its promise can be completed *)
Lemma xtake s l' t p : xinv s -> heap_ok l' -> e_p t = Some p -> Permutation (pending (x_sched s)) (t :: pending l') ->
  let s1 := mkX l' (x_fut s) (x_hnd s) (x_seq s) in
  xinv s1 /\ ~ In p (ppids (x_sched s1)) /\ get (x_fut s1) p = Some FPending.
Proof.
  intros [H ND PE] H' EP P. cbn zeta. cbn [x_sched x_fut].
  pose proof (ppids_take _ _ _ _ EP P) as PP. rewrite PP in ND. inversion ND as [|? ? NI ND']; subst.
  split; [|split; [exact NI|]].
  - split; cbn [x_sched x_fut]; auto. intros q IQ. apply PE. rewrite PP. right. exact IQ.
  - apply PE. rewrite PP. left. reflexivity.
Qed.

Lemma rbind_ok {A B} (P : A -> Prop) (Q : B -> Prop) (r : res A) (k : A -> res B) :
  (exists a, r = Ok a /\ P a) -> (forall a, P a -> exists b, k a = Ok b /\ Q b) -> exists b, rbind r k = Ok b /\ Q b.
Proof. intros (a & -> & HP) H. apply H, HP. Qed.

(* the promise pid has just been taken out of the array and is being completed with v *)
Lemma xfire_ok fuel : forall s pid v, xinv s -> ~ In pid (ppids (x_sched s)) -> get (x_fut s) pid = Some FPending ->
  is_pend (Some v) = false -> (npending (x_fut s) < fuel)%nat ->
  exists s', xfire fuel s pid v = Ok s' /\ xinv s'.
Proof.
  induction fuel as [|f IH]; intros s pid v I NI G NV F; [lia|].
  cbn [xfire].
  set (s1 := mkX (x_sched s) (put (x_fut s) pid (Some v)) (x_hnd s) (x_seq s)).
  assert (xinv s1) as I1.
  { destruct I as [H ND PE]. split; cbn [s1 x_sched x_fut]; auto.
    intros p IP. rewrite get_put_other; [apply PE; exact IP|]. intros ->. contradiction. }
  assert (S (npending (x_fut s1)) = npending (x_fut s)) as C1 by (apply npending_put_done; assumption).
  destruct (get (x_hnd s) pid) as [a|]; [|exists s1; auto].
  (* the handler runs for a value or an exception alike *)
  match goal with |- context [rbind ?r ?k] => assert (exists s', rbind r k = Ok s' /\ xinv s') as HANDLER end.
  { apply (rbind_ok xinv xinv).
    - destruct ((h_act a =? 1) || (h_act a =? 3))%bool; [|exists s1; auto].
      destruct (remove_ok (x_sched s1) (h_cid a) (xi_heap s1 I1)) as (l' & r & -> & H' & _ & SP). cbn [rbind fst snd].
      destruct r as [t|]; cbn [remove_spec] in SP.
      + (* a nested completion: one pending future fewer *)
        destruct SP as (LT & _ & P). destruct (proj1 (live_some t) LT) as [p EP]. rewrite EP.
        destruct (xtake s1 l' t p I1 H' EP P) as (I1' & NI' & G').
        apply IH; [exact I1'|exact NI'|exact G'|reflexivity|cbn [x_fut] in *; lia].
      + destruct SP as (P & _). eexists. split; [reflexivity|]. apply (xinv_same s1 l' I1 H' P).
    - intros s2 I2.
      destruct (((h_act a =? 2) || (h_act a =? 3)) && isnone (get (x_fut s2) (h_spid a)))%bool eqn:AR; [|exists s2; auto].
      eexists. split; [reflexivity|]. apply andb_true_iff in AR. destruct AR as [_ FR].
      apply xinv_arm; [exact I2|reflexivity|]. destruct (get (x_fut s2) (h_spid a)); [discriminate|reflexivity]. }
  destruct v; try discriminate; [exact HANDLER|exists s1; auto|exact HANDLER].
Qed.

Lemma xtake_fire s l' t v : xinv s -> heap_ok l' -> live t = true -> Permutation (pending (x_sched s)) (t :: pending l') ->
  is_pend (Some v) = false ->
  exists p s', e_p t = Some p /\ xfire (xfuel s) (mkX l' (x_fut s) (x_hnd s) (x_seq s)) p v = Ok s' /\ xinv s'.
Proof.
  intros I H' LT P NV. destruct (proj1 (live_some t) LT) as [p EP].
  destruct (xtake s l' t p I H' EP P) as (I1 & NI & G).
  destruct (xfire_ok (xfuel s) _ p v I1 NI G NV) as (s' & E' & I'); [|eauto].
  cbn [x_fut]. unfold xfuel. pose proof (npending_le (x_fut s)). lia.
Qed.

Lemma xremove_ok s id v : xinv s -> is_pend (Some v) = false -> exists r, xremove s id v = Ok r /\ xinv (fst r).
Proof.
  intros I NV. unfold xremove.
  destruct (remove_ok (x_sched s) id (xi_heap s I)) as (l' & r & -> & H' & _ & SP). cbn [rbind fst snd].
  destruct r as [t|]; cbn [remove_spec] in SP.
  - destruct SP as (LT & _ & P). destruct (xtake_fire s l' t v I H' LT P NV) as (p & s' & -> & -> & I').
    cbn [rbind]. eexists. split; [reflexivity|exact I'].
  - destruct SP as (P & _). eexists. split; [reflexivity|]. cbn [fst]. apply xinv_same; auto.
Qed.

Lemma xfresh_none s p : xfresh s p = true -> get (x_fut s) (Z.to_nat p) = None.
Proof.
  intros Q. unfold xfresh in Q. apply andb_true_iff in Q. destruct Q as [_ Q]. destruct (get (x_fut s) (Z.to_nat p)); [discriminate|reflexivity].
Qed.

Local Opaque xfresh.

(* an op list is one of the seven call patterns, or it is rejected *)
Lemma xstep_wire s o : xstep s o = Ok None \/
  (exists p id tp, o = [1; p; id; tp]) \/
  (exists p id tp act cid sid stp sp, o = [8; p; id; tp; act; cid; sid; stp; sp]) \/
  (exists p id kind frac, o = [9; p; id; kind; frac]) \/
  (exists now, o = [3; now]) \/
  (exists id, o = [4; id]) \/ (exists id, o = [5; id]) \/ (exists id c, o = [6; id; c]).
Proof.
  unfold xstep.
  (* take o, its elements and their binary digits apart as far as xstep looks at them: every leaf is `Ok None` or has o
     in one of the seven shapes *)
  repeat match goal with |- context [match ?x with _ => _ end] => is_var x; destruct x end;
    try (left; reflexivity); right; eauto 20.
Qed.

Lemma xstep_ok s o : xinv s -> exists r, xstep s o = Ok r /\ match r with Some (s', _) => xinv s' | None => True end.
Proof.
  intros I.
  assert (forall (b : bool) e p hn sq (r : Z * Z), e_p e = Some (Z.to_nat p) -> (b = true -> xfresh s p = true) ->
            exists r0, (if b then Ok (Some (mkX (fst (schedule (x_sched s) e)) (put (x_fut s) (Z.to_nat p) (Some FPending)) hn sq, r))
                        else Ok None) = Ok r0 /\ match r0 with Some (s', _) => xinv s' | None => True end) as ARM.
  { intros b e p hn sq r EP F. destruct b; [|exists None; auto]. eexists. split; [reflexivity|].
    apply xinv_arm; [exact I|exact EP|apply xfresh_none, F; reflexivity]. }
  assert (forall p (b : bool), xfresh s p && b = true -> xfresh s p = true) as FR by (intros p b C; apply andb_true_iff in C; apply C).
  assert (forall (b : bool) id v, is_pend (Some v) = false ->
            exists r, (if b then r0 <- xremove s id v ;; Ok (Some r0) else Ok None) = Ok r /\
                      match r with Some (s', _) => xinv s' | None => True end) as RM.
  { intros b id v NV. destruct b; [|exists None; auto].
    destruct (xremove_ok s id v I NV) as ([s' rr] & -> & I'). cbn [rbind]. eexists. split; [reflexivity|exact I']. }
  destruct (xstep_wire s o) as [->|[(p & id & tp & ->)|[(p & id & tp & act & cid & sid & stp & sp & ->)|[(p & id & kind & frac & ->)|
                                 [(now & ->)|[(id & ->)|[(id & ->)|(id & c & ->)]]]]]]]; cbn [xstep].
  - exists None. auto.
  - apply ARM; [reflexivity|apply FR].
  - apply ARM; [reflexivity|]. rewrite <- !andb_assoc. apply FR.
  - apply ARM; [reflexivity|]. rewrite <- !andb_assoc. apply FR.
  - destruct (now <? big_tp); [|exists None; auto].
    destruct (get_expired_ok (x_sched s) now (xi_heap s I)) as (l' & r & -> & H' & SP). cbn [rbind fst snd].
    destruct r as [t|tp|]; cbn [expired_spec] in SP.
    + destruct SP as (LT & _ & P & _). destruct (xtake_fire s l' t FValue I H' LT P eq_refl) as (p & s' & -> & -> & I').
      cbn [rbind]. eexists. split; [reflexivity|exact I'].
    + destruct SP as (_ & P & _). eexists. split; [reflexivity|]. apply xinv_same; auto.
    + destruct SP as (-> & EP). eexists. split; [reflexivity|]. apply xinv_same; auto using heap_ok_nil. rewrite EP. reflexivity.
  - apply RM. reflexivity.
  - apply RM. reflexivity.
  - apply RM. reflexivity.
Qed.

(* (no crash, no hang in the model) whatever callback sleepers are scheduled and however their handlers cancel and arm
   each other from inside a completion: every call returns an observation — no out-of-bounds access, no unbounded
   re-entry (the recursion is bounded by the number of pending promises) — one observation per op *)
Theorem tx_no_crash ops : forall s, xinv s ->
  length (xrun_from s ops) = length ops /\ Forall (fun ob => exists t, ob = 0 :: t \/ ob = 1 :: t) (xrun_from s ops).
Proof.
  induction ops as [|o t IH]; intros s I; cbn [xrun_from]; [split; [reflexivity|constructor]|].
  destruct (xstep_ok s o I) as (r & -> & I').
  destruct r as [[s1 [r1 r2]]|].
  - destruct (IH s1 I') as (L & F). cbn [length]. split; [rewrite L; reflexivity|].
    constructor; [eexists; left; reflexivity|exact F].
  - destruct (IH s I) as (L & F). cbn [length]. split; [rewrite L; reflexivity|].
    constructor; [eexists; right; reflexivity|exact F].
Qed.
