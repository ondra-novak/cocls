(* Properties_C05.v — C05: coroutine-mode scheduling: run-to-suspension, FIFO ready queue, full drain.
   Statements only; each proved in a line or two from the lemmas of CoroVMProofs, CoroVMNoPreempt, CoroVMOnce, CoroVMDeq
   and CoroVMRuns (the refutation is a computation).
   Quantification: any main script and any family of coroutine scripts (p : nat -> list instr, i.e. any number of
   coroutines and steps), any number n of machine steps (every run prefix, no termination assumption). *)
From Cocls Require Import Base CoroVMDefs CoroVMProofs CoroVMNoPreempt CoroVMOnce CoroVMLife CoroVMDeq CoroVMRuns.
Local Open Scope nat_scope.

(* drain: whenever control is back in normal code the ready queue is empty, coroutine mode is off and the C++ stack
   holds no coroutine activation; every (is_active(), queue length) sample taken by normal code reads (false, 0);
   a coroutine only ever runs with the queue installed *)
Theorem c05_drain : forall p m n,
  let s := steps n (init p m) in
  (cur s = CMain \/ cur s = CEnd -> active s = false /\ queue s = [] /\ stack s = []) /\
  (forall a q, In (EIdle a q) (trace s) -> a = false /\ q = 0) /\
  (forall c, cur s = CRun c -> active s = true).
Proof. exact drain. Qed.
Print Assumptions c05_drain.

(* fifo: at every moment, (coroutines ever appended to the ready queue) = (coroutines taken from its front so far) ++ (the
   queue): coroutines leave the queue one at a time, each once, in the order they were queued *)
Theorem c05_fifo : forall p m n,
  let s := steps n (init p m) in enqs (log s) = deqs (log s) ++ queue s.
Proof. intros. apply fifo_steps. reflexivity. Qed.
Print Assumptions c05_fifo.

(* ... and from any reachable moment on: what is queued now, followed by what gets queued later, is dequeued in that order *)
Theorem c05_fifo_future : forall n s, fifo s ->
  exists evs, log (steps n s) = evs ++ log s /\ queue s ++ enqs evs = deqs evs ++ queue (steps n s).
Proof. exact fifo_future. Qed.
Print Assumptions c05_fifo_future.

(* pause: the pausing coroutine goes to the TAIL, the head of the queue runs next (the pausing one itself iff the queue
   was empty); with c05_fifo_future: everybody queued before the pause is dequeued before the pausing coroutine is *)
Theorem c05_pause_round_robin : forall s r rest,
  cur s = CRun r -> r <> 0 -> script (cs s r) = IPause :: rest ->
  let x := hd r (queue s ++ [r]) in
  queue (step s) = tl (queue s ++ [r]) /\ cur (step s) = CRun x /\
  log (step s) = ERun x :: EDeq x :: EEnq r r why_pause :: ESusp r :: log s /\
  script (cs (step s) r) = rest.
Proof. exact pause_step. Qed.
Print Assumptions c05_pause_round_robin.

(* co_await on a suspend point: last handle by symmetric transfer, the others then self appended in order *)
Theorem c05_await_sp_order : forall s me h t,
  let hs := h :: t in
  let s' := sp_dispose s me hs true in
  queue s' = queue s ++ removelast hs ++ [me] /\ cur s' = CRun (last hs 0) /\
  log s' = ERun (last hs 0) :: EEnq me me why_self :: rev (map (fun c => EEnq c me why_spawait) (removelast hs)) ++ ESusp me :: log s.
Proof. exact await_sp_step. Qed.
Print Assumptions c05_await_sp_order.

(* a suspend point discarded by a running coroutine (coroutine mode) only appends: nobody is resumed, the caller continues *)
Theorem c05_discard_only_queues : forall s me hs,
  active s = true ->
  let s' := sp_dispose s me hs false in
  queue s' = queue s ++ hs /\ cur s' = cur s /\ stack s' = stack s /\
  log s' = rev (map (fun c => EEnq c me why_discard) hs) ++ log s.
Proof. exact discard_sp_step. Qed.
Print Assumptions c05_discard_only_queues.

(* the same suspend point discarded by normal code: queue installed, handles resumed in order, flushed (c05_drain) on return *)
Theorem c05_discard_normal_mode : forall s me h t,
  active s = false ->
  let s' := sp_dispose s me (h :: t) false in
  active s' = true /\ stack s' = KInst (h :: t) :: stack s /\ cur s' = CRet /\ log s' = log s /\
  cur (step s') = CRun h /\ stack (step s') = KInst t :: stack s.
Proof. exact discard_sp_normal. Qed.
Print Assumptions c05_discard_normal_mode.

(* ---- no pre-emption ---- *)
(* what the code guarantees, for every reachable moment k at which a coroutine r is in control (in particular right after r
   queued somebody through a discarded suspend point — c05_discard_only_queues leaves r in control) and every continuation n:
   in chronological order, the events that follow contain no `ERun` at all before the first of `ESusp r`, `EFin r`,
   `ENest r _` (r entered async::start()).  `guarded r l`: l = [] or its head is such a marker, or its head is not an ERun
   and the tail is guarded. *)
Theorem c05_no_preempt : forall p m k r n,
  let s := steps k (init p m) in
  cur s = CRun r ->
  exists evs, log (steps n s) = evs ++ log s /\ guarded r (rev evs).
Proof. intros p m k r n s C. apply no_preempt; [apply shape_reach|exact C]. Qed.
Print Assumptions c05_no_preempt.

(* the statement of the property text has no `ENest` escape: *)
(* literal reading: between `EEnq c r discard` (r a coroutine) and the next `ERun c` there is `ESusp r` or `EFin r` *)
Definition no_preempt_literal (t : list event) : Prop :=
  forall i c r, nth_error t i = Some (EEnq c r why_discard) -> r <> 0 ->
  forall j, i < j -> nth_error t j = Some (ERun c) ->
  exists k, i < k < j /\ (nth_error t k = Some (ESusp r) \/ exists x, nth_error t k = Some (EFin r x)).

(* REFUTED on the code as it is (and replayed on the real headers, notes/C05.md): coroutine 1 queues 2 by a discarded
   suspend point, then calls start() on 3; async::start() resumes 3 nested (async.h:55-56); 3 pauses, which hands control
   to the head of the SHARED queue = 2.  2 runs (and finishes) inside 1's call to start(), before 1 suspended. *)
Definition c05_witness : list (list Z) :=
  [[0;9;0]; [0;5;2;0]; [0;5;1;0]; [2;11;0]; [1;10;0;0;1;0]; [1;6;3;1]; [3;2]]%Z.

Theorem c05_no_preempt_literal_refuted :
  exists ops, ~ no_preempt_literal (trace (steps (fuel_of ops) (load ops))).
Proof.
  exists c05_witness. intro H.
  specialize (H 11 2 1). vm_compute in H.
  destruct (H eq_refl ltac:(discriminate) 19 ltac:(lia) eq_refl) as (k & Hk & Hd).
  assert (K : k = 12 \/ k = 13 \/ k = 14 \/ k = 15 \/ k = 16 \/ k = 17 \/ k = 18) by lia.
  destruct K as [K|[K|[K|[K|[K|[K|K]]]]]]; subst k; cbn in Hd; destruct Hd as [Hd|(x&Hd)]; discriminate.
Qed.
Print Assumptions c05_no_preempt_literal_refuted.

(* each_once: in every reachable state the scheduler-side handles (running coroutine, callers blocked inside start(), handles
   waiting inside install_queue_and_call, ready queue) are pairwise distinct and every awaiter chain is duplicate free; a
   coroutine in a chain is in none of the scheduler-side places, in no other chain and is not a co_awaiting parent; a
   co_awaiting parent is in none of those places and waits for one child; exactly the Started coroutines have a handle
   somewhere (nothing is lost, nothing not-yet-started or finished can be resumed) *)
Theorem c05_each_once : forall p m n,
  let s := steps n (init p m) in
  NoDup (held s) /\
  (forall f, NoDup (chain_of (fs s f))) /\
  (forall f c, In c (chain_of (fs s f)) ->
      ~ In c (held s) /\ (forall g, In c (chain_of (fs s g)) -> g = f) /\
      (forall x, stat (cs s x) = Started -> bound (cs s x) <> BParent c)) /\
  (forall x p', stat (cs s x) = Started -> bound (cs s x) = BParent p' ->
      ~ In p' (held s) /\ forall y, stat (cs s y) = Started -> bound (cs s y) = BParent p' -> y = x) /\
  (forall c, In c (held s) \/ (exists f, In c (chain_of (fs s f))) \/ (exists x, stat (cs s x) = Started /\ bound (cs s x) = BParent c) ->
      stat (cs s c) = Started) /\
  (forall c, stat (cs s c) = Started ->
      In c (held s) \/ (exists f, In c (chain_of (fs s f))) \/ (exists x, stat (cs s x) = Started /\ bound (cs s x) = BParent c)).
Proof. exact each_once. Qed.
Print Assumptions c05_each_once.

(* never resumed while already running, never after the body finished: whenever `ERun c` was logged, the earlier events say c
   is not running (never ran, or its last Run was followed by a Susp) and contain no `EFin c` *)
Theorem c05_never_resumed_while_running : forall p m n later c earlier,
  log (steps n (init p m)) = later ++ ERun c :: earlier ->
  rlc c earlier = 0 /\ nev (is_fin c) earlier = 0.
Proof. intros p m n later c earlier E. apply (wf_runs_run later). rewrite <- E. apply runs_reach. Qed.
Print Assumptions c05_never_resumed_while_running.

(* ... and a coroutine only suspends / finishes while it is the one running; the log and the control state agree on who runs *)
Theorem c05_log_matches_control : forall p m n,
  let s := steps n (init p m) in wf_runs (log s) /\ forall c, rlc c (log s) = act s c.
Proof. exact runs_reach. Qed.
Print Assumptions c05_log_matches_control.

(* deq_run: in the newest-first log the event right after an `EDeq x` is `ERun x`; the log never ends in a dangling EDeq *)
Theorem c05_deq_run : forall p m n,
  let s := steps n (init p m) in hd_not_deq (log s) /\ deq_ok (log s).
Proof. intros. apply dq_steps. split; exact I. Qed.
Print Assumptions c05_deq_run.

(* non-vacuity: a reachable state in which a coroutine pauses with two others queued meets the hypotheses of
   c05_pause_round_robin, and the run it belongs to drains *)
Example c05_nonvacuous :
  let ops := [[0;5;1;0]; [1;5;2;0]; [1;5;3;0]; [1;2]; [1;1;7]; [2;1;8]; [3;1;9]]%Z in
  let s := steps 4 (load ops) in
  cur s = CRun 1 /\ script (cs s 1) = [IPause; IEmit 7%Z] /\ queue s = [2; 3] /\
  cur (step s) = CRun 2 /\ queue (step s) = [3; 1] /\
  c05_ok false (trace (steps (fuel_of ops) (load ops))) = true.
Proof. vm_compute. repeat split; reflexivity. Qed.
