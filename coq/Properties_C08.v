(* Properties_C08.v — C08: coroutine mutex, FIFO hand-off and no lost request.
   Statements only, each proved in a few lines from the lemmas of MutexProofs, MutexSched, MutexObs and MutexOwnProofs.
   Same model and vocabulary as Properties_C07. *)
From Cocls Require Import Base BaseProofs MutexDefs MutexProofs MutexSched MutexObs.
From Cocls Require MutexOwnDefs MutexOwnProofs.
Local Open Scope Z_scope.

(* first come, first served: the grants are a prefix of the publishing CASes; the pending requests are, in
   arrival order, the chain in mutex::_queue followed by the reversed chain in mutex::_requests (down to the
   doorman, or to the request of an owner that found the mutex free) *)
Theorem c08_fifo : forall ops s, reachable ops s ->
  exists stack fifo_q b,
    repr (next s) (requests s) stack b /\ repr (next s) (queue s) fifo_q PNull /\
    (b = PNull /\ stack = [] \/ b = PDoor \/ exists o, b = PNode o /\ holds s o /\ gnext s o = PNull /\ fifo_q = []) /\
    alog s = glog s ++ fifo_q ++ rev stack.
Proof. exact fifo. Qed.
Print Assumptions c08_fifo.

(* direct hand-off: while any request is pending the mutex is never free and always has an owner other than
   the waiter — a release with waiters never stores null *)
Theorem c08_direct_handoff : forall ops s w, reachable ops s -> waiting s w ->
  requests s <> PNull /\ exists o, holds s o /\ o <> w.
Proof. intros ops s w R. exact (direct_handoff s w (reachable_inv _ _ R)). Qed.
Print Assumptions c08_direct_handoff.

(* no lost request: once no ownership is outstanding every published request has been granted, nothing is
   waiting, and the mutex is free again (requests = null, queue = null) *)
Theorem c08_no_lost_request : forall ops s, reachable ops s -> (forall c, ~ holds s c) ->
  requests s = PNull /\ queue s = PNull /\ alog s = glog s /\ forall w, ~ waiting s w.
Proof. intros ops s R. exact (no_lost_request s (reachable_inv _ _ R)). Qed.
Print Assumptions c08_no_lost_request.

(* try_lock: one step, succeeds exactly when nobody owns the mutex, and a failed try publishes nothing *)
Theorem c08_try_lock : forall ops s t c, reachable ops s -> run (gthr s t) = TRun c ->
  tpc (gtask s c) = PTry -> cacq (gtask s c) = ATry ->
  let s' := fst (fst (tstep s t)) in
  ((forall o, ~ holds s o) -> holds s' c /\ requests s' = PDoor /\ alog s' = alog s) /\
  ((exists o, holds s o) -> s' = set_task s c (t_endround (gtask s c) true) /\ ~ holds s' c /\ ~ waiting s' c).
Proof. exact try_lock. Qed.
Print Assumptions c08_try_lock.

(* deadlock freedom: while any declared contender is unfinished, some OS thread has an enabled step
   (its owner can run and release; a granted coroutine sits in the ready queue of a thread that is not blocked) *)
Theorem c08_no_stuck_state : forall ops s c, reachable ops s -> (c < length (tasks s))%nat -> tpc (gtask s c) <> PDone ->
  exists t, enabled s t = true.
Proof. exact no_stuck_state. Qed.
Print Assumptions c08_no_stuck_state.

(* hence a run can only stop when every contender finished all its rounds, and then the mutex is free again and
   every published request was granted *)
Theorem c08_terminal_all_done : forall ops s, reachable ops s -> (forall t, enabled s t = false) ->
  (forall c, tpc (gtask s c) = PDone) /\ requests s = PNull /\ queue s = PNull /\ alog s = glog s.
Proof. exact terminal_all_done. Qed.
Print Assumptions c08_terminal_all_done.

(* bounded waiting: the grants preceding the grant of a pending request w are exactly the requests pending ahead
   of it (each once, all published before w): at most (number of requests published before w) grants *)
Theorem c08_bounded_waiting : forall ops s w, reachable ops s -> waiting s w ->
  exists a b, alog s = glog s ++ a ++ w :: b /\ ~ In w a /\ (forall x, In x a -> waiting s x).
Proof.
  intros ops s w R W. destruct (grant_once s (reachable_inv _ _ R)) as (pend & E & ND & M & _).
  apply M in W. destruct (in_split _ _ W) as (a & b & ->). exists a, b. split; [exact E|].
  split; [intro Q; apply (NoDup_remove_2 _ _ _ ND), in_or_app; auto|intros x Hx; apply M, in_or_app; auto].
Qed.
Print Assumptions c08_bounded_waiting.

(* fragment of oracle soundness: the final observation block of any run that stopped: no error line, no stuck
   thread (no deadlock line), last line "8 0 1 1" (no overlap, requests = null, queue = null), every contender done *)
Theorem c08_final_block : forall ops s, reachable ops s -> (forall t, enabled s t = false) ->
  err s = false /\ stuck_list (thrs s) 0 = [] /\
  [8; b2z (ovl s); is_null (requests s); is_null (queue s)] = [8; 0; 1; 1] /\
  (forall c, tpc (gtask s c) = PDone) /\ alog s = glog s.
Proof. exact final_block. Qed.
Print Assumptions c08_final_block.

(* ownership objects: every way of giving an ownership up (release(), destruction, being overwritten by a move
   assignment or by the grant of a callback request) unlocks or hands over exactly once - the counting invariant
   "objects holding m (+ a grant in flight) = [m is locked]" is preserved by every operation -, so once no object
   holds anything every mutex is free again and no request is left pending *)
Theorem c08_ownership_invariant : forall s op, MutexOwnProofs.OK s -> MutexOwnProofs.OK (fst (MutexOwnDefs.wstep s op)).
Proof. exact MutexOwnProofs.wstep_inv. Qed.
Print Assumptions c08_ownership_invariant.

Theorem c08_all_released_free : forall s, MutexOwnProofs.wreach s -> (forall j, MutexOwnDefs.gslot s j = None) ->
  forall m, MutexOwnDefs.locked (MutexOwnDefs.gmx s m) = false /\ MutexOwnDefs.waitq (MutexOwnDefs.gmx s m) = [].
Proof. exact MutexOwnProofs.own_released_free. Qed.
Print Assumptions c08_all_released_free.

(* the invariant behind all of this is inductive over every step of every thread *)
Theorem c08_invariant_inductive : forall s t, SInv s -> enabled s t = true -> SInv (fst (fst (tstep s t))).
Proof. exact step_inv. Qed.
Print Assumptions c08_invariant_inductive.

(* non-vacuity: three waiters queue up behind owner 0 in the order 2, 1, 3; after the owner's release
   (build_queue + hand-over) task 2 owns the mutex and 1, 3 are in the FIFO in arrival order *)
Example c08_nonvacuous :
  let ops := [[1;0;0;0]; [1;0;0;2]; [1;0;0;1]; [1;1;0;0]; [9; 0;0; 2;2;2;2; 1;1;1;1; 3;3;3;3; 0;0;0;0]]%Z in
  let s := fst (run_sched 18 (init ops) (flat_map decode_sched ops) []) in
  reachable ops s /\ alog s = [2; 1; 3]%nat /\ glog s = [2]%nat /\ holds s 2 /\ requests s = PDoor /\
  queue s = PNode 1 /\ gnext s 1 = PNode 3 /\ gnext s 3 = PNull /\ waiting s 1 /\ waiting s 3.
Proof.
  split; [apply run_sched_reachable; apply r_init|]. vm_compute. repeat split.
Qed.
