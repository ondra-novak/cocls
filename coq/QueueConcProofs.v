(* QueueConcProofs.v — the interleaving model of QueueDefs.v (producer / consumer / unblock_pop / unblock_push / size /
   destroy threads over queue<T> or limited_queue<T>, pushes and pops split at the unlock): invariants preserved by EVERY step of EVERY thread, hence true
   after every schedule, for any number of threads, any limit, any values. *)
From Cocls Require Import Base BaseProofs QueueDefs.
Require Import ZifyBool Sorted.
Local Open Scope Z_scope.

Definition t_reachable (limit : option Z) (thrs : list thr) (s : tstate) : Prop :=
  exists sched fuel tr, s = fst (t_run_sched fuel (t_init limit thrs) sched tr).

Lemma t_enabled_list_sound s n : forall from x, In x (t_enabled_list s n from) -> t_enabled s x = true.
Proof.
  induction n as [|n IH]; intros from x H; cbn [t_enabled_list] in H; [contradiction|].
  apply in_app_or in H as [H|H]; [|exact (IH _ _ H)].
  destruct (t_enabled s from) eqn:E; [|contradiction]. destruct H as [<-|[]]. exact E.
Qed.

Lemma t_pick_enabled s k i : t_pick s k = Some i -> t_enabled s i = true.
Proof.
  unfold t_pick. destruct (t_all_enabled s) as [|a en] eqn:E; [discriminate|]. intros H.
  assert (i = nth (Z.to_nat (Z.abs k mod zlen (a :: en))) (a :: en) 0%nat) as -> by congruence.
  apply (t_enabled_list_sound s (length (t_thr s)) 0). fold (t_all_enabled s). rewrite E.
  apply nth_mod_In. discriminate.
Qed.

Lemma t_run_inv (P : tstate -> Prop) :
  (forall s i, P s -> t_enabled s i = true -> P (fst (tstep s i))) ->
  forall fuel s sched tr, P s -> P (fst (t_run_sched fuel s sched tr)).
Proof.
  intros Hstep. induction fuel as [|f IH]; intros s sched tr H; cbn [t_run_sched fst]; [exact H|].
  destruct (t_pick s _) as [i|] eqn:PK; [|exact H].
  specialize (Hstep s i H (t_pick_enabled _ _ _ PK)). destruct (tstep s i) as [s1 code]. cbn [fst] in Hstep. apply IH. exact Hstep.
Qed.

Lemma t_reachable_inv (P : tstate -> Prop) limit thrs :
  P (t_init limit thrs) -> (forall s i, P s -> t_enabled s i = true -> P (fst (tstep s i))) -> forall s, t_reachable limit thrs s -> P s.
Proof. intros H0 Hs s (sched & fuel & tr & ->). apply t_run_inv; assumption. Qed.

Definition o_items (c : nat) (o : outcome) : list (nat * titem) := match o with OItem it => [(c, it)] | _ => [] end.
Definition ritems (l : list (nat * outcome)) : list (nat * titem) := flat_map (fun x => o_items (fst x) (snd x)) l.
Definition iitems (l : list (nat * (nat * outcome))) : list (nat * titem) :=
  flat_map (fun x => o_items (fst (snd x)) (snd (snd x))) l.

Lemma ritems_app a b : ritems (a ++ b) = ritems a ++ ritems b.
Proof. apply flat_map_app. Qed.
Lemma iitems_app a b : iitems (a ++ b) = iitems a ++ iitems b.
Proof. apply flat_map_app. Qed.

Lemma iitems_remove i l c o : afind i l = Some (c, o) ->
  Permutation (iitems l) (o_items c o ++ iitems (aremove i l)).
Proof.
  induction l as [|[k [c' o']] t IH]; cbn [afind aremove]; [discriminate|].
  destruct (Nat.eqb i k) eqn:E.
  - intros H. injection H as -> ->. cbn [iitems flat_map fst snd]. apply Permutation_refl.
  - intros H. specialize (IH H). cbn [iitems flat_map fst snd]. fold (iitems t). fold (iitems (aremove i t)).
    rewrite IH. rewrite !app_assoc. apply Permutation_app_tail. apply Permutation_app_comm.
Qed.

Definition of_p (p : nat) (it : titem) : bool := Nat.eqb (it_p it) p.
Definition p_items (p : nat) (vals : list Z) (k : nat) : list titem := map (fun j => mkIt p j (nth j vals 0)) (seq 0 k).
Definition expected_plog (p : nat) (t : option thr) : list titem :=
  match t with Some (TProd vals k _ _ _) => p_items p vals k | _ => [] end.
Definition limit_ok (l : option Z) : Prop := match l with Some n => 1 <= n | None => True end.

(* the items that are matched, queued or held by blocked pushes, in that order *)
Definition t_chain (s : tstate) : list titem := map snd (t_alog s) ++ t_items s ++ map fst (t_blocked s).
Definition bound (t : option thr) : nat := match t with Some (TProd _ k _ _ _) => k | _ => 0%nat end.
Definition keys (p : nat) (C : list titem) : list nat := map it_k (filter (of_p p) C).
Definition psorted (p : nat) (t : option thr) (C : list titem) : Prop :=
  StronglySorted lt (keys p C) /\ Forall (fun j => (j < bound t)%nat) (keys p C).

(* tc_limit, tc_full, tc_wait are the queue discipline; tc_plog, tc_perm and tc_prod give tq_conservation; tc_sorted gives
   the two order theorems of QueueOrderProofs *)
Record tcons (s : tstate) : Prop := mkTcons {
  tc_limit : limit_ok (t_limit s);
  tc_full : t_blocked s <> [] -> full s = true;
  tc_wait : t_waiters s <> [] -> t_items s = [] /\ t_blocked s = [];
  tc_plog : Permutation (t_plog s) (t_chain s ++ t_wlog s ++ t_dlog s);
  tc_perm : Permutation (t_alog s) (ritems (t_rlog s) ++ iitems (t_infl s));
  tc_prod : forall p, filter (of_p p) (t_plog s) = expected_plog p (nth_error (t_thr s) p);
  tc_sorted : forall p, psorted p (nth_error (t_thr s) p) (t_chain s)
}.

Lemma nth_error_set_same {A} (l : list A) i x y : nth_error l i = Some y -> nth_error (set_nth l i x) i = Some x.
Proof. intros H. apply nth_error_set_nth_same. apply nth_error_Some. congruence. Qed.

Lemma p_items_S p vals k : p_items p vals (S k) = p_items p vals k ++ [mkIt p k (nth k vals 0)].
Proof. unfold p_items. rewrite seq_S, map_app. reflexivity. Qed.

(* effect of a step on the thread table and the push log, abstractly *)
Lemma expected_after s i t t' plog' :
  nth_error (t_thr s) i = Some t ->
  (forall p, filter (of_p p) (t_plog s) = expected_plog p (nth_error (t_thr s) p)) ->
  (plog' = t_plog s /\ expected_plog i (Some t') = expected_plog i (Some t)) \/
  (exists it, plog' = t_plog s ++ [it] /\ it_p it = i /\ expected_plog i (Some t') = expected_plog i (Some t) ++ [it]) ->
  forall p, filter (of_p p) plog' = expected_plog p (nth_error (set_nth (t_thr s) i t') p).
Proof.
  intros T H C p. destruct (Nat.eq_dec i p) as [<-|NE].
  - rewrite (nth_error_set_same _ _ _ _ T). specialize (H i). rewrite T in H.
    destruct C as [[-> E]|(it & -> & P & E)]; rewrite E, <- H; [reflexivity|].
    rewrite filter_snoc. unfold of_p at 2. rewrite P, Nat.eqb_refl. reflexivity.
  - rewrite nth_error_set_nth_other by exact NE. rewrite <- (H p).
    destruct C as [[-> _]|(it & -> & P & _)]; [reflexivity|].
    rewrite filter_snoc. unfold of_p at 2. rewrite P. assert (Nat.eqb i p = false) as -> by (apply Nat.eqb_neq; exact NE).
    apply app_nil_r.
Qed.

Lemma SS_app_l {A} (R : A -> A -> Prop) a b : StronglySorted R (a ++ b) -> StronglySorted R a.
Proof.
  induction a as [|x a IH]; intros H; [constructor|]. cbn [app] in H. inversion H as [|? ? S F]; subst.
  constructor; [apply IH; exact S|]. apply Forall_app in F. apply F.
Qed.
Lemma SS_app_r {A} (R : A -> A -> Prop) a b : StronglySorted R (a ++ b) -> StronglySorted R b.
Proof. induction a as [|x a IH]; intros H; [exact H|]. cbn [app] in H. inversion H; subst. apply IH. assumption. Qed.
Lemma SS_remove_mid {A} (R : A -> A -> Prop) a b d : StronglySorted R (a ++ b ++ d) -> StronglySorted R (a ++ d).
Proof.
  induction a as [|x a IH]; intros H; cbn [app] in *; [exact (SS_app_r _ _ _ H)|].
  inversion H as [|? ? S F]; subst. constructor; [apply IH; exact S|].
  apply Forall_app in F as [F1 F2]. apply Forall_app in F2 as [_ F3]. apply Forall_app. split; assumption.
Qed.
Lemma SS_snoc l x : StronglySorted lt l -> Forall (fun j => (j < x)%nat) l -> StronglySorted lt (l ++ [x]).
Proof.
  induction l as [|y l IH]; intros S F; cbn [app]; [constructor; constructor|].
  inversion S as [|? ? S' F']; subst. inversion F as [|? ? Fy Fl]; subst.
  constructor; [apply IH; assumption|]. apply Forall_app. split; [exact F'|constructor; [exact Fy|constructor]].
Qed.

Lemma keys_app p a b : keys p (a ++ b) = keys p a ++ keys p b.
Proof. unfold keys. rewrite filter_app, map_app. reflexivity. Qed.

Lemma keys_single p it : keys p [it] = if Nat.eqb (it_p it) p then [it_k it] else [].
Proof. unfold keys, of_p. cbn [filter]. destruct (Nat.eqb (it_p it) p); reflexivity. Qed.

(* effect of a step on the chain: unchanged, one item of thread i appended, or a contiguous block removed *)
Lemma sorted_after s i t t' C' :
  nth_error (t_thr s) i = Some t ->
  (forall p, psorted p (nth_error (t_thr s) p) (t_chain s)) ->
  (C' = t_chain s /\ bound (Some t') = bound (Some t)) \/
  (exists it, C' = t_chain s ++ [it] /\ it_p it = i /\ it_k it = bound (Some t) /\ bound (Some t') = S (bound (Some t))) \/
  (exists a b d, t_chain s = a ++ b ++ d /\ C' = a ++ d /\ bound (Some t') = bound (Some t)) ->
  forall p, psorted p (nth_error (set_nth (t_thr s) i t') p) C'.
Proof.
  intros T H C p. unfold psorted in *. specialize (H p).
  assert (bound (nth_error (set_nth (t_thr s) i t') p) = if Nat.eqb i p then bound (Some t') else bound (nth_error (t_thr s) p)) as BE.
  { destruct (Nat.eqb i p) eqn:E.
    - apply Nat.eqb_eq in E. subst p. rewrite (nth_error_set_same _ _ _ _ T). reflexivity.
    - apply Nat.eqb_neq in E. rewrite nth_error_set_nth_other by exact E. reflexivity. }
  rewrite BE. clear BE.
  destruct C as [[-> E]|[(it & -> & P & EK & E)|(a & b & d & EC & -> & E)]].
  - destruct (Nat.eqb i p) eqn:EQ; [|exact H]. apply Nat.eqb_eq in EQ. subst p. rewrite E. rewrite T in H. exact H.
  - rewrite keys_app, keys_single, P, EK.
    destruct (Nat.eqb i p) eqn:EQ.
    + apply Nat.eqb_eq in EQ. subst p. rewrite T in H. rewrite E. destruct H as [S F]. split.
      * apply SS_snoc; assumption.
      * apply Forall_app. split; [|constructor; [lia|constructor]]. eapply Forall_impl; [|exact F]. cbn. intros; lia.
    + rewrite app_nil_r. exact H.
  - rewrite EC in H. rewrite !keys_app in *. destruct H as [S F].
    assert (StronglySorted lt (keys p a ++ keys p d) /\ Forall (fun j => (j < bound (nth_error (t_thr s) p))%nat) (keys p a ++ keys p d)) as [S' F'].
    { split; [exact (SS_remove_mid _ _ _ _ S)|]. apply Forall_app in F as [F1 F2]. apply Forall_app in F2 as [_ F3].
      apply Forall_app. split; assumption. }
    destruct (Nat.eqb i p) eqn:EQ; [|split; assumption]. apply Nat.eqb_eq in EQ. subst p. rewrite E. rewrite T in F'. split; assumption.
Qed.

Ltac tf := cbn [t_items t_waiters t_blocked t_limit t_dead t_infl t_cinfl t_rlog t_pdone t_alog t_plog t_wlog t_dlog t_thr fst snd] in *.

Lemma zlen_snoc_cons {A} (x y : A) t : zlen (t ++ [y]) = zlen (x :: t).
Proof. unfold zlen. rewrite app_length. cbn [length]. lia. Qed.

Lemma perm_ins1 {A} (x : A) l a r : Permutation l (a ++ r) -> Permutation (l ++ [x]) (a ++ [x] ++ r).
Proof. intros H. etransitivity; [symmetry; apply Permutation_cons_append|]. apply Permutation_cons_app. exact H. Qed.
Lemma perm_ins2 {A} (x : A) l a b r : Permutation l (a ++ b ++ r) -> Permutation (l ++ [x]) (a ++ b ++ [x] ++ r).
Proof. intros H. rewrite app_assoc in *. apply perm_ins1. exact H. Qed.
Lemma perm_ins3 {A} (x : A) l a b c r : Permutation l (a ++ b ++ c ++ r) -> Permutation (l ++ [x]) (a ++ b ++ c ++ [x] ++ r).
Proof. intros H. rewrite app_assoc in *. apply perm_ins2. exact H. Qed.

Lemma ritems_cancel (w : list nat) : ritems (map (fun c => (c, OCancel)) w) = [].
Proof. induction w as [|c w IH]; [reflexivity|]. cbn [map ritems flat_map fst snd o_items app]. exact IH. Qed.

Lemma chain_eq s : t_chain s = map snd (t_alog s) ++ t_items s ++ map fst (t_blocked s).
Proof. reflexivity. Qed.

(* steps that change nothing but thread i's own entry (same number of pushes) *)
Ltac thr_only T Prod Srt :=
  first [ apply (expected_after _ _ _ _ _ T Prod); left; split; reflexivity
        | apply (sorted_after _ _ _ _ _ T Srt); left; split; [|reflexivity]; unfold t_chain;
          try (match goal with H : t_blocked _ = _ |- _ => rewrite H end);
          try (match goal with H : t_items _ = _ |- _ => rewrite H end); reflexivity ].

Lemma tcons_room s : tcons s -> full s = false -> t_blocked s = [].
Proof.
  intros C F. destruct (t_blocked s) eqn:B; [reflexivity|].
  assert (full s = true) as X by (apply (tc_full s C); rewrite B; discriminate). congruence.
Qed.
Lemma tcons_empty s : tcons s -> t_items s = [] -> t_blocked s = [].
Proof.
  intros C I. apply (tcons_room s C). pose proof (tc_limit s C) as L. unfold full. rewrite I.
  destruct (t_limit s); [|reflexivity]. cbn in *. lia.
Qed.

Lemma tcons_resolve_pop s i : tcons s -> tcons (resolve_pop s i).
Proof.
  intros [L Full Wait Plog Perm Prod Srt]. unfold resolve_pop. destruct (afind i (t_infl s)) as [[c o]|] eqn:AF; [|split; assumption].
  split; unfold t_chain in *; tf; try assumption.
  rewrite ritems_app. cbn [ritems flat_map fst snd app]. rewrite app_nil_r. rewrite Perm.
  rewrite <- app_assoc. apply Permutation_app_head. apply iitems_remove. exact AF.
Qed.
Lemma tcons_resolve_push s i : tcons s -> tcons (resolve_push s i).
Proof.
  intros [L Full Wait Plog Perm Prod Srt]. unfold resolve_push. destruct (afind i (t_cinfl s)) as [[p code]|]; [|split; assumption].
  split; unfold t_chain in *; tf; assumption.
Qed.
Lemma resolve_pop_thr s i : t_thr (resolve_pop s i) = t_thr s.
Proof. unfold resolve_pop. destruct (afind i (t_infl s)) as [[c o]|]; reflexivity. Qed.
Lemma resolve_push_thr s i : t_thr (resolve_push s i) = t_thr s.
Proof. unfold resolve_push. destruct (afind i (t_cinfl s)) as [[c o]|]; reflexivity. Qed.

(* replacing thread i's entry by one with the same push count *)
Lemma tcons_with_thr s i t t' : tcons s -> nth_error (t_thr s) i = Some t ->
  expected_plog i (Some t') = expected_plog i (Some t) -> bound (Some t') = bound (Some t) ->
  tcons (with_thr s (set_nth (t_thr s) i t')).
Proof.
  intros [L Full Wait Plog Perm Prod Srt] T E1 E2. split; unfold with_thr, t_chain in *; tf; try assumption.
  - apply (expected_after _ _ _ _ _ T Prod). left. split; [reflexivity|exact E1].
  - apply (sorted_after _ _ _ _ _ T Srt). left. split; [reflexivity|exact E2].
Qed.

(* what thread i is and where it stands: producer idle / resolving (rb: blocked) / waiting (b), consumer idle / resolving /
   waiting, unblock_pop, unblock_push and size idle / resolving, destroyer; last, no such thread *)
Ltac thread_cases s i T :=
  destruct (nth_error (t_thr s) i)
    as [[vals k [|rb|b] nb rets | n issued [| |] | n e [|] rets | n e [|] rets | n [|] rets | d]|] eqn:T.

Ltac tcons_fields Plog :=
  split; unfold t_chain in *; tf; try assumption; try (intros ?HH; congruence); try (rewrite <- ?app_assoc; exact Plog).

Lemma tcons_step s i : tcons s -> tcons (fst (tstep s i)).
Proof.
  intros O. pose proof O as [L Full Wait Plog Perm Prod Srt]. unfold tstep. unfold t_chain in Plog. rewrite <- ?app_assoc in Plog.
  thread_cases s i T;
    [..|exact O].
  - (* producer, critical section *)
    destruct (t_waiters s) as [|c w] eqn:W; [destruct (full s) eqn:F|]; cbn [fst].
    + (* blocks *)
      tcons_fields Plog.
      * intros _. unfold full in *. tf. exact F.
      * rewrite (map_app fst). cbn [map fst]. rewrite <- !app_assoc. apply perm_ins3. exact Plog.
      * apply (expected_after s i _ _ _ T Prod). right. eexists. split; [reflexivity|]. split; [reflexivity|]. apply p_items_S.
      * apply (sorted_after s i _ _ _ T Srt). right; left. exists (mkIt i k (nth k vals 0)). split; [|repeat split].
        unfold t_chain. rewrite (map_app fst). cbn [map fst]. rewrite <- !app_assoc. reflexivity.
    + (* enqueues: nobody is blocked *)
      pose proof (tcons_room s O F) as EB.
      tcons_fields Plog.
      * rewrite EB in *. cbn [map app] in *. rewrite <- !app_assoc. apply perm_ins2. exact Plog.
      * apply (expected_after s i _ _ _ T Prod). right. eexists. split; [reflexivity|]. split; [reflexivity|]. apply p_items_S.
      * apply (sorted_after s i _ _ _ T Srt). right; left. exists (mkIt i k (nth k vals 0)). split; [|repeat split].
        unfold t_chain. rewrite EB. cbn [map]. rewrite !app_nil_r. rewrite <- !app_assoc. reflexivity.
    + (* hand-over *)
      destruct Wait as [EI EB]; [discriminate|].
      tcons_fields Plog.
      * intros H. split; assumption.
      * rewrite EI, EB in *. cbn [map app] in *. rewrite (map_app snd). cbn [map snd]. rewrite <- !app_assoc. apply perm_ins1. exact Plog.
      * rewrite iitems_app. cbn [iitems flat_map fst snd o_items app]. rewrite app_assoc. apply Permutation_app_tail. exact Perm.
      * apply (expected_after s i _ _ _ T Prod). right. eexists. split; [reflexivity|]. split; [reflexivity|]. apply p_items_S.
      * apply (sorted_after s i _ _ _ T Srt). right; left. exists (mkIt i k (nth k vals 0)). split; [|repeat split].
        unfold t_chain. rewrite EI, EB. cbn [map app]. rewrite !app_nil_r. rewrite (map_app snd). reflexivity.
  - (* producer, after the unlock: resolution of the taken promise, if any *)
    cbn [fst]. pose proof (tcons_resolve_pop s i O) as O1. rewrite <- (resolve_pop_thr s i) in T.
    destruct rb; apply (tcons_with_thr _ i _ _ O1 T); reflexivity.
  - (* producer, wake *)
    cbn [fst]. apply (tcons_with_thr s i _ _ O T); reflexivity.
  - (* consumer, critical section *)
    destruct (t_items s) as [|it t] eqn:I; [|destruct (t_blocked s) as [|[y p] b] eqn:B]; cbn [fst].
    + pose proof (tcons_empty s O I) as EB.
      tcons_fields Plog.
      * intros _. split; [reflexivity|exact EB].
      * thr_only T Prod Srt.
      * apply (sorted_after s i _ _ _ T Srt). left. split; [|reflexivity]. unfold t_chain. rewrite I. reflexivity.
    + assert (t_waiters s = []) as EW by (destruct (t_waiters s); [reflexivity|]; destruct Wait as [X _]; [discriminate|discriminate]).
      tcons_fields Plog.
      * rewrite (map_app snd). cbn [map snd app] in *. rewrite <- !app_assoc. exact Plog.
      * rewrite ritems_app. cbn [ritems flat_map fst snd o_items app]. rewrite <- app_assoc.
        rewrite (Permutation_app_comm [(i, it)]). rewrite app_assoc. apply Permutation_app_tail. exact Perm.
      * thr_only T Prod Srt.
      * apply (sorted_after s i _ _ _ T Srt). left. split; [|reflexivity]. unfold t_chain. rewrite I, B.
        rewrite (map_app snd). cbn [map snd app]. rewrite <- !app_assoc. reflexivity.
    + assert (t_waiters s = []) as EW by (destruct (t_waiters s); [reflexivity|]; destruct Wait as [X _]; [discriminate|discriminate]).
      tcons_fields Plog.
      * intros _. assert (full s = true) as F by (apply Full; discriminate). unfold full in *. tf. rewrite I in F.
        destruct (t_limit s); [|discriminate]. rewrite (zlen_snoc_cons it y t). exact F.
      * rewrite (map_app snd). cbn [map snd fst app] in *. rewrite <- !app_assoc. cbn [app]. exact Plog.
      * rewrite ritems_app. cbn [ritems flat_map fst snd o_items app]. rewrite <- app_assoc.
        rewrite (Permutation_app_comm [(i, it)]). rewrite app_assoc. apply Permutation_app_tail. exact Perm.
      * thr_only T Prod Srt.
      * apply (sorted_after s i _ _ _ T Srt). left. split; [|reflexivity]. unfold t_chain. rewrite I, B.
        rewrite (map_app snd). cbn [map snd fst app]. rewrite <- !app_assoc. reflexivity.
  - (* consumer, resolution of the blocked push *)
    cbn [fst]. pose proof (tcons_resolve_push s i O) as O1. rewrite <- (resolve_push_thr s i) in T.
    apply (tcons_with_thr _ i _ _ O1 T); reflexivity.
  - (* consumer, wake *)
    cbn [fst]. apply (tcons_with_thr s i _ _ O T); reflexivity.
  - (* unblock_pop, critical section *)
    destruct (t_waiters s) as [|c w] eqn:W; cbn [fst].
    + rewrite <- W. apply (tcons_with_thr s i _ _ O T); reflexivity.
    + tcons_fields Plog; try thr_only T Prod Srt.
      * intros _. apply Wait. discriminate.
      * rewrite iitems_app. cbn [iitems flat_map fst snd o_items app]. rewrite !app_nil_r. exact Perm.
  - (* unblock_pop, resolution *)
    cbn [fst]. pose proof (tcons_resolve_pop s i O) as O1. rewrite <- (resolve_pop_thr s i) in T.
    apply (tcons_with_thr _ i _ _ O1 T); reflexivity.
  - (* unblock_push, critical section *)
    destruct (t_blocked s) as [|[y p] b] eqn:B; cbn [fst].
    + rewrite <- B. apply (tcons_with_thr s i _ _ O T); reflexivity.
    + tcons_fields Plog; try thr_only T Prod Srt.
      * intros _. apply Full. discriminate.
      * intros H. destruct (Wait H) as [_ X]. discriminate.
      * etransitivity; [exact Plog|]. cbn [map fst app]. rewrite <- !app_assoc. do 2 apply Permutation_app_head. cbn [app].
        rewrite (app_assoc (map fst b) (t_wlog s)). rewrite (app_assoc (map fst b) (t_wlog s) (y :: _)).
        apply Permutation_cons_app. reflexivity.
      * apply (sorted_after s i _ _ _ T Srt). right; right. exists (map snd (t_alog s) ++ t_items s), [y], (map fst b).
        split; [unfold t_chain; rewrite B; cbn [map fst app]; rewrite <- app_assoc; reflexivity|].
        split; [rewrite <- app_assoc; reflexivity|reflexivity].
  - (* unblock_push, resolution *)
    cbn [fst]. pose proof (tcons_resolve_push s i O) as O1. rewrite <- (resolve_push_thr s i) in T.
    apply (tcons_with_thr _ i _ _ O1 T); reflexivity.
  - (* size *)
    cbn [fst]. apply (tcons_with_thr s i _ _ O T); reflexivity.
  - cbn [fst]. apply (tcons_with_thr s i _ _ O T); reflexivity.
  - (* destroy *)
    cbn [fst]. tcons_fields Plog; try thr_only T Prod Srt.
    + etransitivity; [exact Plog|]. cbn [map app]. rewrite app_nil_r. apply Permutation_app_head.
      rewrite (app_assoc (t_items s)). rewrite (app_assoc (t_wlog s)). apply Permutation_app_comm.
    + rewrite ritems_app. rewrite ritems_cancel.
      rewrite app_nil_r. exact Perm.
    + apply (sorted_after s i _ _ _ T Srt). right; right. exists (map snd (t_alog s)), (t_items s ++ map fst (t_blocked s)), [].
      split; [unfold t_chain; rewrite app_nil_r; reflexivity|]. split; [cbn [map]; rewrite !app_nil_r; reflexivity|reflexivity].
Qed.

Definition t_fresh (t : thr) : Prop :=
  match t with
  | TProd _ k pc _ _ => k = 0%nat /\ pc = PIdle
  | TCons _ issued pc => issued = 0%nat /\ pc = CIdle
  | TUnb _ _ pc _ => pc = UIdle
  | TUnbPush _ _ pc _ => pc = UIdle
  | TSize _ pc _ => pc = UIdle
  | TDestroy _ => True
  end.

(* as the decoder creates it: t_fresh and nothing reported yet (the trace oracle needs the latter) *)
Definition t_new (t : thr) : Prop :=
  match t with
  | TProd _ k pc _ rets => k = 0%nat /\ pc = PIdle /\ rets = []
  | TCons _ issued pc => issued = 0%nat /\ pc = CIdle
  | TUnb _ _ pc rets => pc = UIdle /\ rets = []
  | TUnbPush _ _ pc rets => pc = UIdle /\ rets = []
  | TSize _ pc rets => pc = UIdle /\ rets = []
  | TDestroy d => d = false
  end.
Lemma t_new_fresh t : t_new t -> t_fresh t.
Proof. destruct t; cbn; tauto. Qed.
Lemma t_decode_new lim ops : Forall t_new (flat_map (t_decode_thr lim) ops).
Proof.
  induction ops as [|l ops IH]; cbn [flat_map]; [constructor|]. apply Forall_app. split; [|exact IH].
  unfold t_decode_thr.
  repeat (match goal with |- Forall _ (match ?x with _ => _ end) => destruct x end; try (constructor; fail));
    try (constructor; [cbn; auto|constructor]).
Qed.
Lemma t_decode_fresh lim ops : Forall t_fresh (flat_map (t_decode_thr lim) ops).
Proof. eapply Forall_impl; [exact t_new_fresh|apply t_decode_new]. Qed.

Lemma tcons_init limit thrs : limit_ok limit -> Forall t_fresh thrs -> tcons (t_init limit thrs).
Proof.
  intros L F. split; unfold t_chain; cbn [t_init t_items t_waiters t_blocked t_limit t_infl t_cinfl t_rlog t_pdone t_alog t_plog t_wlog t_dlog t_thr map app];
    try assumption; try reflexivity; try (intros H; congruence).
  - intros p. cbn [filter]. destruct (nth_error thrs p) as [t|] eqn:E; [|reflexivity].
    apply nth_error_In in E. rewrite Forall_forall in F. specialize (F t E).
    destruct t; cbn [expected_plog]; try reflexivity. destruct F as [-> _]. reflexivity.
  - intros p. split; cbn [filter map]; constructor.
Qed.

Lemma tcons_reachable limit thrs s : limit_ok limit -> Forall t_fresh thrs -> t_reachable limit thrs s -> tcons s.
Proof. intros L F. apply t_reachable_inv; [apply tcons_init; assumption|intros; apply tcons_step; assumption]. Qed.

Lemma NoDup_by_producer (l : list titem) : (forall p, NoDup (filter (of_p p) l)) -> NoDup l.
Proof.
  induction l as [|x t IH]; intros H; [constructor|].
  assert (forall p, NoDup (filter (of_p p) t)) as Ht.
  { intros p. specialize (H p). cbn [filter] in H. destruct (of_p p x); [inversion H; assumption|exact H]. }
  constructor; [|apply IH; exact Ht].
  intros IN. specialize (H (it_p x)). cbn [filter] in H. unfold of_p at 1 in H. rewrite Nat.eqb_refl in H.
  inversion H as [|? ? NI _]; subst. apply NI. apply filter_In. split; [exact IN|]. unfold of_p. apply Nat.eqb_refl.
Qed.

Lemma p_items_NoDup p vals k : NoDup (p_items p vals k).
Proof.
  unfold p_items. apply FinFun.Injective_map_NoDup; [|apply seq_NoDup].
  intros a b H. injection H as H _. exact H.
Qed.

(* conservation for every schedule: what the producers have pushed so far (each producer's first k values, tagged, hence
   pairwise distinct) is, as a multiset, what the pops have received + what is in flight between a critical section and
   the resolution of the taken promise + what is queued + what blocked pushes hold + what unblock_push withdrew + what was
   destroyed with the queue; items and waiting consumers are never both present *)
Theorem tq_conservation limit thrs s : limit_ok limit -> Forall t_fresh thrs -> t_reachable limit thrs s ->
  NoDup (t_plog s) /\
  Permutation (t_plog s)
    (map snd (ritems (t_rlog s)) ++ map snd (iitems (t_infl s)) ++ t_items s ++ map fst (t_blocked s) ++ t_wlog s ++ t_dlog s) /\
  (forall p, filter (of_p p) (t_plog s) = expected_plog p (nth_error (t_thr s) p)) /\
  (t_items s = [] \/ t_waiters s = []).
Proof.
  intros L F R. destruct (tcons_reachable _ _ _ L F R) as [_ Full Wait Plog Perm Prod _]. repeat split.
  - apply NoDup_by_producer. intros p. rewrite Prod. destruct (nth_error (t_thr s) p) as [[]|]; cbn [expected_plog]; try constructor.
    apply p_items_NoDup.
  - rewrite Plog. unfold t_chain. rewrite <- !app_assoc. rewrite (app_assoc (map snd (ritems (t_rlog s)))). apply Permutation_app_tail.
    rewrite <- map_app. apply Permutation_map. exact Perm.
  - exact Prod.
  - destruct (t_waiters s); [right; reflexivity|left]. apply Wait. discriminate.
Qed.
