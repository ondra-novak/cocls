(* Properties_C19.v — C19: coroutine storage policies give every frame exclusive, correctly freed memory.
   Only statements, each proved in a line or two from the lemmas of StorageProofs, StorageMtProofs, StorageOracleProofs
   and StorageObjProofs.
   Quantification: every policy, every history of Init/Create/Finish/Destroy (any length, any frame sizes, any
   parameters); for reusable_storage_mtsafe additionally every number of threads, every program per thread and every
   schedule (mt_reach = closure of the initial state under steps of arbitrary threads).
   `contract_ok pol l` is the documented usage contract of the single-block policies (reusable_storage,
   placement_alloc, reusable_buffer_storage: one live frame at a time, placement memory large enough); it holds
   for every history of default / mtsafe / stack storage (c19_contract_free). *)
From Cocls Require Import Base BaseProofs StorageDefs StorageProofs StorageMtProofs StorageOracleProofs StorageObjDefs StorageObjProofs.
Local Open Scope Z_scope.

Theorem c19_contract_free : forall pol l, contract_free pol = true -> contract_ok pol l = true.
Proof. intros pol l H. exact (contract_free_from pol l H (prm0 pol) core0 eq_refl). Qed.
Print Assumptions c19_contract_free.

(* exclusive: two simultaneously live frames never sit in the same block *)
Theorem c19_exclusive : forall pol l i j fi fj, contract_ok pol l = true ->
  fget (frs (final_u pol l)) i = Some fi -> fget (frs (final_u pol l)) j = Some fj -> i <> j ->
  f_blk fi <> f_blk fj.
Proof.
  intros pol l i j fi fj H Gi. destruct (RunInv_live _ _ _ _ _ (proj1 (final_Good pol l H)) Gi) as [_ I].
  exact (blocks_distinct _ _ _ _ _ (i_blocks _ _ _ _ _ I) Gi).
Qed.
Print Assumptions c19_exclusive.

(* size + lifetime: the block under a live frame is still allocated (or is the caller's area) and offers
   request + extra object + the policy's trailer bytes *)
Theorem c19_size_valid : forall pol l i f, contract_ok pol l = true -> fget (frs (final_u pol l)) i = Some f ->
  0 < f_n f /\ f_n f + trailer pol <= f_room f /\
  match f_blk f with
  | BHeap b => In (b, f_room f) (h_live (hp (final_u pol l)))
  | BOwn _ => pol = PStk \/ pol = PPlc
  | BNull => False
  end.
Proof.
  intros pol l i f H G. destruct (RunInv_live _ _ _ _ _ (proj1 (final_Good pol l H)) G) as [EP I].
  exact (InvT_frame_valid pol _ _ _ _ _ i f EP I (fget_In _ _ _ G)).
Qed.
Print Assumptions c19_size_valid.

(* fallback freed exactly once: no delete of a non-live block ever, live heap blocks = the storage's block + one per
   live frame that owns a heap block, and after the storage is destroyed every allocation has been released *)
Theorem c19_fallback_freed_once : forall pol l, contract_ok pol l = true ->
  let c := final_u pol l in
  h_bad (hp c) = 0 /\ h_allocs (hp c) - h_frees (hp c) = zlen (h_live (hp c)) /\
  (c_up c = true -> zlen (h_live (hp c)) = nsown pol (st c) + sumw (owns pol) (frs c)) /\
  (c_up c = false -> h_live (hp c) = [] /\ h_allocs (hp c) = h_frees (hp c)).
Proof. intros pol l H. exact (RunInv_freed_once _ _ _ (proj1 (final_Good pol l H))). Qed.
Print Assumptions c19_fallback_freed_once.

(* warm-up: after a frame of size s was served from the policy's block (c_max records it, c19_learned; it never decreases
   while the storage lives, c19_learned_monotone), a frame of size <= s created while that block is free leaves the heap
   untouched: 0 allocations (and 0 frees).  reusable / mtsafe (block not busy) / stack (second call) / placement / buffer *)
Theorem c19_warm_no_alloc : forall pol l slot sz, contract_ok pol l = true ->
  let c := final_u pol l in let p := final_p pol l in
  wf_op c (OCreate slot sz) = true -> contract p c (OCreate slot sz) = true -> pol <> PDef ->
  nreq p sz <= c_max c -> (pol = PMts -> s_busy (st c) = false) ->
  hp (fst (create p c slot sz)) = hp c.
Proof. intros pol l slot sz H. destruct (final_Good pol l H) as (R & W & _). exact (warm_step pol _ _ slot sz R W). Qed.
Print Assumptions c19_warm_no_alloc.

Theorem c19_learned : forall pol l slot sz,
  let c := final_u pol l in let p := final_p pol l in
  p_pol p = pol -> (pol = PMts -> s_busy (st c) = false) -> nreq p sz <= c_max (fst (create p c slot sz)).
Proof. exact learned. Qed.
Print Assumptions c19_learned.

Theorem c19_learned_monotone : forall p c o, c_up c = true -> c_max c <= c_max (fst (gstep p c o)).
Proof. exact cmax_mono. Qed.
Print Assumptions c19_learned_monotone.

(* extra object / life cycle: per frame id the logged events are exactly alloc, ctor, promise (while live) followed by
   promise-dtor, dtor, dealloc (once finished): constructed exactly once inside alloc before the coroutine object exists,
   destroyed exactly once, after the coroutine object and before the memory is handed back *)
Theorem c19_extra_object : forall pol l fid, contract_ok pol l = true ->
  let c := final_u pol l in
  evs_of fid (c_log c) = lifecycle (p_x (final_p pol l)) (c_nfid c) (frs c) fid.
Proof. intros pol l fid H. exact (li_log _ _ (proj2 (proj2 (final_Good pol l H))) fid). Qed.
Print Assumptions c19_extra_object.

(* bytes inside the block: frame [0,sz), extra object at the next multiple of its alignment behind the frame, the base
   policy is asked for a multiple of 8 that covers both, and its trailer still fits *)
Theorem c19_extra_placed : forall pol l i f, contract_ok pol l = true -> fget (frs (final_u pol l)) i = Some f ->
  let p := final_p pol l in
  let sz := f_sz f in let n := f_n f in
  0 < sz /\ sz <= xoff p sz /\ n + trailer pol <= f_room f /\
  (0 < p_x p -> xoff p sz mod p_xal p = 0 /\ xoff p sz + p_x p <= n /\ n mod 8 = 0) /\
  (p_x p = 0 -> xoff p sz = sz /\ n = sz).
Proof.
  intros pol l i f H G. destruct (RunInv_live _ _ _ _ _ (proj1 (final_Good pol l H)) G) as [EP I].
  exact (InvT_placed pol _ _ _ _ _ i f EP I (fget_In _ _ _ G)).
Qed.
Print Assumptions c19_extra_placed.

(* the decidable trace oracle that is run on the implementation's output accepts the model's own trace of every history
   that ends with the storage destroyed: an oracle failure on the implementation is a deviation from all of the above *)
Theorem c19_oracle_sound : forall pol ops,
  c_up (snd (snd (run_g pol (map decode ops)))) = false -> st_oracle pol ops (st_run pol ops) = true.
Proof.
  intros pol ops U. unfold st_oracle, st_run, run_g in *.
  destruct (run_sim pol ops _ core0 _ (core0_RunInv pol) (core0_RunWarm _) (core0_Sim pol)) as [L S].
  rewrite L, Nat.eqb_refl, (sm_ok _ _ _ S), (sm_up _ _ _ S), U. reflexivity.
Qed.
Print Assumptions c19_oracle_sound.

(* storage objects as values (StorageObjDefs.v): any number of reusable_storage objects that are move-assigned, move-constructed,
   reused after having been moved from and destroyed (stk = false), or of stack_storage objects sharing one learned-size state,
   each reserved once and used for several calls (stk = true); one live frame per object (the policies' contract, enforced by
   ok2). For every history: a live frame's memory is still allocated (or is the area reserved for its own object), it has room
   for the frame plus the trailer, and no delete ever hit something that was not a live block. *)
Theorem c19_obj_valid : forall stk l slot f, aget (o2_frs (snd (run2 stk s2_0 l))) slot = Some f ->
  frame_valid stk (snd (run2 stk s2_0 l)) f /\ h_bad (o2_hp (snd (run2 stk s2_0 l))) = 0.
Proof. intros [|]; [exact stk_valid|exact reu_valid]. Qed.
Print Assumptions c19_obj_valid.

(* thread-safe variant, every interleaving *)
Theorem c19_mt_exclusive : forall ops s i j fi fj, mt_reach ops s ->
  fget (frs (c_core s)) i = Some fi -> fget (frs (c_core s)) j = Some fj -> i <> j -> f_blk fi <> f_blk fj.
Proof.
  intros ops s i j fi fj R. exact (blocks_distinct _ _ _ _ _ (i_blocks _ _ _ _ _ (ci_inv _ (reach_CInv _ _ R)))).
Qed.
Print Assumptions c19_mt_exclusive.

(* `ngrow` counts threads paused inside reusable_storage::alloc between `delete _ptr` and `_ptr = new` (busy_n), where _ptr dangles *)
Theorem c19_mt_one_holder : forall ops s, mt_reach ops s ->
  nwon (c_thr s) + sumw trw (frs (c_core s)) = b2z (s_busy (st (c_core s))) /\
  forall i f, In (i, f) (frs (c_core s)) ->
    if f_tr f then ngrow (c_thr s) = 0 /\ f_blk f = optblk (s_ptr (st (c_core s)))
    else exists b, f_blk f = BHeap b /\ (ngrow (c_thr s) = 0 -> s_ptr (st (c_core s)) <> Some b).
Proof. intros ops s R. exact (CInv_one_holder s (reach_CInv _ _ R)). Qed.
Print Assumptions c19_mt_one_holder.

Theorem c19_mt_size_valid : forall ops s i f, mt_reach ops s -> In (i, f) (frs (c_core s)) ->
  0 < f_n f /\ f_n f + ptr_sz <= f_room f /\ exists b, f_blk f = BHeap b /\ In (b, f_room f) (h_live (hp (c_core s))).
Proof. intros ops s i f R. exact (CInv_valid_sized s i f (reach_CInv _ _ R)). Qed.
Print Assumptions c19_mt_size_valid.

Theorem c19_mt_freed_once : forall ops s, mt_reach ops s ->
  let h := hp (c_core s) in
  h_bad h = 0 /\ h_allocs h - h_frees h = zlen (h_live h) /\
  zlen (h_live h) = nsown PMts (eff (c_thr s) (st (c_core s))) + sumw (owns PMts) (frs (c_core s)) /\
  (frs (c_core s) = [] -> nwon (c_thr s) = 0 ->
   let h1 := hp (destroy pm (c_core s)) in h_live h1 = [] /\ h_allocs h1 = h_frees h1 /\ h_bad h1 = 0).
Proof. intros ops s R. exact (CInv_freed_once s (reach_CInv _ _ R)). Qed.
Print Assumptions c19_mt_freed_once.

(* liveness: under every schedule every thread completes its program: nobody waits for _busy, nobody stays inside alloc *)
Theorem c19_mt_all_done : forall ops,
  Forall (fun t => t_prog t = [] /\ t_won t = None) (c_thr (fst (mt_final ops))).
Proof. intros ops. apply run_sched_all_done. rewrite twork_init. lia. Qed.
Print Assumptions c19_mt_all_done.

(* the state the wire-level runner ends in is one of those states, whatever the schedule *)
Theorem c19_mt_run_covered : forall ops, mt_reach ops (fst (mt_final ops)).
Proof. intros ops. apply run_sched_reach. constructor. Qed.
Print Assumptions c19_mt_run_covered.

(* non-vacuity: a reachable mtsafe state with three live frames (one in the shared block, two fallbacks) *)
Example c19_nonvacuous :
  let l := [OInit 24 0 0 8; OCreate 0 120; OCreate 1 104; OFinish 0; OCreate 2 136; OCreate 3 96] in
  contract_ok PMts l = true /\ length (frs (final_u PMts l)) = 3%nat /\
  sumw trw (frs (final_u PMts l)) = 1 /\ h_allocs (hp (final_u PMts l)) = 4 /\ h_frees (hp (final_u PMts l)) = 1.
Proof. vm_compute. repeat split; reflexivity. Qed.

(* the contract is necessary: without it reusable_storage frees the block under a live frame *)
Example c19_contract_needed :
  let l := [OInit 0 0 0 8; OCreate 0 104; OCreate 1 296] in
  contract_ok PReu l = false /\
  exists f, fget (frs (final_u PReu l)) 0 = Some f /\ f_blk f = BHeap 0 /\ hmem 0 (h_live (hp (final_u PReu l))) = false.
Proof. vm_compute. split; [reflexivity|]. eexists. repeat split; reflexivity. Qed.

(* non-vacuity of the warm-up and life-cycle statements: frame 0 finished (6 events), frame 1 live (3 events), and a
   third creation of the learned size is admissible and free *)
Example c19_nonvacuous_warm :
  let l := [OInit 24 0 0 8; OCreate 0 296; OFinish 0; OCreate 1 104] in
  contract_ok PReu l = true /\ c_max (final_u PReu l) = 320 /\
  evs_of 0 (c_log (final_u PReu l)) = [1; 2; 3; 6; 4; 5] /\ evs_of 1 (c_log (final_u PReu l)) = [1; 2; 3] /\
  evs_of 2 (c_log (final_u PReu l)) = [] /\
  let l2 := l ++ [OFinish 1] in
  wf_op (final_u PReu l2) (OCreate 2 296) = true /\ contract (final_p PReu l2) (final_u PReu l2) (OCreate 2 296) = true.
Proof. vm_compute. repeat split; reflexivity. Qed.

(* the placement matters: with an extra object of alignment 16 behind a 104-byte frame the object goes to offset 112,
   not 104, and the base policy is asked for 144 bytes *)
Example c19_nonvacuous_placed :
  let l := [OInit 32 0 0 16; OCreate 0 104] in
  contract_ok PMts l = true /\
  exists f, fget (frs (final_u PMts l)) 0 = Some f /\ xoff (final_p PMts l) (f_sz f) = 112 /\ f_n f = 144 /\ f_room f = 152.
Proof. vm_compute. split; [reflexivity|]. eexists. repeat split; reflexivity. Qed.

(* non-vacuity of c19_obj_valid: target with a small block, source with a big one, `target = std::move(source)`, then the
   moved-from source serves a big frame again (it must allocate: its capacity is 0) *)
Example c19_nonvacuous_obj :
  let l := [PNew 0; PNew 1; PCreate 0 0 96; PFinish 0; PCreate 0 1 3096; PFinish 0; PMoveAssign 0 1; PCreate 1 1 3096] in
  exists f, aget (o2_frs (snd (run2 false s2_0 l))) 1 = Some f /\ of_blk f = BHeap 2 /\ of_room f = 3096
            /\ h_allocs (o2_hp (snd (run2 false s2_0 l))) = 3 /\ h_frees (o2_hp (snd (run2 false s2_0 l))) = 1.
Proof. vm_compute. eexists. repeat split; reflexivity. Qed.
