(* CoroVMNoPreempt.v — C05 no pre-emption (what the code guarantees): while coroutine r keeps running — it has neither
   suspended, nor finished, nor entered async::start() — nobody else gets control. *)
From Cocls Require Import Base CoroVMDefs CoroVMProofs.
Local Open Scope nat_scope.

Definition is_run (e : event) : Prop := match e with ERun _ => True | _ => False end.
Definition marker (r : nat) (e : event) : Prop :=
  match e with ESusp c => c = r | EFin c _ => c = r | ENest c _ => c = r | _ => False end.
Definition quiet_ev (r : nat) (e : event) : Prop := ~ is_run e /\ ~ marker r e.

(* chronological list: the first ERun, if any, comes after a marker of r *)
Fixpoint guarded (r : nat) (l : list event) : Prop :=
  match l with
  | [] => True
  | e :: t => marker r e \/ (~ is_run e /\ guarded r t)
  end.

Section NP.
Variable s0 : st.
Variable r : nat.

(* quiet phase: only harmless events since s0, r still in control, queue installed *)
Definition Qp (s : st) : Prop :=
  exists evs, log s = evs ++ log s0 /\ Forall (quiet_ev r) evs /\ cur s = CRun r /\ active s = true.
(* hit phase: a marker of r was logged, and no ERun before it *)
Definition Hp (s : st) : Prop :=
  exists post mk pre, log s = post ++ mk :: pre ++ log s0 /\ marker r mk /\ Forall (fun e => ~ is_run e) pre.

(* once the marker is there the log may grow in any way *)
Lemma Hp_log_inv : log_inv Hp.
Proof.
  assert (G : forall s e, Hp s -> Hp (ev s e)).
  { intros s e (post&mk&pre&L&M). exists (e :: post), mk, pre. cbn. rewrite L. auto. }
  split.
  - intros s s' L _ (post&mk&pre&E). exists post, mk, pre. rewrite L. exact E.
  - intros s e _. apply G.
  - intros s c b w H. exact (G s _ H).
  - intros s x q _ H. exact (G _ (ERun x) (G s (EDeq x) H)).
Qed.

Lemma note_quiet : forall e, note e -> quiet_ev r e.
Proof. unfold quiet_ev. destruct e; cbn; tauto. Qed.

Lemma Qp_ev : forall s e, Qp s -> quiet_ev r e -> Qp (ev s e).
Proof. intros s e (evs&L&F&C&A) Qe. exists (e :: evs). cbn. rewrite L. repeat split; auto. Qed.
Lemma Qp_mark : forall s e, Qp s -> marker r e -> Hp (ev s e).
Proof.
  intros s e (evs&L&F&C&A) M. exists [], e, evs. cbn. rewrite L. repeat split; auto.
  eapply Forall_impl; [|exact F]. intros a (Ha&_). exact Ha.
Qed.
(* what the setters leave of the quiet phase; for users of the model *)
Lemma Qp_set_cs : forall s x, Qp s -> Qp (set_cs s x). Proof. intros s x H. exact H. Qed.
Lemma Qp_set_fs : forall s x, Qp s -> Qp (set_fs s x). Proof. intros s x H. exact H. Qed.
Lemma Qp_set_script : forall s c x, Qp s -> Qp (set_script s c x). Proof. intros s c x H. exact H. Qed.
Lemma Qp_enq_all : forall l s b w, Qp s -> Qp (enq_all s l b w).
Proof. induction l; intros s b w H; [exact H|]. apply IHl. apply (Qp_ev (set_queue s _)); [exact H|split; intros []]. Qed.
Lemma Qp_set_started : forall s c b, Qp s -> Qp (set_started s c b).
Proof. intros s c b H. apply Qp_ev; [exact H|split; intros []]. Qed.
Lemma Qp_bad : forall s me, Qp s -> Qp (bad s me).
Proof. intros s me H. apply Qp_ev; [exact H|split; intros []]. Qed.
Lemma Qp_ensure_made : forall s c, Qp s -> Qp (ensure_made s c).
Proof.
  intros s c H. destruct (ensure_made_cases s c) as [->|(_ & ->)]; [exact H|]. apply Qp_ev; [exact H|split; intros []].
Qed.

Definition NPp (s : st) : Prop := Qp s \/ Hp s.

Lemma ext_refl : forall s, ext s s. Proof. intros. exists []. reflexivity. Qed.

Lemma NP_sp_dispose : forall s hs aw, Qp s -> NPp (sp_dispose s r hs aw).
Proof.
  intros s hs aw Q. unfold sp_dispose. destruct hs as [|h t]; [left; exact Q|]. destruct aw.
  - right. apply (li_run_c Hp Hp_log_inv), (li_enq Hp Hp_log_inv), (li_enq_all Hp Hp_log_inv), Qp_mark; [exact Q|reflexivity].
  - destruct Q as (evs&L&F&C&A). rewrite A. left. apply Qp_enq_all. exists evs; auto.
Qed.

Lemma NP_finish : forall s x, Qp s -> NPp (finish s r x).
Proof. intros s x Q. right. apply (li_finish_from Hp Hp_log_inv), Qp_mark; [exact Q|reflexivity]. Qed.

Lemma NP_exec : forall s i, Qp s -> NPp (exec s r i).
Proof.
  intros s i Q. pose proof Hp_log_inv as HL.
  destruct (exec_cases s r i) as [e N|c e N|x q M0 E|c U|c K|c aw s1 K A|c f s1 s2 K F|c f aw s1 K A Cl|c s1 M0 K|f F
                                 |f x aw A Cl|f ch M0 F s1|x M0].
  - left. apply Qp_ev; [exact Q|apply note_quiet, N].
  - left. apply Qp_ev; [apply Qp_ensure_made, Q|apply note_quiet, N].
  - right. apply (li_deq Hp HL); [exact E|]. apply (li_enq Hp HL), Qp_mark; [exact Q|reflexivity].
  - left. apply Qp_ev; [exact Q|split; intros []].
  - left. apply Qp_ev; [exact Q|split; intros []].
  - apply NP_sp_dispose, Qp_set_started, Qp_ensure_made, Q.
  - assert (Q2 : Qp s2) by apply Qp_set_started, Qp_ensure_made, Q.
    assert (A : active s1 = true) by (destruct Q2 as (_&_&_&_&A); exact A). rewrite A.
    right. apply (li_run_c Hp HL), (li_set_stack Hp HL), Qp_mark; [exact Q2|reflexivity].
  - apply NP_sp_dispose, Qp_ev; [apply Qp_set_started, Qp_ensure_made, Q|split; intros []].
  - right. apply (li_run_c Hp HL), Qp_mark; [apply Qp_set_started, Qp_ensure_made, Q|reflexivity].
  - left. exact Q.
  - apply NP_sp_dispose, Qp_ev; [apply Qp_ev; [exact Q|]|]; split; intros [].
  - right. apply (li_set_cur Hp HL), Qp_mark; [exact Q|reflexivity].
  - apply NP_finish, Q.
Qed.

Lemma NP_step : forall s, NPp s -> NPp (step s).
Proof.
  intros s [Q|H]; [|right; apply (li_step Hp Hp_log_inv), H].
  pose proof Q as (evs&L&F&C&A). unfold step. rewrite C.
  destruct (script (cs s r)) as [|i rest]; [apply NP_finish|apply NP_exec]; exact Q.
Qed.

End NP.

Lemma guarded_quiet_app : forall r a b, Forall (fun e => ~ is_run e) a -> (b = [] \/ exists mk t, b = mk :: t /\ marker r mk) -> guarded r (a ++ b).
Proof.
  induction a as [|e a IH]; intros b F B; cbn.
  - destruct B as [->|(mk&t&->&M)]; cbn; auto.
  - inversion F; subst. right. split; auto.
Qed.

(* C05 no pre-emption, as the code guarantees it: take any reachable moment at which coroutine r is in control (for instance
   right after it queued somebody through a discarded suspend point) and any continuation of the run.  In chronological order
   the events that follow contain no `Run` before the first of `Susp r`, `Fin r`, `Nest r` (r entered async::start()). *)
Theorem no_preempt : forall s r n,
  shape s -> cur s = CRun r ->
  exists evs, log (steps n s) = evs ++ log s /\ guarded r (rev evs).
Proof.
  intros s r n S C.
  assert (A : active s = true) by (destruct S as (_&H); rewrite C in H; tauto).
  assert (Q0 : NPp s r s) by (left; exists []; repeat split; auto).
  destruct (inv_steps (NPp s r) (NP_step s r) n s Q0) as [(evs&L&F&_)|(post&mk&pre&L&M&P)].
  - exists evs. split; auto. rewrite <- (app_nil_r (rev evs)). apply guarded_quiet_app; auto.
    apply Forall_rev. eapply Forall_impl; [|exact F]. intros a (Ha&_); exact Ha.
  - exists (post ++ mk :: pre). split; [rewrite L, <- app_assoc; reflexivity|].
    rewrite rev_app_distr. cbn [rev]. rewrite <- app_assoc. apply guarded_quiet_app; [apply Forall_rev; auto|].
    right. exists mk, (rev post). split; auto.
Qed.
