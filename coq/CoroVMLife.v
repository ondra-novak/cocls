(* CoroVMLife.v — life cycle accounting over the log (C04 run level): per coroutine, the numbers of Mk / Bind / Fin / Free
   events are functions of its status, hence each at most one; uses CoroVMOnce (the running coroutine is Started). *)
From Cocls Require Import Base CoroVMDefs CoroVMProofs CoroVMOnce.
Local Open Scope nat_scope.

Definition is_mk (c : nat) (e : event) : bool := match e with EMk x => Nat.eqb x c | _ => false end.
Definition is_free (c : nat) (e : event) : bool := match e with EFree x => Nat.eqb x c | _ => false end.
Definition is_fin (c : nat) (e : event) : bool := match e with EFin x _ => Nat.eqb x c | _ => false end.
Definition is_bind (c : nat) (e : event) : bool := match e with EBind x _ => Nat.eqb x c | _ => false end.
Definition nev (P : event -> bool) (l : list event) : nat := length (filter P l).
Arguments nev : simpl never.
Definition life_event (e : event) : Prop := match e with EMk _ | EFree _ | EFin _ _ | EBind _ _ => True | _ => False end.

Lemma nev_cons : forall P e l, nev P (e :: l) = (if P e then 1 else 0) + nev P l.
Proof. intros. unfold nev. cbn. destruct (P e); reflexivity. Qed.

Definition lifeP (l : list event) (C : nat -> coro) (M : list nat) : Prop := forall c,
  (stat (C c) <> Unmade -> In c M) /\
  nev (is_mk c) l = (match stat (C c) with Unmade => 0 | _ => 1 end) /\
  nev (is_free c) l = (match stat (C c) with Done => 1 | _ => 0 end) /\
  nev (is_bind c) l = (match stat (C c) with Started => 1 | Done => nev (is_fin c) l | _ => 0 end) /\
  nev (is_fin c) l <= (match stat (C c) with Done => 1 | _ => 0 end).
Definition life (s : st) : Prop := lifeP (log s) (cs s) (made s).

Lemma life_init : forall p m, life (init p m).
Proof. intros p m c. cbn. repeat split; auto; congruence. Qed.

Lemma life_ev : forall s e, life s -> ~ life_event e -> life (ev s e).
Proof. intros s e L N c. destruct e; try exact (L c); destruct N; exact I. Qed.
Lemma note_not_life : forall e, note e -> ~ life_event e.
Proof. destruct e; cbn; tauto. Qed.

(* what the setters leave of life; for users of the model *)
Lemma life_set_fs : forall s x, life s -> life (set_fs s x). Proof. intros s x L. exact L. Qed.
Lemma life_set_cur : forall s x, life s -> life (set_cur s x). Proof. intros s x L. exact L. Qed.
Lemma life_set_stack : forall s x, life s -> life (set_stack s x). Proof. intros s x L. exact L. Qed.
Lemma life_set_active : forall s x, life s -> life (set_active s x). Proof. intros s x L. exact L. Qed.
Lemma life_set_queue : forall s x, life s -> life (set_queue s x). Proof. intros s x L. exact L. Qed.
Lemma life_set_script : forall s c l, life s -> life (set_script s c l).
Proof.
  intros s c l L x. specialize (L x). unfold life, lifeP, set_script in *. cbn. unfold upd.
  destruct (Nat.eqb x c) eqn:E; auto. apply Nat.eqb_eq in E. subst. cbn. exact L.
Qed.
Lemma life_enq : forall s c b w, life s -> life (enq s c b w).
Proof. intros s c b w L. apply life_ev; [exact L|intros []]. Qed.
Lemma life_enq_all : forall l s b w, life s -> life (enq_all s l b w).
Proof. induction l; intros s b w L; [exact L|apply IHl, life_enq, L]. Qed.
Lemma life_run_c : forall s x, life s -> life (run_c s x).
Proof. intros s x L. apply life_set_cur, life_ev; [exact L|intros []]. Qed.
Lemma life_bad : forall s me, life s -> life (bad s me).
Proof. intros s me L. apply life_ev; [exact L|intros []]. Qed.

Lemma eqb_sym_false : forall a b, Nat.eqb a b = false -> Nat.eqb b a = false.
Proof. intros. rewrite Nat.eqb_sym. auto. Qed.

Lemma life_make : forall s c, life s -> stat (cs s c) = Unmade -> life (make s c).
Proof.
  intros s c L U x. pose proof (L x) as Lx. unfold life, lifeP, make in *. cbn. rewrite !nev_cons. cbn. unfold upd.
  destruct (Nat.eqb x c) eqn:E.
  - apply Nat.eqb_eq in E. subst x. rewrite U in Lx. rewrite Nat.eqb_refl. cbn. split; [intros; apply in_or_app; right; left; auto|lia].
  - rewrite (eqb_sym_false _ _ E). destruct Lx as (L0&Lx). split; [intros; apply in_or_app; left; auto|exact Lx].
Qed.
Lemma life_ensure_made : forall s c, life s -> life (ensure_made s c).
Proof. intros s c L. destruct (ensure_made_cases s c) as [->|(U & ->)]; [exact L|apply life_make; assumption]. Qed.

Lemma life_set_started : forall s c b, life s -> is_created s c = true -> life (set_started s c b).
Proof.
  intros s c b L K x. pose proof (L x) as Lx. apply is_created_stat in K.
  unfold life, lifeP, set_started in *. cbn. rewrite !nev_cons. cbn. unfold upd.
  destruct (Nat.eqb x c) eqn:E.
  - apply Nat.eqb_eq in E. subst x. rewrite K in Lx. rewrite Nat.eqb_refl. cbn. destruct Lx as (L0&Lx). split; [intros; apply L0; discriminate|lia].
  - rewrite (eqb_sym_false _ _ E). exact Lx.
Qed.

Lemma life_drop : forall s c, life s -> is_created s c = true ->
  life (ev (set_coro s c (mkCoro Done [] BNone RNone)) (EFree c)).
Proof.
  intros s c L K x. pose proof (L x) as Lx. apply is_created_stat in K.
  unfold life, lifeP in *. cbn. rewrite !nev_cons. cbn. unfold upd.
  destruct (Nat.eqb x c) eqn:E.
  - apply Nat.eqb_eq in E. subst x. rewrite K in Lx. rewrite Nat.eqb_refl. cbn. destruct Lx as (L0&Lx). split; [intros; apply L0; discriminate|lia].
  - rewrite (eqb_sym_false _ _ E). exact Lx.
Qed.

Lemma life_finish : forall s c r, life s -> stat (cs s c) = Started -> life (finish s c r).
Proof.
  intros s c r L S. unfold finish.
  assert (L3 : forall F, life (ev (set_coro (set_fs (ev s (EFin c r)) F) c (mkCoro Done [] (bound (cs s c)) r)) (EFree c))).
  { intros F x. pose proof (L x) as Lx. unfold life, lifeP in *. cbn. rewrite !nev_cons. cbn. unfold upd.
    destruct (Nat.eqb x c) eqn:E.
    - apply Nat.eqb_eq in E. subst x. rewrite S in Lx. rewrite Nat.eqb_refl. cbn. destruct Lx as (L0&Lx). split; [intros; apply L0; discriminate|lia].
    - rewrite (eqb_sym_false _ _ E). exact Lx. }
  destruct (bound (cs s c)) as [|f|p]; cbn [fst snd].
  - apply life_set_cur. apply (L3 (fs s)).
  - destruct (chain_of (fs (ev s (EFin c r)) f)) as [|h t]; [apply life_set_cur; apply L3|apply life_run_c, life_enq_all; apply L3].
  - apply life_run_c, life_enq_all. apply (L3 (fs s)).
Qed.

Lemma life_sp_dispose : forall s me hs aw, life s -> life (sp_dispose s me hs aw).
Proof.
  intros s me hs aw L. unfold sp_dispose. destruct hs as [|h t]; [exact L|]. destruct aw; [|destruct (active s)].
  - apply life_run_c, life_enq, life_enq_all, life_ev; [exact L|intros []].
  - apply life_enq_all, L.
  - exact L.
Qed.

(* only a started coroutine finishes its body; only a created one is started or dropped *)
Lemma life_exec : forall s me i, life s -> (Nat.eqb me 0 = false -> stat (cs s me) = Started) -> life (exec s me i).
Proof.
  intros s me i L R.
  assert (L1 : forall c, life (ensure_made s c)) by (intros; apply life_ensure_made, L).
  destruct (exec_cases s me i) as [e N|c e N|x q M0 Q|c U|c K|c aw s1 K A|c f s1 s2 K F|c f aw s1 K A Cl|c s1 M0 K|f F
                                  |f r aw A Cl|f ch M0 F s1|r M0].
  - apply life_ev; [exact L|apply note_not_life, N].
  - apply life_ev; [apply L1|apply note_not_life, N].
  - apply life_run_c, life_ev; [|intros []]. apply life_set_queue, life_enq, life_ev; [exact L|intros []].
  - apply life_make; assumption.
  - apply life_drop; assumption.
  - apply life_sp_dispose, life_set_started; [apply L1|exact K].
  - assert (L2 : life s2) by (apply life_set_started; [apply life_set_fs, L1|exact K]).
    destruct (active s1); [apply life_run_c, life_set_stack, life_ev; [exact L2|intros []]|exact L2].
  - apply life_sp_dispose, life_ev; [|intros []]. apply life_set_started; [apply life_set_fs, L1|exact K].
  - apply life_run_c, life_ev; [|intros []]. apply life_set_script, life_set_started; [apply L1|exact K].
  - exact L.
  - apply life_sp_dispose, life_ev; [apply life_ev; [exact L|]|]; intros [].
  - apply life_set_cur, life_ev; [apply life_set_script, L|intros []].
  - apply life_finish; [exact L|apply R, M0].
Qed.

Lemma life_step : forall s, shape_once s -> life s -> life (step s).
Proof.
  intros s (S&O) L. destruct (step_cases s) as [C P|i rest C P|c C P|c i rest C P|C|C].
  - apply life_set_cur, life_ev; [exact L|intros []].
  - assert (L1 : life (exec (set_mainp s rest) 0 i)) by (apply life_exec; [exact L|discriminate]).
    unfold idle_if_main. destruct (cur (exec (set_mainp s rest) 0 i)); exact L1.
  - unfold once, onceD in O. destruct (cur_started _ _ _ _ _ _ O c C) as (SC&_). apply life_finish; assumption.
  - unfold once, onceD in O. destruct (cur_started _ _ _ _ _ _ O c C) as (SC&_).
    apply life_exec; [apply life_set_script, L|]. intros _. cbn. rewrite upd_same. exact SC.
  - destruct (ret_cases s) as [K|r rest K|h hs rest K|x q rest K Q|rest K Q].
    + exact L.
    + apply life_set_cur, life_ev; [exact L|intros []].
    + apply life_run_c, L.
    + apply life_run_c, life_ev; [exact L|intros []].
    + apply life_ev; [exact L|intros []].
  - exact L.
Qed.

Definition shape_once_life (s : st) : Prop := shape_once s /\ life s.
Lemma shape_once_life_step : forall s, shape_once_life s -> shape_once_life (step s).
Proof. intros s (G&L). split; [apply shape_once_step; auto|apply life_step; auto]. Qed.

Theorem life_reach : forall p m n, life (steps n (init p m)).
Proof.
  intros. assert (G : shape_once_life (steps n (init p m))).
  { apply (inv_steps shape_once_life shape_once_life_step). split; [split; [apply shape_init|apply once_init]|apply life_init]. }
  apply G.
Qed.

(* frame_once: over any run prefix a frame is allocated at most once and freed at most once; it has been freed exactly when
   the coroutine is Done; nothing is freed that was not allocated *)
Theorem frame_once : forall p m n c,
  let s := steps n (init p m) in
  nev (is_mk c) (log s) <= 1 /\ nev (is_free c) (log s) <= nev (is_mk c) (log s) /\
  (nev (is_mk c) (log s) = 1 <-> stat (cs s c) <> Unmade) /\
  (nev (is_free c) (log s) = 1 <-> stat (cs s c) = Done).
Proof.
  intros p m n c s. destruct (life_reach p m n c) as (_&A&B&_). fold s in A, B.
  destruct (stat (cs s c)); rewrite A, B; repeat split; intros; try lia; try congruence; try discriminate.
Qed.

(* body_once: the body of a coroutine finishes at most once; it can only have finished if the coroutine was started (bound)
   exactly once and its frame was freed; a started, unfinished coroutine has not been freed *)
Theorem body_once : forall p m n c,
  let s := steps n (init p m) in
  nev (is_fin c) (log s) <= 1 /\ nev (is_bind c) (log s) <= 1 /\
  nev (is_fin c) (log s) <= nev (is_bind c) (log s) /\ nev (is_fin c) (log s) <= nev (is_free c) (log s) /\
  (stat (cs s c) = Started -> nev (is_bind c) (log s) = 1 /\ nev (is_fin c) (log s) = 0 /\ nev (is_free c) (log s) = 0) /\
  (stat (cs s c) = Created -> nev (is_bind c) (log s) = 0 /\ nev (is_fin c) (log s) = 0 /\ nev (is_free c) (log s) = 0).
Proof.
  intros p m n c s. destruct (life_reach p m n c) as (_&A&B&D&E). fold s in A, B, D, E.
  destruct (stat (cs s c)); repeat split; intros; try lia; try discriminate.
Qed.

Lemma count_stat_zero : forall s b c, count_stat s b = 0 -> In c (made s) ->
  match stat (cs s c) with Started => b = false | Created => b = true | _ => True end.
Proof.
  intros s b c Z I. unfold count_stat in Z. apply length_zero_iff_nil in Z.
  assert (N : ~ In c (filter (fun c0 => match stat (cs s c0) with Started => b | Created => negb b | _ => false end) (made s))).
  { rewrite Z. intros []. }
  rewrite filter_In in N. destruct (stat (cs s c)); auto; destruct b; auto; exfalso; apply N; auto.
Qed.

(* whenever nobody is stuck or left unstarted (the two counts `EEnd` reports; the main script need not be over), every
   frame ever allocated has been freed exactly once and every started coroutine has finished its body exactly once *)
Theorem terminal_all_freed : forall p m n c,
  let s := steps n (init p m) in
  count_stat s true = 0 -> count_stat s false = 0 ->
  nev (is_free c) (log s) = nev (is_mk c) (log s) /\ nev (is_fin c) (log s) = nev (is_bind c) (log s).
Proof.
  intros p m n c s Z1 Z2. destruct (life_reach p m n c) as (I&A&B&D&E). fold s in I, A, B, D, E.
  destruct (stat (cs s c)) eqn:S; try lia.
  - assert (In c (made s)) by (apply I; discriminate). pose proof (count_stat_zero s false c Z2 H) as X. rewrite S in X. discriminate.
  - assert (In c (made s)) by (apply I; discriminate). pose proof (count_stat_zero s true c Z1 H) as X. rewrite S in X. discriminate.
Qed.
