(* StorageOracleProofs.v — the trace oracle st_oracle accepts every trace the model itself produces for a closed history:
   forall ops, (the storage ends destroyed) -> st_oracle pol ops (st_run pol ops) = true (c19_oracle_sound, from run_sim).
   So an oracle failure on an implementation trace is a genuine deviation from every behaviour the theorems cover. *)
From Cocls Require Import Base BaseProofs StorageDefs StorageProofs.
Require Import ZifyBool.
Local Open Scope Z_scope.
Ltac Zify.zify_post_hook ::= Z.div_mod_to_equations.   (* the oracle's placement test has a `mod` *)

(* decode and ostep match on the digits of the op codes 0, 1, 2, 9, hence the case analysis on `positive`; once for both *)
Lemma decode_cases o :
  (decode o = OBad /\ forall pol s, ostep pol s (o, [1]) = s) \/
  (exists x a b, o = [0; x; a; b]) \/ (exists x a b xal, o = [0; x; a; b; xal]) \/
  (exists slot k sz, o = [1; slot; k; sz]) \/ (exists slot, o = [2; slot]) \/ o = [9].
Proof.
  destruct o as [|z o]; [left; split; reflexivity|].
  destruct z as [|q|q]; [| |left; split; reflexivity].
  - destruct o as [|x [|a [|b [|xal [|? ?]]]]]; try (left; split; reflexivity).
    + right; left. eauto.
    + right; right; left. eauto.
  - destruct q as [q|q|].
    + (* odd: 9 = xI (xO (xO xH)) *)
      destruct q as [q|q|]; try (left; split; reflexivity). destruct q as [q|q|]; try (left; split; reflexivity).
      destruct q as [q|q|]; try (left; split; reflexivity). destruct o; [|left; split; reflexivity]. right; right; right; right; right. reflexivity.
    + (* even: 2 = xO xH *)
      destruct q as [q|q|]; try (left; split; reflexivity). destruct o as [|slot [|? ?]]; try (left; split; reflexivity).
      right; right; right; right; left. eauto.
    + (* 1 *)
      destruct o as [|slot [|k [|sz [|? ?]]]]; try (left; split; reflexivity). right; right; right; left. eauto.
Qed.

Lemma ostep_rej pol s o : ostep pol s (o, [1]) = s.
Proof.
  destruct (decode_cases o) as [[_ R]|[(x & a & b & ->)|[(x & a & b & xal & ->)|[(slot & k & sz & ->)|[(slot & ->)| ->]]]]];
    [apply R|reflexivity..].
Qed.

Lemma blk_eqb_true a b : blk_eqb a b = true -> a = b.
Proof. destruct a, b; cbn [blk_eqb]; try discriminate; auto; intros H; apply Nat.eqb_eq in H; congruence. Qed.

Lemma overlaps_zero b l : ~ In b (blocks l) -> overlaps b l = 0.
Proof.
  induction l as [|[k f] l IH]; cbn [overlaps blocks map snd In]; [reflexivity|]. intros N.
  destruct (blk_eqb b (f_blk f)) eqn:E; [apply blk_eqb_true in E; exfalso; apply N; left; congruence|].
  rewrite IH; [reflexivity|]. intros A. apply N. right. exact A.
Qed.

Lemma zlist_eqb_refl l : zlist_eqb l l = true.
Proof.
  unfold zlist_eqb. rewrite Nat.eqb_refl. cbn [andb]. induction l as [|x l IH]; cbn [combine forallb fst snd]; [reflexivity|].
  rewrite Z.eqb_refl, IH. reflexivity.
Qed.

Lemma create_codes x a b : ev_codes (create_evs x a) = ev_codes (create_evs x b).
Proof. unfold create_evs, ev_codes. destruct (0 <? x); reflexivity. Qed.
Lemma finish_codes x a b : ev_codes (finish_evs x a) = ev_codes (finish_evs x b).
Proof. unfold finish_evs, ev_codes. destruct (0 <? x); reflexivity. Qed.

Lemma hdel_mono h b : h_allocs (hdel h b) = h_allocs h /\ h_frees h <= h_frees (hdel h b) /\ h_next (hdel h b) = h_next h.
Proof. unfold hdel. destruct (hmem b (h_live h)); cbn; lia. Qed.
Lemma hdel_opt_mono h p : h_allocs (hdel_opt h p) = h_allocs h /\ h_frees h <= h_frees (hdel_opt h p) /\ h_next (hdel_opt h p) = h_next h.
Proof. destruct p; [apply hdel_mono|cbn; lia]. Qed.

(* allocation never decreases the counters; a block that is not fresh cost no allocation *)
Definition counts_ok (h h1 : heap) (b : blk) : Prop :=
  h_allocs h <= h_allocs h1 /\ h_frees h <= h_frees h1 /\ (is_fresh h b = false -> h_allocs h1 = h_allocs h).

Lemma counts_same h b : counts_ok h h b.
Proof. unfold counts_ok. lia. Qed.

Lemma counts_fresh h h1 : h_allocs h1 = h_allocs h + 1 -> h_frees h <= h_frees h1 -> counts_ok h h1 (BHeap (h_next h)).
Proof. intros A F. unfold counts_ok, is_fresh. rewrite Nat.leb_refl. repeat split; (lia || discriminate). Qed.

Lemma balloc_counts p h s n : counts_ok h (fst (fst (balloc p h s n))) (g_blk (snd (balloc p h s n))).
Proof.
  unfold balloc.
  assert (REU : forall s0 m, counts_ok h (fst (fst (reu_alloc h s0 m))) (snd (reu_alloc h s0 m))).
  { intros s0 m. unfold reu_alloc. destruct (m >? s_cap s0); [|apply counts_same].
    pose proof (hdel_opt_mono h (s_ptr s0)) as (A & B & C). unfold hnew. cbn [fst snd]. rewrite C.
    apply counts_fresh; cbn [h_allocs h_frees]; lia. }
  destruct (p_pol p).
  - unfold hnew. apply counts_fresh; cbn; lia.
  - specialize (REU s n). destruct (reu_alloc h s n) as [[h1 s1] b]. exact REU.
  - destruct (s_busy s).
    + unfold mts_lost, hnew. apply counts_fresh; cbn; lia.
    + unfold mts_won. specialize (REU (set_busy s true) (n + ptr_sz)).
      destruct (reu_alloc h (set_busy s true) (n + ptr_sz)) as [[h1 s1] b]. exact REU.
  - destruct (n + 1 <=? s_state s); [apply counts_same|]. unfold hnew. apply counts_fresh; cbn; lia.
  - apply counts_same.
  - destruct (s_bsize s <? (n + p_a p - 1) / p_a p); [|apply counts_same].
    unfold vec_resize. destruct ((n + p_a p - 1) / p_a p >? s_bcap s); [|apply counts_same].
    unfold hnew. cbn [fst snd g_blk s_ptr optblk].
    apply counts_fresh; [rewrite (proj1 (hdel_opt_mono _ _))|eapply Z.le_trans; [|apply hdel_opt_mono]]; cbn; lia.
Qed.

(* destruction: no allocation, and exactly one free iff the frame's block is gone afterwards *)
Lemma bdealloc_counts p h s f : heap_ok h -> frame_ok p h s f ->
  let r := bdealloc p h s (f_blk f) (f_tr f) in
  h_allocs (fst r) = h_allocs h /\ h_frees (fst r) - h_frees h = b2z (released (fst r) (f_blk f)).
Proof.
  intros HK [_ _ _ V R]. cbn zeta.
  assert (KEEP : h_allocs h = h_allocs h /\ h_frees h - h_frees h = b2z (released h (f_blk f))).
  { split; [reflexivity|]. unfold released. destruct (f_blk f) as [|b|j]; cbn [b2z]; try lia.
    rewrite (hmem_In _ _ _ V). cbn. lia. }
  assert (DEL : forall b, f_blk f = BHeap b ->
            h_allocs (hdel_blk h (BHeap b)) = h_allocs h /\ h_frees (hdel_blk h (BHeap b)) - h_frees h = b2z (released (hdel_blk h (BHeap b)) (BHeap b))).
  { intros b E. rewrite E in V. cbn [hdel_blk]. rewrite (hdel_live _ _ _ V). unfold released. cbn [h_live h_allocs h_frees].
    rewrite (hrem_gone b _ (hk_nd _ HK)). cbn. lia. }
  unfold bdealloc. destruct (p_pol p).
  - destruct R as [b E]. rewrite E. cbn [fst]. exact (DEL b E).
  - cbn [fst]. exact KEEP.
  - destruct (f_tr f); cbn [fst]; [exact KEEP|]. destruct R as [b [E _]]. rewrite E. exact (DEL b E).
  - destruct (f_tr f); cbn [fst]; [|exact KEEP]. destruct R as [b E]. rewrite E. exact (DEL b E).
  - cbn [fst]. exact KEEP.
  - cbn [fst]. exact KEEP.
Qed.

Definition olive (l : list (nat * frame)) : list (Z * Z) := map (fun q => (Z.of_nat (fst q), f_sz (snd q))) l.

Lemma olive_mem l i f : fget l i = Some f -> zassoc_mem (Z.of_nat i) (olive l) = true /\ zassoc_get (Z.of_nat i) (olive l) = f_sz f.
Proof.
  induction l as [|[k g] l IH]; cbn [fget olive map fst snd zassoc_mem zassoc_get]; [discriminate|].
  destruct (Nat.eqb_spec i k) as [E|E]; intros H.
  - inversion H; subst. rewrite Z.eqb_refl. auto.
  - destruct (Z.eqb_spec (Z.of_nat i) (Z.of_nat k)) as [E2|E2]; [lia|]. cbn [orb]. exact (IH H).
Qed.

Lemma olive_del l i : NoDup (keys l) -> zassoc_del (Z.of_nat i) (olive l) = olive (fdel l i).
Proof.
  induction l as [|[k g] l IH]; cbn [fdel olive map fst snd zassoc_del keys]; [reflexivity|]. intros H.
  inversion H as [|? ? N D]; subst.
  destruct (Nat.eqb_spec i k) as [E|E].
  - subst. rewrite Z.eqb_refl, (fdel_notin l k N). reflexivity.
  - destruct (Z.eqb_spec (Z.of_nat i) (Z.of_nat k)) as [E2|E2]; [lia|]. cbn [olive map fst snd]. f_equal. exact (IH D).
Qed.

Record Sim (p : prm) (c : core) (s : ost) : Prop := {
  sm_ok : o_ok s = true;
  sm_up : o_up s = c_up c;
  sm_prm : c_up c = true -> o_x s = p_x p /\ o_xal s = p_xal p;
  sm_live : o_live s = olive (frs c);
  sm_nc : c_up c = true -> o_nc s = Z.of_nat (c_nfid c);
  sm_diff : o_allocs s - o_frees s = h_allocs (hp c) - h_frees (hp c);
  sm_max : c_up c = true -> 0 <= o_max s <= c_max c
}.

Lemma ostep_create pol s slot k sz al fr fresh room ovl xv xo evs :
  ostep pol s ([1; slot; k; sz], 0 :: al :: fr :: fresh :: room :: ovl :: xv :: xo :: evs) =
      let n := if 0 <? o_x s then align_up (align_up sz (o_xal s) + o_x s) 8 else sz in
      let block_free := match pol with PMts => match o_live s with [] => true | _ => false end | _ => true end in
      let warm := reuses pol && block_free && (n <=? o_max s) in
      let placed := if 0 <? o_x s
                    then (sz <=? xo) && (xo mod o_xal s =? 0) && (trailer pol <=? room - (xo + o_x s))
                    else (xo =? 0) && (trailer pol <=? room - sz) in
      let ok := placed && (ovl =? 0) && (0 <=? al) && (0 <=? fr)
                && (if warm then al =? 0 else true)
                && (if fresh =? 0 then al =? 0 else true)
                && zlist_eqb evs (ev_codes (create_evs (o_x s) 0))
                && (xv =? (if 0 <? o_x s then o_nc s else 0)) in
      mkO (o_x s) (o_up s) ((slot, sz) :: o_live s)
          (if block_free then Z.max (o_max s) n else o_max s) (o_nc s + 1)
          (o_allocs s + al) (o_frees s + fr) (o_ok s && ok) (o_xal s).
Proof. reflexivity. Qed.

Lemma ostep_finish pol s slot al fr rel can dsz evs :
  ostep pol s ([2; slot], 0 :: al :: fr :: rel :: can :: dsz :: evs) =
      let ok := zassoc_mem slot (o_live s) && (al =? 0) && (fr =? rel) && ((rel =? 0) || (rel =? 1)) && (can =? 1)
                && (dsz =? zassoc_get slot (o_live s))
                && zlist_eqb evs (ev_codes (finish_evs (o_x s) 0)) in
      mkO (o_x s) (o_up s) (zassoc_del slot (o_live s)) (o_max s) (o_nc s) (o_allocs s + al) (o_frees s + fr) (o_ok s && ok) (o_xal s).
Proof. reflexivity. Qed.

Lemma and7 a b c d e f g : a = true -> b = true -> c = true -> d = true -> e = true -> f = true -> g = true ->
  a && b && c && d && e && f && g = true.
Proof. intros; subst; reflexivity. Qed.

Lemma nreq_oracle p sz : (if 0 <? p_x p then align_up (align_up sz (p_xal p) + p_x p) 8 else sz) = nreq p sz.
Proof. unfold nreq, xoff. destruct (0 <? p_x p); reflexivity. Qed.

Lemma sim_create pol p c s slot k sz :
  RunInv pol p c -> RunWarm p c -> Sim p c s ->
  wf_op c (OCreate (n slot) sz) = true -> contract p c (OCreate (n slot) sz) = true -> 0 <= slot ->
  Sim p (fst (create p c (n slot) sz))
      (ostep pol s ([1; slot; k; sz], create_obs p c (fst (create p c (n slot) sz)) (snd (create p c (n slot) sz)))).
Proof.
  intros R W S WF CT SL.
  pose proof (gstep_RunInv pol p c (OCreate (n slot) sz) R) as R1. cbn zeta in R1. rewrite WF in R1. cbn [prm_of] in R1.
  unfold gstep in R1. rewrite WF, CT in R1. cbn [andb exec] in R1.
  destruct R as (EP & HK & UP & DN). apply wf_create in WF. destruct WF as (U & SZ & G).
  specialize (UP U). specialize (W U). destruct S as [SO SU SP SL' SN SD SM].
  destruct (SP U) as [SX SA]. specialize (SN U). specialize (SM U).
  pose proof (i_pos _ _ _ _ _ UP) as XA. pose proof (nreq_pos p sz XA SZ) as N.
  destruct (balloc_counts p (hp c) (st c) (nreq p sz)) as (BC1 & BC2 & BC3).
  pose proof (balloc_warm p (hp c) (st c) (nreq p sz) (c_max c) W N) as BW.
  pose proof (balloc_learned p (hp c) (st c) (nreq p sz) c) as BL.
  (* the oracle takes the shared block of the thread-safe storage for free when it has seen no live frame *)
  assert (BUSY : match pol with PMts => match olive (frs c) with [] => true | _ => false end | _ => true end = true ->
                 p_pol p = PMts -> s_busy (st c) = false).
  { intros BF EM. rewrite EM in EP. subst pol. pose proof (i_busy _ _ _ _ _ UP) as B. unfold busy_ok in B. rewrite EM in B.
    destruct (frs c); [|discriminate]. rewrite sumw_nil in B. destruct (s_busy (st c)); cbn [b2z] in B; [lia|reflexivity]. }
  unfold create, mk_frame in *. destruct (balloc p (hp c) (st c) (nreq p sz)) as [[h1 s1] g]. cbn [fst snd] in *.
  destruct R1 as (_ & HK1 & UP1 & _). cbn [c_up hp st frs] in *. specialize (UP1 U).
  destruct (i_frames _ _ _ _ _ UP1 _ _ (in_eq _ _)) as [_ F2 F3 _ _]. cbn [f_n f_need f_room] in *. rewrite EP in F2.
  pose proof (i_blocks _ _ _ _ _ UP1) as NB. cbn [blocks map snd f_blk] in NB. apply NoDup_cons_iff in NB. destruct NB as [NIN _].
  pose proof (nreq_ge p sz XA) as [G1 G2].
  unfold create_obs. cbn [app f_blk f_room f_id f_sz hp frs]. rewrite ostep_create. cbn zeta.
  rewrite SX, SA, (nreq_oracle p sz), SL', SN.
  constructor; cbn [o_ok o_up o_x o_xal o_live o_nc o_allocs o_frees o_max c_up frs c_nfid hp c_max]; try (intros _); auto; try lia.
  - rewrite SO, (overlaps_zero _ _ NIN), (create_codes _ (c_nfid c) 0). cbn [andb]. apply and7; try lia.
    + (* placed, no overlap *)
      rewrite andb_true_r. unfold xoff in *.
      destruct (0 <? p_x p) eqn:GX; [pose proof (align_up_mod sz (p_xal p) (proj2 XA))|]; lia.
    + (* warm *)
      destruct (reuses pol && _ && (nreq p sz <=? o_max s)) eqn:WM; [|reflexivity].
      apply andb_prop in WM. destruct WM as [WM LE]. apply andb_prop in WM. destruct WM as [RU BF].
      assert (h1 = hp c); [|subst; lia].
      apply BW; [lia|exact (InvT_buf_pos _ _ _ _ _ UP)|exact (BUSY BF)|]. intros ED. rewrite ED in EP. subst pol. discriminate.
    + (* not fresh => no allocation *)
      destruct (is_fresh (hp c) (g_blk g)); [reflexivity|]. specialize (BC3 eq_refl). cbn. lia.
    + apply zlist_eqb_refl.
  - cbn [olive map fst snd f_sz]. rewrite Z2Nat.id by lia. reflexivity.
  - unfold learn in *.
    destruct (match pol with PMts => _ | _ => true end) eqn:BF; [specialize (BL (BUSY eq_refl))|]; destruct (p_pol p); try lia; destruct (g_tr g); lia.
Qed.

Lemma sim_finish pol p c s slot f :
  RunInv pol p c -> Sim p c s -> c_up c = true -> fget (frs c) (n slot) = Some f -> 0 <= slot ->
  Sim p (finish p c (n slot) f) (ostep pol s ([2; slot], finish_obs p c (finish p c (n slot) f) f)).
Proof.
  intros R S U G SL. destruct R as (EP & HK & UP & DN). specialize (UP U).
  destruct S as [SO SU SP SL' SN SD SM]. destruct (SP U) as [SX SA].
  pose proof (i_frames _ _ _ _ _ UP _ _ (fget_In _ _ _ G)) as FO.
  pose proof (bdealloc_counts p (hp c) (st c) f HK FO) as BC. cbn zeta in BC.
  destruct (olive_mem _ _ _ G) as [M1 M2]. rewrite Z2Nat.id in M1, M2 by lia.
  pose proof (olive_del (frs c) (n slot) (i_keys _ _ _ _ _ UP)) as OD. rewrite Z2Nat.id in OD by lia.
  unfold finish in *. destruct (bdealloc p (hp c) (st c) (f_blk f) (f_tr f)) as [h1 s1]. cbn [fst] in BC.
  destruct BC as [BA BF].
  unfold finish_obs. cbn [app hp]. rewrite ostep_finish. cbn zeta. rewrite SL', SX, M2, OD.
  constructor; cbn [o_ok o_up o_x o_xal o_live o_nc o_allocs o_frees o_max c_up frs c_nfid hp c_max].
  - rewrite SO. cbn [andb]. apply and7; try lia.
    + exact M1.
    + destruct (released h1 (f_blk f)); reflexivity.
    + rewrite (finish_codes _ (f_id f) 0). apply zlist_eqb_refl.
  - exact SU.
  - intros _. auto.
  - reflexivity.
  - exact SN.
  - lia.
  - exact SM.
Qed.

Lemma ostep_init4 pol s x a b al fr : ostep pol s ([0; x; a; b], [0; al; fr]) = oinit s x 8 al fr.
Proof. reflexivity. Qed.
Lemma ostep_init5 pol s x a b xal al fr : ostep pol s ([0; x; a; b; xal], [0; al; fr]) = oinit s x xal al fr.
Proof. reflexivity. Qed.
Lemma ostep_destroy pol s al fr : ostep pol s ([9], [0; al; fr]) =
  mkO (o_x s) false (o_live s) (o_max s) (o_nc s) (o_allocs s + al) (o_frees s + fr)
      (o_ok s && (al =? 0) && (0 <=? fr) && (o_allocs s + al =? o_frees s + fr)
       && match o_live s with [] => true | _ => false end) (o_xal s).
Proof. reflexivity. Qed.

Lemma sim_init pol p c s x a b xal :
  RunInv pol p c -> Sim p c s -> c_up c = false ->
  let p1 := mkPrm pol x a b xal in
  Sim p1 (init_core p1) (oinit s x xal (h_allocs (hp (init_core p1))) 0).
Proof.
  intros R S U p1. destruct R as (EP & HK & UP & DN). destruct (DN U) as [E1 E2].
  destruct S as [SO SU SP SL' SN SD SM].
  assert (D0 : o_allocs s - o_frees s = 0).
  { rewrite SD. pose proof (hk_cnt _ HK) as C. rewrite E2 in C. unfold zlen in C. cbn [length] in C. lia. }
  assert (IC : c_up (init_core p1) = true /\ frs (init_core p1) = [] /\ c_nfid (init_core p1) = 0%nat /\ c_max (init_core p1) = 0 /\
               h_frees (hp (init_core p1)) = 0 /\ 0 <= h_allocs (hp (init_core p1))).
  { unfold init_core, p1. cbn [p_pol p_b p_a]. destruct pol; cbn; try (repeat split; lia).
    destruct (0 <? b); cbn; repeat split; lia. }
  destruct IC as (I1 & I2 & I3 & I4 & I5 & I6).
  unfold oinit. constructor; cbn [o_ok o_up o_x o_xal o_live o_nc o_allocs o_frees o_max].
  - rewrite SO. cbn [andb]. apply andb_true_intro; split; lia.
  - rewrite I1. reflexivity.
  - intros _. split; reflexivity.
  - rewrite I2. reflexivity.
  - intros _. rewrite I3. reflexivity.
  - lia.
  - intros _. rewrite I4. lia.
Qed.

Lemma sim_destroy pol p c s :
  RunInv pol p c -> Sim p c s -> wf_op c ODestroy = true ->
  Sim p (destroy p c) (ostep pol s ([9], [0; 0; h_frees (hp (destroy p c)) - h_frees (hp c)])).
Proof.
  intros (EP & HK & UP & DN) S WF. apply wf_destroy in WF. destruct WF as [U EF].
  specialize (UP U). rewrite EF in UP. destruct (destroy_inv p c UP) as [HK1 L1].
  pose proof (hk_cnt _ HK1) as C1. rewrite L1, zlen_nil in C1.
  destruct S as [SO SU SP SL' SN SD SM].
  assert (AL : h_allocs (hp (destroy p c)) = h_allocs (hp c) /\ h_frees (hp c) <= h_frees (hp (destroy p c))).
  { unfold destroy. cbn [hp]. pose proof (hdel_opt_mono (hp c) (s_ptr (st c))). destruct (p_pol p); lia. }
  rewrite ostep_destroy, SL', EF. cbn [olive map].
  constructor; cbn [o_ok o_up o_x o_xal o_live o_nc o_allocs o_frees o_max].
  - rewrite SO. cbn [andb]. rewrite andb_true_r, !andb_true_iff. lia.
  - reflexivity.
  - intros X. discriminate.
  - unfold destroy. cbn [frs]. rewrite EF. reflexivity.
  - intros X. discriminate.
  - lia.
  - intros X. discriminate.
Qed.

Lemma sim_step pol p c s o :
  RunInv pol p c -> RunWarm p c -> Sim p c s ->
  let p1 := if wf_op c (decode o) then prm_of pol p (decode o) else p in
  Sim p1 (fst (gstep p1 c (decode o))) (ostep pol s (o, snd (gstep p1 c (decode o)))).
Proof.
  intros R W S. cbn zeta. unfold gstep.
  destruct (wf_op c (decode o)) eqn:WF; cbn [andb]; [|cbn [fst snd]; rewrite ostep_rej; exact S].
  destruct (contract (prm_of pol p (decode o)) c (decode o)) eqn:CT; cbn [fst snd].
  2:{ rewrite ostep_rej. destruct (decode o) eqn:D; cbn [prm_of] in *; try exact S.
      apply wf_init in WF. destruct WF as [WF _].
      destruct S as [SO SU SP SL' SN SD SM]. constructor; auto; intros X; congruence. }
  destruct (decode_cases o) as [[D _]|[(x & a & b & ->)|[(x & a & b & xal & ->)|[(slot & k & sz & ->)|[(slot & ->)| ->]]]]].
  - rewrite D in WF. discriminate.
  - cbn [decode prm_of exec fst snd] in *. rewrite ostep_init4. exact (sim_init pol p c s x a b 8 R S (proj1 (wf_init _ _ _ _ _ WF))).
  - cbn [decode prm_of exec fst snd] in *. rewrite ostep_init5. exact (sim_init pol p c s x a b xal R S (proj1 (wf_init _ _ _ _ _ WF))).
  - cbn [decode] in *. destruct (0 <=? slot) eqn:SL; [|discriminate]. cbn [prm_of exec] in *.
    pose proof (sim_create pol p c s slot k sz R W S WF CT ltac:(lia)) as SC.
    destruct (create p c (n slot) sz) as [c1 f]. cbn [fst snd] in *. exact SC.
  - cbn [decode] in *. destruct (0 <=? slot) eqn:SL; [|discriminate]. cbn [prm_of exec] in *.
    apply wf_finish in WF. destruct WF as (U & f & GF). rewrite GF. cbn [fst snd].
    exact (sim_finish pol p c s slot f R S U GF ltac:(lia)).
  - cbn [decode prm_of exec fst snd] in *. exact (sim_destroy pol p c s R S WF).
Qed.

Lemma core0_Sim pol : Sim (prm0 pol) core0 (mkO 0 false [] 0 0 0 0 true 8).
Proof. constructor; cbn; auto; try discriminate. Qed.

Lemma run_sim pol : forall ops p c s, RunInv pol p c -> RunWarm p c -> Sim p c s ->
  let r := run_with gstep pol p c (map decode ops) in
  length (fst r) = length ops /\
  Sim (fst (snd r)) (snd (snd r)) (fold_left (ostep pol) (combine ops (fst r)) s).
Proof.
  induction ops as [|o ops IH]; intros p c s R W S; cbn [map run_with]; [cbn; split; [reflexivity|exact S]|].
  pose proof (gstep_RunInv pol p c (decode o) R) as R1. pose proof (gstep_RunWarm pol p c (decode o) R W) as W1.
  pose proof (sim_step pol p c s o R W S) as S1. cbn zeta in R1, W1, S1.
  destruct (gstep (if wf_op c (decode o) then prm_of pol p (decode o) else p) c (decode o)) as [c1 ob]. cbn [fst snd] in *.
  specialize (IH _ _ _ R1 W1 S1). cbn zeta in IH.
  destruct (run_with gstep pol (if wf_op c (decode o) then prm_of pol p (decode o) else p) c1 (map decode ops)) as [obs r].
  cbn [fst snd combine fold_left length] in *. destruct IH as [L SS]. split; [lia|exact SS].
Qed.
