(* MutexObs.v — what the scenario observes: the critical-section overlap detector never fires.
   CsInv: ovl = false, a task is "inside the critical section" (incs) only at the cs point, and no task in a ready
   queue is inside.  Built on the protocol invariant (MutexProofs.SInv) and the location invariant
   (MutexSched.LInv).  At the end: the final observation block of a run that stopped (final_block). *)
From Cocls Require Import Base BaseProofs MutexDefs MutexProofs MutexSched.
Local Open Scope nat_scope.

Definition CsInv (s : st) : Prop :=
  ovl s = false /\
  (forall x, incs (gtask s x) = true -> tpc (gtask s x) = PCs) /\
  (forall t x, In x (tq (gthr s t)) -> incs (gtask s x) = false).

(* a task record is replaced; it may be marked "inside" only if it was and stays at the cs point *)
Lemma cs_task s c y : CsInv s -> (incs y = true -> incs (gtask s c) = true /\ tpc y = PCs) -> CsInv (set_task s c y).
Proof.
  intros (Ovl & AtCs & NotQd) H. split; [exact Ovl|]. split.
  - intros x. rewrite gtask_set_task_gen. destruct (Nat.eqb x c && Nat.ltb c (length (tasks s))); [|apply AtCs].
    intros E. apply H. exact E.
  - intros t x Q. change (gthr (set_task s c y) t) with (gthr s t) in Q.
    rewrite gtask_set_task_gen. destruct (Nat.eqb x c && Nat.ltb c (length (tasks s))) eqn:E; [|eapply NotQd; exact Q].
    destruct (incs y) eqn:Iy; [|reflexivity]. destruct (H eq_refl) as [A _].
    apply andb_true_iff in E. destruct E as [E _]. apply Nat.eqb_eq in E. subst x.
    rewrite (NotQd t c Q) in A. discriminate.
Qed.

Lemma tq_set_run s t r t' : tq (gthr (set_run s t r) t') = tq (gthr s t').
Proof.
  unfold gthr, set_run, s_thrs. cbn [thrs]. rewrite nth_set_nth_gen.
  destruct (Nat.eqb t' t && Nat.ltb t (length (thrs s))) eqn:E; [|reflexivity].
  apply andb_true_iff in E. destruct E as [E _]. apply Nat.eqb_eq in E. subst t'. reflexivity.
Qed.

Lemma cs_set_run s t r : CsInv s -> CsInv (set_run s t r).
Proof.
  intros (Ovl & AtCs & NotQd). split; [exact Ovl|]. split; [exact AtCs|].
  intros t' x Q. rewrite tq_set_run in Q. change (gtask (set_run s t r) x) with (gtask s x). eapply NotQd; exact Q.
Qed.

Lemma cs_set_tq s t q : CsInv s -> (forall x, In x q -> incs (gtask s x) = false) -> CsInv (set_tq s t q).
Proof.
  intros (Ovl & AtCs & NotQd) H. split; [exact Ovl|]. split; [exact AtCs|].
  intros t' x Q. change (gtask (set_tq s t q) x) with (gtask s x).
  unfold gthr, set_tq, s_thrs in Q. cbn [thrs] in Q. rewrite nth_set_nth_gen in Q.
  destruct (Nat.eqb t' t && Nat.ltb t (length (thrs s))); [cbn [tq] in Q; apply H; exact Q|eapply NotQd; exact Q].
Qed.

Lemma existsb_incs_false s : (forall x, incs (gtask s x) = false) -> existsb incs (tasks s) = false.
Proof.
  intros H. destruct (existsb incs (tasks s)) eqn:E; [|reflexivity]. exfalso.
  apply existsb_exists in E. destruct E as (y & Hy & Iy).
  destruct (In_nth _ _ dflt_task Hy) as (i & Li & Ei). specialize (H i). unfold gtask in H. rewrite Ei in H. congruence.
Qed.

(* the invariants assumed are those of the entered state: its view and thread list are those of s *)
Lemma cs_enter s w t : CsInv s -> SInv (enter s w) -> LInv (enter s w) -> run (gthr s t) = TRun w ->
  tpc (gtask s w) = PCs -> incs (gtask s w) = false -> CsInv (enter s w).
Proof.
  intros (Ovl & AtCs & NotQd) [_ I] LR R P Iw.
  pose proof (running_not_queued _ _ _ t w LR R) as NQ.
  destruct (same_enter s w) as ((_ & _ & _ & _ & _ & _ & _ & _ & _ & _ & V) & _). cbn [vw v_tv] in V.
  assert (All : forall x, incs (gtask s x) = false).
  { intros x. destruct (incs (gtask s x)) eqn:E; [|reflexivity]. exfalso.
    assert (Hx : is_hold (cls (tvs (enter s w) x)) = true) by (rewrite <- V; unfold tvs, tvw; rewrite (AtCs x E); reflexivity).
    assert (Hw : is_hold (cls (tvs (enter s w) w)) = true) by (rewrite <- V; unfold tvs, tvw; rewrite P; reflexivity).
    apply (i_own _ I) in Hx. apply (i_own _ I) in Hw. assert (x = w) by congruence. subst. congruence. }
  unfold enter. rewrite (existsb_incs_false s All), Ovl. cbn [orb].
  split; [reflexivity|]. split.
  - intros x. rewrite gtask_set_task_gen. cbn [s_scn tasks].
    destruct (Nat.eqb x w && Nat.ltb w (length (tasks s))) eqn:E.
    + intros _. cbn [t_enter tpc]. exact P.
    + intros Q. change (incs (gtask s x) = true) in Q. rewrite All in Q. discriminate.
  - intros t' x Q. change (In x (tq (gthr s t'))) in Q. rewrite gtask_set_task_gen. cbn [s_scn tasks].
    destruct (Nat.eqb x w && Nat.ltb w (length (tasks s))) eqn:E; [|apply All].
    apply andb_true_iff in E. destruct E as [E _]. apply Nat.eqb_eq in E. subst x. destruct (NQ t' Q).
Qed.

Lemma run_set_run s t r : t < length (thrs s) -> run (gthr (set_run s t r) t) = r.
Proof. intros L. unfold gthr, set_run, s_thrs. cbn [thrs]. rewrite nth_set_nth_same by exact L. reflexivity. Qed.

Lemma incs_not_cs s c : CsInv s -> tpc (gtask s c) <> PCs -> incs (gtask s c) = false.
Proof. intros (_ & AtCs & _) H. destruct (incs (gtask s c)) eqn:E; [|reflexivity]. exfalso. apply H. apply AtCs. exact E. Qed.

Lemma cs_yield s t : CsInv s -> SInv (yield s t) -> LInv (yield s t) -> CsInv (yield s t).
Proof.
  intros CS SR LR. unfold yield in *. destruct (tq (gthr s t)) as [|w r] eqn:Q.
  - destruct (tk (gtask s t)); [apply cs_set_run; exact CS|]. destruct (tpc (gtask s t)); apply cs_set_run; exact CS.
  - assert (Lt : t < length (thrs s)).
    { destruct (le_lt_dec (length (thrs s)) t) as [G|G]; [|exact G]. rewrite gthr_out in Q by exact G. discriminate. }
    assert (CB : CsInv (set_run (set_tq s t r) t (TRun w))).
    { apply cs_set_run. apply cs_set_tq; [exact CS|]. intros x Hx. destruct CS as (_ & _ & NotQd). apply (NotQd t x).
      rewrite Q. right. exact Hx. }
    match goal with |- CsInv (match ?p with _ => _ end) => destruct p eqn:P end; try exact CB.
    apply (cs_enter _ w t CB SR LR).
    + apply run_set_run. unfold set_tq, s_thrs. cbn [thrs]. rewrite set_nth_length. exact Lt.
    + exact P.
    + change (incs (gtask s w) = false). destruct CS as (_ & _ & NotQd). apply (NotQd t w). rewrite Q. left. reflexivity.
Qed.

Lemma cwait_not_cs k p fl : cls (k, p, fl) = CWait -> p <> PCs.
Proof. intros C ->. destruct k; discriminate. Qed.

Lemma cs_handover s t c : CsInv s -> SInv s -> SInv (handover s t c) -> LInv (handover s t c) ->
  t < length (thrs s) -> tpc (gtask s c) = PUnlock -> queue s <> PNull -> CsInv (handover s t c).
Proof.
  intros CS SI SR LR Lt P Q. destruct (handover_target s c SI P Q) as (w & EQ & Ww & Nwc & Lc & Lw).
  assert (Ic : incs (gtask s c) = false) by (apply incs_not_cs; [exact CS|rewrite P; discriminate]).
  assert (Iw : incs (gtask s w) = false) by (apply incs_not_cs; [exact CS|eapply cwait_not_cs; exact Ww]).
  rewrite (handover_eq s t c w EQ Nwc Lc) in *.
  assert (CH : CsInv (handed s c w)).
  { apply cs_task; [apply cs_task; [exact CS|]|].
    - cbn [t_endround incs]. intros E. change (incs (gtask s c) = true) in E. congruence.
    - intros E. assert (Z : incs (woken (gtask s w)) = incs (gtask s w)) by (unfold woken; destruct (tk (gtask s w)); reflexivity).
      congruence. }
  assert (Gw : gtask (handed s c w) w = woken (gtask s w)) by (apply gtask_set_task_same; rewrite set_task_len; exact Lw).
  assert (Gc : incs (gtask (handed s c w) c) = false).
  { unfold handed. rewrite gtask_set_task_other by auto. rewrite gtask_set_task_same by exact Lc. exact Ic. }
  assert (Q4 : forall x, In x (tq (gthr s t)) -> incs (gtask (handed s c w) x) = false).
  { intros x Hx. destruct CH as (_ & _ & NotQd). exact (NotQd t x Hx). }
  unfold woken in Gw. destruct (tk (gtask s w)); [|exact CH].
  assert (Q5 : forall y x, incs (gtask (handed s c w) y) = false -> In x (tq (gthr s t) ++ [y]) ->
                 incs (gtask (handed s c w) x) = false).
  { intros y x Iy Hx. apply in_app_or in Hx. destruct Hx as [Hx|[<-|[]]]; [apply Q4; exact Hx|exact Iy]. }
  assert (I4 : incs (gtask (handed s c w) w) = false) by (rewrite Gw; exact Iw).
  destruct (tk (gtask s c)); [destruct (crel (gtask s c))|].
  - apply cs_set_tq; [exact CH|]. intros x. apply Q5. exact I4.
  - apply cs_set_tq; [exact CH|]. intros x. apply Q5. exact I4.
  - apply (cs_enter _ w t); try assumption.
    + apply cs_set_run. apply cs_set_tq; [exact CH|]. intros x. apply Q5. exact Gc.
    + apply run_set_run. unfold set_tq, s_thrs. cbn [thrs]. rewrite set_nth_length. exact Lt.
    + change (tpc (gtask (handed s c w) w) = PCs). rewrite Gw. reflexivity.
  - apply (cs_enter _ w t); try assumption.
    + apply cs_set_run. exact CH.
    + apply run_set_run. exact Lt.
    + change (tpc (gtask (handed s c w) w) = PCs). rewrite Gw. reflexivity.
Qed.

(* the running task c, not inside the critical section (Ic in the context), gets a record that is not inside either *)
Ltac cs_pc s c CS := apply cs_task; [exact CS|];
  cbn [t_pc t_flag t_begin t_endround t_leave incs]; intros E; change (incs (gtask s c) = true) in E; congruence.

Lemma step_cs s t : SInv s -> LInv s -> CsInv s -> enabled s t = true -> CsInv (fst (fst (tstep s t))).
Proof.
  intros SI LI CS En.
  pose proof (step_inv s t SI En) as SR. pose proof (step_linv s t SI LI En) as LR.
  pose proof SI as [L I]. pose proof (l_len _ _ _ LI) as Ln.
  assert (Lt : t < length (thrs s)) by (apply enabled_lt; exact En).
  unfold tstep in *. destruct (run (gthr s t)) as [|c|c] eqn:R; cbn [fst] in *.
  - exact CS.
  - destruct (tpc (gtask s c)) eqn:P; cbn [fst] in *;
      try (assert (Lc : c < length (tasks s)) by (apply task_lt; rewrite P; discriminate));
      try (assert (Ic : incs (gtask s c) = false) by (apply incs_not_cs; [exact CS|rewrite P; discriminate])).
    + (* PStep *)
      destruct (prog (gtask s c)) as [|[a r] p]; cbn [fst] in *.
      * assert (CD : CsInv (set_pc s c PDone)) by (unfold set_pc; cs_pc s c CS).
        destruct (tk (gtask s c)); [apply cs_yield; assumption|apply cs_set_run; exact CD].
      * cs_pc s c CS.
    + (* PTry *)
      destruct (requests s) eqn:Rq; cbn [fst] in *.
      * apply (cs_enter _ c t); try assumption.
        -- unfold set_pc. cs_pc s c CS.
        -- unfold set_pc. rewrite gtask_set_task_same by exact Lc. reflexivity.
        -- unfold set_pc. rewrite gtask_set_task_same by exact Lc. exact Ic.
      * destruct (cacq (gtask s c)); [unfold set_pc|]; cs_pc s c CS.
      * destruct (cacq (gtask s c)); [unfold set_pc|]; cs_pc s c CS.
    + (* PSub e *)
      cbv zeta in *. destruct (ptr_eqb (requests s) e); cbn [fst] in *; [|unfold set_pc; cs_pc s c CS].
      destruct e; cbn [fst] in *.
      * unfold set_pc. cs_pc s c CS.
      * destruct (tk (gtask s c)); cbn [fst] in *; [apply cs_set_run; unfold set_pc|]; cs_pc s c CS.
      * destruct (tk (gtask s c)); cbn [fst] in *; [apply cs_set_run; unfold set_pc|]; cs_pc s c CS.
    + unfold set_pc. cs_pc s c CS.
    + unfold set_pc. cs_pc s c CS.
    + (* PBqS *)
      unfold build_queue in *. destruct (bq_walk _ _ _ _ _ _) as [[nx dn] q].
      apply (cs_enter _ c t); try assumption.
      * unfold set_pc. cs_pc s c CS.
      * unfold set_pc. rewrite gtask_set_task_same by exact Lc. reflexivity.
      * unfold set_pc. rewrite gtask_set_task_same by exact Lc. exact Ic.
    + exact CS.
    + (* PFlag *)
      apply (cs_enter _ c t); try assumption.
      * cs_pc s c CS.
      * rewrite gtask_set_task_same by exact Lc. reflexivity.
      * rewrite gtask_set_task_same by exact Lc. exact Ic.
    + (* PCs: leave *)
      apply cs_task; [exact CS|]. cbn [t_leave incs]. discriminate.
    + (* PUnlock *)
      destruct (requests s) eqn:Rq; cbn [fst] in *; [exact CS|..];
        (destruct (queue s) eqn:Q; cbn [fst] in *;
         [unfold set_pc; cs_pc s c CS|apply cs_handover; try assumption; rewrite Q; discriminate..]).
    + (* PUnlockCas *)
      destruct (requests s) eqn:Rq; cbn [fst] in *; [unfold set_pc| |unfold set_pc]; cs_pc s c CS.
    + (* PBqU *)
      destruct (step_bqu s t c SI P) as (S1 & P1 & Q1 & E). rewrite E in *. clear E.
      unfold build_queue in *. destruct (bq_walk _ _ _ _ _ _) as [[nx dn] q].
      apply cs_handover; [|exact S1|exact SR|exact LR|exact Lt|exact P1|exact Q1].
      unfold set_pc. cs_pc s c CS.
    + exact CS.
  - apply cs_yield; assumption.
Qed.

Lemma init_cs ops : CsInv (init ops).
Proof.
  split; [reflexivity|]. split.
  - intros x E. exfalso. destruct (le_lt_dec (length (tasks (init ops))) x) as [G|G].
    + unfold gtask in E. rewrite nth_overflow in E by exact G. discriminate.
    + rewrite (proj2 (init_task ops x G)) in E. discriminate.
  - intros t x Q. exfalso. unfold gthr, init in Q. cbn [thrs] in Q.
    set (n := length (flat_map decode_task ops)) in Q.
    destruct (le_lt_dec n t) as [G|G].
    + rewrite nth_overflow in Q by (rewrite init_thrs_len; exact G). exact Q.
    + rewrite nth_init_thrs in Q by exact G. exact Q.
Qed.

Lemma reachable_cs ops s : reachable ops s -> CsInv s.
Proof.
  induction 1 as [|s t R IH En]; [apply init_cs|].
  apply step_cs; [eapply reachable_inv; exact R|eapply reachable_linv; exact R|exact IH|exact En].
Qed.

(* the scenario's overlap detector never fires; at most one contender is inside the critical section, it owns
   the mutex, and no task waiting in a ready queue is inside *)
Lemma overlap_never s : SInv s -> CsInv s ->
  ovl s = false /\
  (forall x y, incs (gtask s x) = true -> incs (gtask s y) = true -> x = y) /\
  (forall x, incs (gtask s x) = true -> holds s x /\ tpc (gtask s x) = PCs) /\
  (forall t x, In x (tq (gthr s t)) -> incs (gtask s x) = false).
Proof.
  intros SI (Ovl & AtCs & NotQd).
  split; [exact Ovl|]. split; [|split; [|exact NotQd]].
  - intros x y A B. apply (mutual_exclusion s x y SI); unfold holds; [rewrite (AtCs x A)|rewrite (AtCs y B)]; exact Logic.I.
  - intros x A. split; [unfold holds; rewrite (AtCs x A); exact Logic.I|apply AtCs; exact A].
Qed.

Lemma stuck_list_nil l : forall i, (forall x, In x l -> run x = TIdle) -> stuck_list l i = [].
Proof.
  induction l as [|x l IH]; intros i H; cbn [stuck_list]; [reflexivity|].
  rewrite (H x (or_introl eq_refl)). cbn [app]. apply IH. intros y Hy. apply H. right. exact Hy.
Qed.

Lemma terminal_threads_idle ops s : reachable ops s -> (forall t, enabled s t = false) -> forall t, run (gthr s t) = TIdle.
Proof.
  intros R T t. destruct (terminal_all_done _ _ R T) as (D & _).
  destruct (le_lt_dec (length (thrs s)) t) as [G|G]; [rewrite gthr_out by exact G; reflexivity|].
  destruct (thread_cases ops s t R G) as [(A & _)|[E|(_ & _ & _ & P & _)]]; [exact A|rewrite T in E; discriminate|].
  rewrite D in P. discriminate.
Qed.

Lemma final_block ops s : reachable ops s -> (forall t, enabled s t = false) ->
  err s = false /\ stuck_list (thrs s) 0 = [] /\
  [8; b2z (ovl s); is_null (requests s); is_null (queue s)]%Z = [8; 0; 1; 1]%Z /\
  (forall c, tpc (gtask s c) = PDone) /\ alog s = glog s.
Proof.
  intros R T. destruct (terminal_all_done _ _ R T) as (D & A & B & C).
  destruct (overlap_never s (reachable_inv _ _ R) (reachable_cs _ _ R)) as (O & _). destruct (reachable_inv _ _ R) as [_ I].
  split; [apply (i_err _ I)|]. split.
  - apply stuck_list_nil. intros x Hx. destruct (In_nth _ _ dflt_thr Hx) as (i & _ & <-).
    apply (terminal_threads_idle ops s R T i).
  - rewrite O, A, B. auto.
Qed.
