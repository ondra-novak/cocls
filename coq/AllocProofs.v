(* AllocProofs.v — proofs about the C20 cost model (AllocDefs.v).  `step_ok` is the contract of one op from a state
   satisfying `Inv`; `step_spec` proves it op by op through three shapes (quiet_ok / simple_ok, start_ok, disposed_ok);
   everything about runs is read off it through `run_facts`. *)
From Cocls Require Import Base BaseProofs AllocDefs.
Require Import ZifyBool.
Local Open Scope Z_scope.

Arguments dq_pushes : simpl never.
Arguments dq_pops : simpl never.
Arguments dq_pop_backs : simpl never.
Arguments sp_add_all : simpl never.
Arguments run_items : simpl never.
Arguments walk : simpl never.
Arguments sort_ev : simpl never.
Arguments Z.mul : simpl never.
Arguments Z.add : simpl never.
Arguments Z.div : simpl never.
Arguments Z.modulo : simpl never.

Ltac splits := repeat match goal with |- _ /\ _ => split end.

Lemma cost_ext a b : c_a a = c_a b -> c_ab a = c_ab b -> c_f a = c_f b -> c_fb a = c_fb b -> a = b.
Proof. destruct a, b; cbn; intros; subst; reflexivity. Qed.
Ltac cost_eq := apply cost_ext; unfold cadd, c0; cbn [c_a c_ab c_f c_fb]; lia.

Lemma cadd_c0_l c : cadd c0 c = c. Proof. destruct c; reflexivity. Qed.
Lemma cadd_c0_r c : cadd c c0 = c. Proof. cost_eq. Qed.
Lemma cadd_c0_c0 : cadd c0 c0 = c0. Proof. reflexivity. Qed.
Lemma cadd_assoc a b c : cadd a (cadd b c) = cadd (cadd a b) c. Proof. cost_eq. Qed.

Definition cnonneg (c : cost) : Prop := 0 <= c_a c /\ 0 <= c_f c.
Lemma cnonneg_c0 : cnonneg c0. Proof. unfold cnonneg; cbn; lia. Qed.
Lemma cnonneg_add a b : cnonneg a -> cnonneg b -> cnonneg (cadd a b).
Proof. unfold cnonneg, cadd; cbn [c_a c_f]; lia. Qed.

Lemma zlen_snoc {A} (l : list A) x : zlen (l ++ [x]) = zlen l + 1.
Proof. apply zlen_app. Qed.

(* node_end p: the last position of the deque node that holds position p *)
Definition node_end (p : Z) : Z := p / node_len * node_len + (node_len - 1).

Lemma node_len_pos : 0 < node_len. Proof. reflexivity. Qed.

Lemma node_end_mono_n n a b : 0 < n -> a <= b -> a / n * n <= b / n * n.
Proof. intros N L. apply Z.mul_le_mono_nonneg_r; [lia|apply Z.div_le_mono; lia]. Qed.

Lemma node_end_last_n n p : 0 < n -> p mod n = n - 1 \/ (p + 1) mod n = 0 -> p / n * n + (n - 1) = p.
Proof.
  intros N H. assert (p mod n = n - 1) as M.
  { destruct H as [H|H]; [exact H|]. pose proof (Z.div_mod (p + 1) n). symmetry.
    apply (Z.mod_unique_pos _ _ ((p + 1) / n - 1)); lia. }
  pose proof (Z.div_mod p n). lia.
Qed.

Lemma node_end_mono a b : a <= b -> node_end a <= node_end b.
Proof. intros L. pose proof (node_end_mono_n _ _ _ node_len_pos L). unfold node_end. lia. Qed.

Lemma node_end_last p : p mod node_len = node_len - 1 \/ (p + 1) mod node_len = 0 -> node_end p = p.
Proof. apply node_end_last_n, node_len_pos. Qed.

Lemma dq_reserve_back_cursor d :
  dq_head (fst (dq_reserve_back d)) = dq_head d /\ dq_tail (fst (dq_reserve_back d)) = dq_tail d /\
  dq_hw (fst (dq_reserve_back d)) = dq_hw d.
Proof.
  unfold dq_reserve_back. destruct (dq_map d - dq_fn d <? 2); [destruct (2 * _ <? dq_map d)|]; repeat split.
Qed.

Lemma dq_push_spec d d' c : dq_push d = (d', c) ->
  dq_head d' = dq_head d /\ dq_tail d' = dq_tail d + 1 /\ dq_hw d' = Z.max (dq_hw d) (dq_tail d + 1) /\
  (dq_tail d + 1 <= node_end (dq_tail d) -> c = c0).
Proof.
  unfold dq_push. destruct (Z.eqb_spec (dq_tail d mod node_len) (node_len - 1)) as [E|E].
  - destruct (dq_reserve_back_cursor d) as (H & T & W). destruct (dq_reserve_back d) as [d1 c1]. cbn [fst] in *.
    intros [= <- <-]. cbn [dq_head dq_tail dq_hw]. rewrite H, T, W. repeat split.
    rewrite node_end_last by auto. lia.
  - intros [= <- <-]. repeat split.
Qed.

Lemma dq_pop_spec d d' c : dq_pop d = (d', c) ->
  dq_head d' = dq_head d + 1 /\ dq_tail d' = dq_tail d /\ dq_hw d' = dq_hw d /\
  (dq_head d + 1 <= node_end (dq_head d) -> c = c0).
Proof.
  unfold dq_pop. destruct (Z.eqb_spec (dq_head d mod node_len) (node_len - 1)) as [E|E]; intros [= <- <-]; repeat split.
  rewrite node_end_last by auto. lia.
Qed.

Lemma dq_pop_back_spec d d' c : dq_pop_back d = (d', c) ->
  dq_head d' = dq_head d /\ dq_tail d' = dq_tail d - 1 /\ dq_hw d' = dq_hw d /\
  (dq_tail d <= node_end (dq_tail d - 1) -> c = c0).
Proof.
  unfold dq_pop_back. destruct (Z.eqb_spec (dq_tail d mod node_len) 0) as [E|E]; intros [= <- <-]; repeat split.
  rewrite node_end_last by (rewrite Z.sub_add; auto). lia.
Qed.

Lemma dq_pushes_spec k : forall d d' c, dq_tail d <= dq_hw d -> dq_pushes d k = (d', c) ->
  dq_head d' = dq_head d /\ dq_tail d' = dq_tail d + Z.of_nat k /\
  dq_hw d' = Z.max (dq_hw d) (dq_tail d + Z.of_nat k) /\
  (dq_tail d + Z.of_nat k <= node_end (dq_tail d) -> c = c0).
Proof.
  induction k as [|k IH]; intros d d' c T; unfold dq_pushes; fold dq_pushes.
  - intros [= <- <-]. repeat split; lia.
  - destruct (dq_push d) as [d1 c1] eqn:P, (dq_pushes d1 k) as [d2 c2] eqn:Q. intros [= <- <-].
    apply dq_push_spec in P as (Ph & Pt & Pw & Pc). apply IH in Q as (Qh & Qt & Qw & Qc); [|rewrite Pt, Pw; lia].
    rewrite Pt in Qc. repeat split; try lia.
    intros E. pose proof (node_end_mono (dq_tail d) (dq_tail d + 1)). rewrite Pc, Qc by lia. reflexivity.
Qed.

Lemma dq_pops_spec k : forall d d' c, dq_pops d k = (d', c) ->
  dq_head d' = dq_head d + Z.of_nat k /\ dq_tail d' = dq_tail d /\ dq_hw d' = dq_hw d /\
  (dq_head d + Z.of_nat k <= node_end (dq_head d) -> c = c0).
Proof.
  induction k as [|k IH]; intros d d' c; unfold dq_pops; fold dq_pops.
  - intros [= <- <-]. repeat split; lia.
  - destruct (dq_pop d) as [d1 c1] eqn:P, (dq_pops d1 k) as [d2 c2] eqn:Q. intros [= <- <-].
    apply dq_pop_spec in P as (Ph & Pt & Pw & Pc). apply IH in Q as (Qh & Qt & Qw & Qc).
    rewrite Ph in Qc. repeat split; try lia.
    intros E. pose proof (node_end_mono (dq_head d) (dq_head d + 1)). rewrite Pc, Qc by lia. reflexivity.
Qed.

Lemma dq_pop_backs_spec k : forall d d' c, dq_pop_backs d k = (d', c) ->
  dq_head d' = dq_head d /\ dq_tail d' = dq_tail d - Z.of_nat k /\ dq_hw d' = dq_hw d /\
  (dq_tail d <= node_end (dq_tail d - Z.of_nat k) -> c = c0).
Proof.
  induction k as [|k IH]; intros d d' c; unfold dq_pop_backs; fold dq_pop_backs.
  - intros [= <- <-]. repeat split; lia.
  - destruct (dq_pop_back d) as [d1 c1] eqn:P, (dq_pop_backs d1 k) as [d2 c2] eqn:Q. intros [= <- <-].
    apply dq_pop_back_spec in P as (Ph & Pt & Pw & Pc). apply IH in Q as (Qh & Qt & Qw & Qc).
    rewrite Pt in Qc. repeat split; try lia.
    intros E. replace (dq_tail d - Z.of_nat (S k)) with (dq_tail d - 1 - Z.of_nat k) in E by lia.
    pose proof (node_end_mono (dq_tail d - 1 - Z.of_nat k) (dq_tail d - 1)). rewrite Pc, Qc by lia. reflexivity.
Qed.

Definition sp_wf (s : spt) : Prop :=
  (sp_flag s = true -> 3 < sp_size s) /\ (sp_flag s = false -> sp_size s <= 3).

Lemma sp_wf_empty : sp_wf sp_empty.
Proof. split; [discriminate|]. intros _. cbn. lia. Qed.

Lemma sp_size_nonneg s : 0 <= sp_size s. Proof. apply zlen_nonneg. Qed.

Lemma sp_add_spec s h s' c : sp_wf s -> sp_add s h = (s', c) ->
  sp_wf s' /\ sp_hs s' = sp_hs s ++ [h] /\ cnonneg c /\ (sp_size s' <= 3 -> c = c0).
Proof.
  unfold sp_wf, sp_add, sp_size, inline_count, cnonneg. intros [W1 W2].
  destruct (sp_flag s);
    [specialize (W1 eq_refl); destruct (_ =? _)|specialize (W2 eq_refl); destruct (Z.ltb_spec (zlen (sp_hs s)) 3)];
    intros [= <- <-]; cbn [sp_flag sp_hs c_a c_f cadd c_alloc c_free c0]; rewrite zlen_snoc;
    repeat split; try discriminate; lia.
Qed.

Lemma sp_add_all_spec l : forall s s' c, sp_wf s -> sp_add_all s l = (s', c) ->
  sp_wf s' /\ sp_hs s' = sp_hs s ++ l /\ cnonneg c /\ (sp_size s' <= 3 -> c = c0).
Proof.
  induction l as [|h l IH]; intros s s' c W; unfold sp_add_all; fold sp_add_all.
  - intros [= <- <-]. rewrite app_nil_r. auto using cnonneg_c0.
  - destruct (sp_add s h) as [s1 c1] eqn:A, (sp_add_all s1 l) as [s2 c2] eqn:B. intros [= <- <-].
    apply (sp_add_spec _ _ _ _ W) in A as (W1 & H1 & N1 & Z1). apply (IH _ _ _ W1) in B as (W2 & H2 & N2 & Z2).
    rewrite H1, <- app_assoc in H2. split; [exact W2|]. split; [exact H2|]. split; [apply cnonneg_add; assumption|].
    intros S. rewrite Z1, Z2; [reflexivity|exact S|].
    unfold sp_size in *. rewrite H2, H1, !zlen_app in *. pose proof (zlen_nonneg l). lia.
Qed.

Lemma sp_clear_cost_spec s : sp_wf s -> cnonneg (sp_clear_cost s) /\ (sp_size s <= 3 -> sp_clear_cost s = c0).
Proof.
  unfold sp_wf, sp_clear_cost, cnonneg. intros [W1 W2].
  destruct (sp_flag s); [specialize (W1 eq_refl)|]; cbn; repeat split; lia.
Qed.

Lemma sp_merge_spec d s d' c : sp_wf d -> sp_wf s -> sp_merge d s = (d', c) ->
  sp_wf d' /\ sp_hs d' = sp_hs d ++ sp_hs s /\ cnonneg c /\ (sp_size d' <= 3 -> c = c0).
Proof.
  intros Wd Ws. unfold sp_merge. destruct (sp_add_all d (sp_hs s)) as [d1 c1] eqn:A. intros [= <- <-].
  apply (sp_add_all_spec _ _ _ _ Wd) in A as (W1 & H1 & N1 & Z1). destruct (sp_clear_cost_spec s Ws) as (N2 & Z2).
  split; [exact W1|]. split; [exact H1|]. split; [apply cnonneg_add; assumption|].
  intros S. rewrite Z1, Z2; [reflexivity| |exact S].
  unfold sp_size in *. rewrite H1, zlen_app in S. pose proof (zlen_nonneg (sp_hs d)). lia.
Qed.

(* the cost of a suspend point depends on handle counts alone *)
Definition sim (a b : spt) : Prop :=
  sp_size a = sp_size b /\ sp_flag a = sp_flag b /\ (sp_flag a = true -> sp_cap a = sp_cap b).

Lemma sim_refl a : sim a a. Proof. unfold sim; auto. Qed.

Lemma sim_add a b h h' : sim a b ->
  snd (sp_add a h) = snd (sp_add b h') /\ sim (fst (sp_add a h)) (fst (sp_add b h')).
Proof.
  unfold sim, sp_add, sp_size, inline_count. intros (S & F & C). rewrite <- F, <- S.
  destruct (sp_flag a); [rewrite <- (C eq_refl); destruct (_ =? _)|destruct (_ <? _)];
    cbn [fst snd sp_hs sp_flag sp_cap]; rewrite !zlen_snoc, <- S; repeat split; try discriminate; lia.
Qed.

Lemma sim_add_all l : forall l' a b, length l = length l' -> sim a b ->
  snd (sp_add_all a l) = snd (sp_add_all b l') /\ sim (fst (sp_add_all a l)) (fst (sp_add_all b l')).
Proof.
  induction l as [|h l IH]; intros [|h' l'] a b L S; try discriminate L; unfold sp_add_all; fold sp_add_all; [auto|].
  injection L as L. destruct (sim_add a b h h' S) as (E1 & S1). destruct (sp_add a h) as [a1 c1], (sp_add b h') as [b1 d1].
  destruct (IH l' a1 b1 L S1) as (E2 & S2). destruct (sp_add_all a1 l) as [a2 c2], (sp_add_all b1 l') as [b2 d2].
  cbn [fst snd] in *. subst. auto.
Qed.

Lemma sim_clear a b : sim a b -> sp_clear_cost a = sp_clear_cost b.
Proof.
  unfold sim, sp_clear_cost. intros (S & F & C). rewrite <- F. destruct (sp_flag a); [rewrite (C eq_refl)|]; reflexivity.
Qed.

Lemma sp_add_all_app l1 : forall l2 s,
  fst (sp_add_all s (l1 ++ l2)) = fst (sp_add_all (fst (sp_add_all s l1)) l2) /\
  snd (sp_add_all s (l1 ++ l2)) = cadd (snd (sp_add_all s l1)) (snd (sp_add_all (fst (sp_add_all s l1)) l2)).
Proof.
  induction l1 as [|h l1 IH]; intros l2 s; cbn [app]; unfold sp_add_all; fold sp_add_all.
  - cbn [fst snd]. rewrite cadd_c0_l. auto.
  - destruct (sp_add s h) as [s1 c1]. destruct (IH l2 s1) as (A & B).
    destruct (sp_add_all s1 (l1 ++ l2)) as [s2 c2], (sp_add_all s1 l1) as [s3 c3]. cbn [fst snd] in *.
    rewrite A, B, cadd_assoc. auto.
Qed.

Lemma mk_sp_plus a b : 0 <= a -> 0 <= b ->
  fst (sp_add_all (mk_sp a) (repeat dummy (n b))) = mk_sp (a + b).
Proof.
  intros A B. unfold mk_sp, n. rewrite Z2Nat.inj_add, repeat_app by assumption. symmetry. apply sp_add_all_app.
Qed.

Lemma mk_sp_wf k : sp_wf (mk_sp k) /\ (0 <= k -> sp_size (mk_sp k) = k).
Proof.
  unfold mk_sp. destruct (sp_add_all sp_empty (repeat dummy (n k))) as [s c] eqn:A.
  apply (sp_add_all_spec _ _ _ _ sp_wf_empty) in A as (W & H & _). split; [exact W|].
  intros K. cbn [fst]. unfold sp_size. rewrite H. cbn [sp_hs sp_empty app]. unfold zlen, n. rewrite repeat_length. lia.
Qed.

(* canonical suspend point: well formed and with the capacity of one that grew from empty by single adds *)
Definition sp_can (s : spt) : Prop := sp_wf s /\ sim s (mk_sp (sp_size s)).

Lemma sp_can_empty : sp_can sp_empty.
Proof. split; [apply sp_wf_empty|apply sim_refl]. Qed.

Lemma sp_can_single h : sp_can (mkSp [h] false 0).
Proof. repeat split; discriminate. Qed.

Lemma add_all_can l s s' c : sp_can s -> sp_add_all s l = (s', c) ->
  sp_can s' /\ sp_size s' = sp_size s + zlen l /\ c = grow_cost (sp_size s) (sp_size s').
Proof.
  intros (W & S) A. destruct (sp_add_all_spec _ _ _ _ W A) as (W' & H & _).
  assert (sp_size s' = sp_size s + zlen l) as Sz by (unfold sp_size; rewrite H; apply zlen_app).
  pose proof (sp_size_nonneg s) as N0.
  assert (length l = length (repeat dummy (n (sp_size s' - sp_size s)))) as L.
  { rewrite repeat_length, Sz. unfold n, zlen. lia. }
  destruct (sim_add_all l _ s _ L S) as (E & S'). rewrite A in E, S'. cbn [fst snd] in E, S'.
  rewrite mk_sp_plus in S' by (unfold zlen in Sz; lia).
  replace (sp_size s + (sp_size s' - sp_size s)) with (sp_size s') in S' by lia.
  split; [split; [exact W'|exact S']|]. split; [exact Sz|exact E].
Qed.

Lemma clear_can s : sp_can s -> sp_clear_cost s = clear_cost (sp_size s).
Proof. intros (_ & S). apply sim_clear, S. Qed.

Lemma merge_can d s d' c : sp_can d -> sp_can s -> sp_merge d s = (d', c) ->
  sp_can d' /\ sp_size d' = sp_size d + sp_size s /\
  c = cadd (grow_cost (sp_size d) (sp_size d')) (clear_cost (sp_size s)).
Proof.
  intros Cd Cs. unfold sp_merge. destruct (sp_add_all d (sp_hs s)) as [d1 c1] eqn:A. intros [= <- <-].
  apply (add_all_can _ _ _ _ Cd) in A as (C' & Sz & ->). rewrite (clear_can s Cs). auto.
Qed.

Lemma grow_same a : grow_cost a a = c0.
Proof. unfold grow_cost. rewrite Z.sub_diag. reflexivity. Qed.

Lemma grow_split a b c : 0 <= a <= b -> b <= c -> grow_cost a c = cadd (grow_cost a b) (grow_cost b c).
Proof.
  intros A B. unfold grow_cost. replace (c - a) with (b - a + (c - b)) by lia.
  unfold n at 1. rewrite Z2Nat.inj_add, repeat_app by lia. fold (n (b - a)) (n (c - b)).
  destruct (sp_add_all_app (repeat dummy (n (b - a))) (repeat dummy (n (c - b))) (mk_sp a)) as [_ ->].
  rewrite mk_sp_plus by lia. replace (a + (b - a)) with b by lia. reflexivity.
Qed.

Lemma grow_nonneg a b : cnonneg (grow_cost a b).
Proof.
  unfold grow_cost. destruct (sp_add_all (mk_sp a) _) as [s c] eqn:E.
  apply (sp_add_all_spec _ _ _ _ (proj1 (mk_sp_wf a))) in E. apply E.
Qed.

Lemma grow_small a b : 0 <= a -> a <= b -> b <= 3 -> grow_cost a b = c0.
Proof.
  intros A B C. unfold grow_cost. destruct (mk_sp_wf a) as (W & Sz).
  destruct (sp_add_all (mk_sp a) (repeat dummy (n (b - a)))) as [s c] eqn:E.
  apply (sp_add_all_spec _ _ _ _ W) in E as (_ & H & _ & Z). apply Z.
  unfold sp_size. rewrite H, zlen_app. fold (sp_size (mk_sp a)). rewrite (Sz A).
  unfold zlen, n. rewrite repeat_length. lia.
Qed.

(* the threshold: from an empty suspend point, the first allocation is exactly the 4th handle (one array of 6 pointers) *)
Lemma sp_threshold_le3 l : (length l <= 3)%nat ->
  snd (sp_add_all sp_empty l) = c0 /\ sp_flag (fst (sp_add_all sp_empty l)) = false.
Proof.
  intros L. destruct (sp_add_all sp_empty l) as [s c] eqn:A.
  apply (add_all_can _ _ _ _ sp_can_empty) in A as (((W & _) & _) & Sz & ->). change (sp_size sp_empty) with 0 in *.
  unfold zlen in Sz. cbn [fst snd]. split; [apply grow_small; lia|].
  destruct (sp_flag s); [specialize (W eq_refl); lia|reflexivity].
Qed.

Lemma grow_alloc_pos k : 3 < k -> 1 <= c_a (grow_cost 0 k).
Proof.
  intros K. rewrite (grow_split 0 4 k) by lia. change (grow_cost 0 4) with (c_alloc 48).
  destruct (grow_nonneg 4 k). cbn [cadd c_a c_alloc]. lia.
Qed.

Lemma clear_nonneg k : cnonneg (clear_cost k).
Proof. apply sp_clear_cost_spec, mk_sp_wf. Qed.

Lemma clear_le3 k : k <= 3 -> clear_cost k = c0.
Proof.
  intros K. destruct (Z_lt_le_dec k 0) as [N|N]; [destruct k; try lia; reflexivity|].
  destruct (mk_sp_wf k) as (W & Sz). apply (sp_clear_cost_spec _ W). rewrite (Sz N). exact K.
Qed.

Definition same3 (st st' : state) : Prop := slots st' = slots st /\ rq st' = rq st /\ dq st' = dq st.

Definition Inv (coro : bool) (st : state) : Prop :=
  Forall sp_can (slots st) /\ 0 <= dq_head (dq st) /\ dq_head (dq st) + zlen (rq st) = dq_tail (dq st) /\
  dq_tail (dq st) <= dq_hw (dq st) /\ (coro = false -> rq st = [] /\ dq_tail (dq st) = 0).

(* setters of the other fields leave these three alone by computation: `repeat split` proves such a same3 *)
Lemma same3_refl st : same3 st st. Proof. repeat split. Qed.
Lemma same3_setk st k x : same3 st (setk st k x). Proof. repeat split. Qed.
Lemma same3_trans a b c : same3 a b -> same3 b c -> same3 a c.
Proof. unfold same3. intros (A1 & A2 & A3) (B1 & B2 & B3). rewrite B1, B2, B3. auto. Qed.
Lemma Inv_same3 coro st st' : same3 st st' -> Inv coro st -> Inv coro st'.
Proof. unfold same3, Inv. intros (A1 & A2 & A3). rewrite A1, A2, A3. auto. Qed.

Lemma release_spec st w : same3 st (release_waiter st w) /\ live (release_waiter st w) = live st.
Proof. unfold release_waiter. destruct w as [k i]. destruct (k =? 1); [|destruct (k =? 2)]; repeat split. Qed.

Lemma Inv_st0 coro : Inv coro st0.
Proof.
  split; [|repeat split; discriminate]. apply Forall_forall. intros x H. apply repeat_spec in H. subst. apply sp_can_empty.
Qed.

Lemma map_set_nth {A B} (f : A -> B) l i x : map f (set_nth l i x) = set_nth (map f l) i (f x).
Proof. revert i; induction l as [|y l IH]; intros [|i]; cbn [set_nth map]; try reflexivity. rewrite IH. reflexivity. Qed.

Lemma gets_can st s : Forall sp_can (slots st) -> sp_can (gets st s).
Proof.
  intros H. unfold gets. destruct (nth_in_or_default (n s) (slots st) sp_empty) as [I|E].
  - rewrite Forall_forall in H. apply H. exact I.
  - rewrite E. apply sp_can_empty.
Qed.

Definition sizes (st : state) : list Z := map sp_size (slots st).
Lemma sizes_nth st s : nth (n s) (sizes st) 0 = sp_size (gets st s).
Proof. unfold sizes, gets. change 0 with (sp_size sp_empty). apply map_nth. Qed.
Lemma sizes_same3 st st' : same3 st st' -> sizes st' = sizes st.
Proof. intros (E & _). unfold sizes. rewrite E. reflexivity. Qed.
Lemma sizes_sets st s x : sizes (sets st s x) = upd (sizes st) s (sp_size x).
Proof. apply map_set_nth. Qed.

Lemma run_item_spec st it st' ev k : run_item st it = (st', ev, k) ->
  same3 st st' /\ 0 <= k /\ live st' = live st - k.
Proof.
  unfold run_item. destruct it as [[k0 w] o].
  destruct (k0 =? 0); [|destruct (k0 =? 1); [|destruct (k0 =? 2); [destruct (f_st _ =? 3)|destruct (m_st _ =? 0)]]];
    intros [= <- <- <-]; cbn [live addlive setm setf]; repeat split; lia.
Qed.

Lemma run_items_spec l : forall st st' ev k, run_items st l = (st', ev, k) ->
  same3 st st' /\ 0 <= k /\ live st' = live st - k.
Proof.
  induction l as [|it l IH]; intros st st' ev k; unfold run_items; fold run_items.
  - intros [= <- <- <-]. repeat split; lia.
  - destruct (run_item st it) as [[st1 e] k1] eqn:R, (run_items st1 l) as [[st2 es] k2] eqn:Q. intros [= <- <- <-].
    apply run_item_spec in R as (Rs & Rk & Rl). apply IH in Q as (Qs & Qk & Ql).
    split; [exact (same3_trans _ _ _ Rs Qs)|lia].
Qed.

Definition dq_le (d d' : deque) : Prop := dq_head d <= dq_head d' /\ dq_hw d <= dq_hw d'.

(* st' is st after coroutines were resumed through the ready queue: k ran to their end, the deque cost c *)
Definition ran (coro : bool) (st st' : state) (c : cost) (k : Z) : Prop :=
  Inv coro st' /\ dq_le (dq st) (dq st') /\ 0 <= k /\ live st' = live st - k /\
  (dq_hw (dq st') <= node_end (dq_head (dq st)) -> c = c0) /\ (coro = false -> c = c0).

Lemma ran_same3 coro st st' k : Inv coro st -> same3 st st' -> 0 <= k -> live st' = live st - k ->
  ran coro st st' c0 k.
Proof.
  intros I S K L. split; [exact (Inv_same3 _ _ _ S I)|]. destruct S as (_ & _ & ->). unfold dq_le. repeat split; auto; lia.
Qed.

Lemma suspend_drain_spec st first pushed st' ev c k : Inv true st -> suspend_drain st first pushed = (st', ev, c, k) ->
  ran true st st' c k /\ slots st' = slots st.
Proof.
  intros (Isl & Ihd & Irq & Ihw & _). unfold suspend_drain.
  destruct (dq_pushes _ _) as [d1 c1] eqn:P, (dq_pops d1 _) as [d2 c2] eqn:Q, (run_items _ _) as [[st1 ev1] k1] eqn:R.
  intros [= <- <- <- <-].
  apply dq_pushes_spec in P as (Ph & Pt & Pw & Pc); [|exact Ihw]. apply dq_pops_spec in Q as (Qh & Qt & Qw & Qc).
  apply run_items_spec in R as ((Rsl & Rrq & Rdq) & K & Lv). cbn [setq slots rq dq live] in *. unfold zlen in *.
  split; [|exact Rsl]. split; [unfold Inv; rewrite Rsl, Rrq, Rdq; repeat split; try discriminate; cbn; try lia; exact Isl|].
  rewrite Rdq. unfold dq_le. repeat split; try discriminate; try lia.
  intros T. pose proof (node_end_mono (dq_head (dq st)) (dq_tail (dq st))). rewrite Ph in Qc. rewrite Pc, Qc by lia.
  reflexivity.
Qed.

(* what `dispose` of a suspend point of k handles does to the sizes sl of the suspend point variables *)
Definition disposed (sl : list Z) (how s k sps : Z) (csp : cost) (sl' : list Z) : Prop :=
  if how =? 2
  then sps = nth (n s) sl 0 + k /\ csp = cadd (grow_cost (nth (n s) sl 0) sps) (clear_cost k) /\ sl' = upd sl s sps
  else sps = k /\ csp = clear_cost k /\ sl' = sl.

Lemma dispose_spec coro how s st sp st' ev csp cdq k sps : Inv coro st -> sp_can sp ->
  dispose coro how s st sp = (st', ev, csp, cdq, k, sps) ->
  ran coro st st' cdq k /\ disposed (sizes st) how s (sp_size sp) sps csp (sizes st').
Proof.
  intros I C. unfold dispose, disposed. destruct (how =? 2).
  { destruct (sp_merge (gets st s) sp) as [d1 c] eqn:M. intros [= <- <- <- <- <- <-].
    apply merge_can in M as (C1 & Sz & E); [|apply gets_can, I|exact C]. rewrite sizes_nth, sizes_sets, <- Sz.
    split; [|auto]. destruct I as (Isl & Idq). unfold ran, Inv, dq_le. cbn [sets slots rq dq live].
    split; [split; [apply Forall_set_nth; assumption|exact Idq]|]. repeat split; auto; lia. }
  rewrite <- (clear_can sp C).
  destruct coro; cbn [negb].
  2:{ destruct (run_items st (sp_hs sp)) as [[st1 ev1] k1] eqn:R. intros [= <- <- <- <- <- <-].
      apply run_items_spec in R as (R & K & Lv). auto using ran_same3, sizes_same3. }
  destruct (how =? 0).
  { destruct (dq_pushes _ _) as [d1 c] eqn:P. intros [= <- <- <- <- <- <-]. split; [|auto].
    destruct I as (Isl & Ihd & Irq & Ihw & Inorm). apply dq_pushes_spec in P as (Ph & Pt & Pw & Pc); [|exact Ihw].
    pose proof (zlen_nonneg (rq st)). unfold ran, Inv, dq_le. cbn [setq slots rq dq live]. rewrite zlen_app. unfold zlen in *.
    repeat split; try discriminate; try lia; [exact Isl|].
    intros T. pose proof (node_end_mono (dq_head (dq st)) (dq_tail (dq st))). apply Pc. lia. }
  destruct (sp_hs sp) as [|h0 t0].
  { intros [= <- <- <- <- <- <-]. split; [apply ran_same3; [exact I|apply same3_refl|lia..]|auto]. }
  destruct (suspend_drain _ _ _) as [[[st1 ev1] c] k1] eqn:D. intros [= <- <- <- <- <- <-].
  apply (suspend_drain_spec _ _ _ _ _ _ _ I) in D as (D & S). split; [exact D|]. unfold sizes. rewrite S. auto.
Qed.

(* create_suspend_point around a resolution; plain = true: no such wrapper *)
Lemma csp_wrap_spec coro (plain : bool) st sp st' ss c1 c2 : Inv coro st -> sp_can sp ->
  (if plain then (st, sp, c0, c0) else csp_wrap st sp) = (st', ss, c1, c2) ->
  Inv coro st' /\ slots st' = slots st /\ live st' = live st /\ dq_le (dq st) (dq st') /\
  sp_can ss /\ sp_size ss = sp_size sp /\
  c1 = (if plain then c0 else cadd (clear_cost (sp_size sp)) (grow_cost 0 (sp_size sp))) /\
  (dq_hw (dq st') <= node_end (dq_head (dq st)) -> c2 = c0) /\ (coro = false -> sp_size sp <= 63 -> c2 = c0).
Proof.
  intros I C. unfold dq_le. destruct plain; [intros [= <- <- <- <-]; splits; auto; lia|].
  destruct I as (Isl & Ihd & Irq & Ihw & Inorm). unfold csp_wrap.
  destruct (dq_pushes _ _) as [d1 e1] eqn:P, (dq_pop_backs d1 _) as [d2 e2] eqn:Q, (sp_add_all _ _) as [s1 e3] eqn:A.
  intros [= <- <- <- <-].
  apply dq_pushes_spec in P as (Ph & Pt & Pw & Pc); [|exact Ihw]. apply dq_pop_backs_spec in Q as (Qh & Qt & Qw & Qc).
  apply (add_all_can _ _ _ _ sp_can_empty) in A as (C1 & Sz & ->). change (sp_size sp_empty) with 0 in *.
  assert (sp_size s1 = sp_size sp) as Sz' by (rewrite Sz; unfold sp_size, zlen; rewrite rev_length; lia).
  rewrite (clear_can sp C), Sz'. unfold Inv, sp_size, zlen in *. cbn [setq slots rq dq live].
  rewrite Pt in Qc. replace (dq_tail (dq st) + _ - _) with (dq_tail (dq st)) in Qc by lia.
  pose proof (node_end_mono (dq_head (dq st)) (dq_tail (dq st))).
  splits; auto; try lia.
  - intros F. destruct (Inorm F). split; [assumption|lia].
  - intros T. rewrite Pc, Qc by lia. reflexivity.
  - intros F L. destruct (Inorm F) as (_ & T0). rewrite T0 in *. change (node_end 0) with 63 in *.
    rewrite Pc, Qc by lia. reflexivity.
Qed.

Definition coro_waiters (l : list waiter) : list waiter := filter (fun w => fst w =? 0) l.
Definition witems (f : Z) (l : list waiter) : list item := map (fun w => (0, snd w, f)) (coro_waiters l).

Lemma walk_add_all f out v l : forall st sp st' sp' c cb sy,
  walk f out v st sp l = (st', sp', c, cb, sy) ->
  sp_add_all sp (witems f l) = (sp', c) /\ same3 st st' /\ live st' = live st.
Proof.
  induction l as [|[k i] l IH]; intros st sp st' sp' c cb sy; unfold walk; fold walk.
  - intros [= <- <- <- <- <-]. repeat split.
  - destruct (release_spec st (k, i)) as (S & Lv).
    unfold witems, coro_waiters. cbn [filter fst]. fold (coro_waiters l). destruct (k =? 0).
    + destruct (sp_add sp (0, i, f)) as [sp1 c1] eqn:A, (walk f out v _ sp1 l) as [[[[st2 sp2] c2] cb2] sy2] eqn:Q.
      intros [= <- <- <- <- <-]. apply IH in Q as (E & S2 & Lv2).
      cbn [map snd]. unfold sp_add_all; fold sp_add_all. fold (witems f l). rewrite A, E.
      split; [reflexivity|]. split; [exact (same3_trans _ _ _ S S2)|congruence].
    + destruct (walk f out v _ sp l) as [[[[st2 sp2] c2] cb2] sy2] eqn:Q. apply IH in Q as (E & S2 & Lv2).
      destruct (k =? 2); intros [= <- <- <- <- <-];
        (split; [exact E|]; split; [exact (same3_trans _ _ _ S S2)|congruence]).
Qed.

Definition frame_ok (heap : bool) (x : op) (o : obs) : Prop :=
  c_a (o_cfr o) = (if heap then frames_of x else 0) /\ 0 <= c_f (o_cfr o) /\ (heap = false -> c_f (o_cfr o) = 0).

Definition step_ok (coro heap : bool) (st : state) (x : op) (r : state * obs) : Prop :=
  let (st', o) := r in
  Inv coro st' /\ dq_le (dq st) (dq st') /\
  (dq_hw (dq st') <= node_end (dq_head (dq st)) -> o_cdq o = c0) /\
  (coro = false -> o_sps o <= 63 -> o_cdq o = c0) /\
  ((o = rejected /\ st' = st) \/
   (o_st o = 0 /\ frame_ok heap x o /\
    (heap = true -> c_a (o_cfr o) - c_f (o_cfr o) = live st' - live st) /\
    sp_budget (sizes st) x (o_sps o) = Some (o_csp o, sizes st'))).

Lemma rejected_ok (coro heap : bool) st x : Inv coro st -> step_ok coro heap st x (st, rejected).
Proof. intros I. unfold step_ok, dq_le. splits; auto; lia. Qed.

Lemma guarded_ok (coro heap : bool) st x (g : bool) r : Inv coro st ->
  (g = true -> step_ok coro heap st x r) -> step_ok coro heap st x (if g then r else (st, rejected)).
Proof. intros I H. destruct g; [auto|apply rejected_ok, I]. Qed.

Ltac guarded I G := unfold step; cbv zeta; apply guarded_ok; [exact I|intros G].

Lemma accepted_ok (coro heap : bool) st x st' res sps cfr csp cdq ev k :
  Inv coro st' -> dq_le (dq st) (dq st') ->
  (dq_hw (dq st') <= node_end (dq_head (dq st)) -> cdq = c0) -> (coro = false -> sps <= 63 -> cdq = c0) ->
  c_a cfr = (if heap then frames_of x else 0) -> c_f cfr = (if heap then k else 0) -> 0 <= k ->
  live st' = live st + frames_of x - k ->
  sp_budget (sizes st) x sps = Some (csp, sizes st') ->
  step_ok coro heap st x (st', mkObs 0 res sps cfr csp cdq ev).
Proof.
  intros I T Z Zn A F K L B. unfold step_ok, frame_ok; cbn [o_st o_cdq o_sps o_csp o_cfr]. splits; auto.
  right. rewrite A, F. destruct heap; splits; auto; try discriminate; lia.
Qed.

Definition plain_op (x : op) : bool :=
  match x with FResolve _ _ _ _ _ | MUnlock _ _ _ | SpFlush _ _ => false | _ => true end.

Lemma budget_plain sl x sps : plain_op x = true -> sp_budget sl x sps = Some (c0, sl).
Proof. destruct x; try discriminate; reflexivity. Qed.

(* the step frees j frames: k by the coroutines resumed after sta, j - k on the way to sta *)
Lemma ran_ok (coro heap : bool) st x sta st' res sps cfr c ev k j :
  same3 st sta -> ran coro sta st' c k -> slots st' = slots sta -> plain_op x = true ->
  c_a cfr = (if heap then frames_of x else 0) -> c_f cfr = (if heap then j else 0) -> k <= j ->
  live sta = live st + frames_of x - (j - k) ->
  step_ok coro heap st x (st', mkObs 0 res sps cfr c0 c ev).
Proof.
  intros (Ssl & _ & Sdq) (I & T & K & L & Z & Zn) Sl P A F J La. rewrite Sdq in T, Z.
  apply (accepted_ok _ _ _ _ _ _ _ _ _ _ _ j); auto; try lia.
  unfold sizes. rewrite Sl, Ssl. apply budget_plain, P.
Qed.

Lemma simple_ok (coro heap : bool) st x st' res sps cfr ev j : Inv coro st -> same3 st st' -> plain_op x = true ->
  c_a cfr = (if heap then frames_of x else 0) -> c_f cfr = (if heap then j else 0) -> 0 <= j ->
  live st' = live st + frames_of x - j ->
  step_ok coro heap st x (st', mkObs 0 res sps cfr c0 c0 ev).
Proof.
  intros I S P A F J L. apply (ran_ok _ _ _ _ st' _ _ _ _ _ _ 0 j); auto; try lia.
  apply ran_same3; auto using same3_refl, (Inv_same3 _ _ _ S); lia.
Qed.

Lemma quiet_ok (coro heap : bool) st x st' res sps ev : Inv coro st -> same3 st st' -> plain_op x = true ->
  frames_of x = 0 -> live st' = live st -> step_ok coro heap st x (st', mkObs 0 res sps c0 c0 c0 ev).
Proof. intros I S P F L. apply (simple_ok _ _ _ _ _ _ _ _ _ 0); rewrite ?F; auto; try lia; destruct heap; reflexivity. Qed.

Lemma mode_ok_coro coro mode : mode_ok coro mode = true -> mode <> 0 -> coro = true.
Proof. unfold mode_ok. destruct coro; [reflexivity|lia]. Qed.

Lemma after_start_spec coro mode st ev0 st' ev c k : Inv coro st -> mode_ok coro mode = true ->
  after_start coro mode st ev0 = (st', ev, c, k) -> ran coro st st' c k /\ slots st' = slots st.
Proof.
  intros I M. unfold after_start. destruct (Z.eqb_spec mode 1) as [E|_].
  - rewrite (mode_ok_coro _ _ M) in * by lia.
    destruct (suspend_drain st [] []) as [[[st1 ev1] c1] k1] eqn:D. intros [= <- <- <- <-].
    exact (suspend_drain_spec _ _ _ _ _ _ _ I D).
  - intros [= <- <- <- <-]. split; [apply ran_same3; auto using same3_refl; lia|reflexivity].
Qed.

Lemma deferred_ok (heap : bool) st x it st' c res :
  Inv true st -> frames_of x = 1 -> plain_op x = true -> defer_start st it = (st', c) ->
  step_ok true heap st x (st', mkObs 0 res 1 (frame_new heap) c0 c []).
Proof.
  intros (Isl & Ihd & Irq & Ihw & Inorm) F P. unfold defer_start. destruct (dq_push (dq st)) as [d1 c1] eqn:D.
  intros [= <- <-]. apply dq_push_spec in D as (Dh & Dt & Dw & Dc). pose proof (zlen_nonneg (rq st)).
  pose proof (node_end_mono (dq_head (dq st)) (dq_tail (dq st))).
  apply (accepted_ok _ _ _ _ _ _ _ _ _ _ _ 0); unfold Inv, dq_le; cbn [addlive setq dq slots rq live]; try rewrite zlen_snoc;
    splits; try discriminate; try lia; auto.
  - intros T. apply Dc. lia.
  - rewrite F. destruct heap; reflexivity.
  - destruct heap; reflexivity.
  - apply budget_plain, P.
Qed.

(* the shape FAwaitCoro, FAwaitCbA and MLockCoro share *)
Lemma start_ok (coro heap : bool) st x mode it (ready : bool) sta ev0 stb : Inv coro st ->
  mode_ok coro mode = true -> frames_of x = 1 -> plain_op x = true ->
  same3 st sta -> live sta = live st -> same3 st stb -> live stb = live st + 1 ->
  step_ok coro heap st x
    (if mode =? 2 then let '(st1, c) := defer_start st it in (st1, mkObs 0 0 1 (frame_new heap) c0 c [])
     else if ready then
       let '(st1, ev, c, k) := after_start coro mode sta ev0 in
       (st1, mkObs 0 0 0 (cadd (frame_new heap) (frames_freed heap (k + 1))) c0 c ev)
     else
       let '(st1, ev, c, k) := after_start coro mode stb [] in
       (st1, mkObs 0 0 0 (cadd (frame_new heap) (frames_freed heap k)) c0 c ev)).
Proof.
  intros I M F P Sa La Sb Lb. destruct (Z.eqb_spec mode 2) as [E|_].
  { rewrite (mode_ok_coro _ _ M) in * by lia. destruct (defer_start st it) as [st1 c] eqn:D.
    exact (deferred_ok heap st x it st1 c 0 I F P D). }
  destruct ready.
  - destruct (after_start coro mode sta ev0) as [[[st1 ev] c] k] eqn:A.
    apply (after_start_spec _ _ _ _ _ _ _ _ (Inv_same3 _ _ _ Sa I) M) in A as (R & Sl).
    apply ran_ok with (sta := sta) (k := k) (j := k + 1); rewrite ?F; trivial; try lia; destruct heap; reflexivity.
  - destruct (after_start coro mode stb []) as [[[st1 ev] c] k] eqn:A.
    apply (after_start_spec _ _ _ _ _ _ _ _ (Inv_same3 _ _ _ Sb I) M) in A as (R & Sl).
    apply ran_ok with (sta := stb) (k := k) (j := k); rewrite ?F; trivial; try lia; destruct heap; reflexivity.
Qed.

(* FResolve, MUnlock, SpFlush: from sta, reached without resuming anything, a suspend point goes to `dispose` *)
Lemma disposed_ok (coro heap : bool) st x sta st' how s sp ev csp0 csp cdq0 cdq k sps res evs :
  Inv coro sta -> live sta = live st -> dq_le (dq st) (dq sta) -> sp_can sp -> frames_of x = 0 ->
  (dq_hw (dq sta) <= node_end (dq_head (dq st)) -> cdq0 = c0) -> (coro = false -> sp_size sp <= 63 -> cdq0 = c0) ->
  dispose coro how s sta sp = (st', ev, csp, cdq, k, sps) ->
  (forall sl', disposed (sizes sta) how s (sp_size sp) sps csp sl' ->
               sp_budget (sizes st) x sps = Some (cadd csp0 csp, sl')) ->
  step_ok coro heap st x (st', mkObs 0 res sps (frames_freed heap k) (cadd csp0 csp) (cadd cdq0 cdq) evs).
Proof.
  intros Ia Lv Hw C F Z0 Zn D B. apply (dispose_spec _ _ _ _ _ _ _ _ _ _ _ Ia C) in D as ((I' & T & K & Lv' & Z & Zc) & X).
  assert (sp_size sp <= sps) as Le.
  { unfold disposed in X. destruct (how =? 2); destruct X as (-> & _); [rewrite sizes_nth; pose proof (sp_size_nonneg (gets sta s))|]; lia. }
  pose proof (node_end_mono (dq_head (dq st)) (dq_head (dq sta))). unfold dq_le in *.
  apply (accepted_ok _ _ _ _ _ _ _ _ _ _ _ k); unfold dq_le; auto; try lia.
  - intros T'. rewrite Z, Z0 by lia. reflexivity.
  - intros Fc L. rewrite (Zc Fc), (Zn Fc) by lia. reflexivity.
  - rewrite F. destruct heap; reflexivity.
  - destruct heap; reflexivity.
Qed.

Lemma budget_resolve sl f kind how s v k sps csp sl' : 0 <= k -> disposed sl (how mod 10) s k sps csp sl' ->
  sp_budget sl (FResolve f kind how s v) sps =
  Some (cadd (cadd (grow_cost 0 k) (if how =? how mod 10 then c0 else cadd (clear_cost k) (grow_cost 0 k))) csp, sl').
Proof.
  intros K D. unfold disposed in D. cbn [sp_budget].
  destruct (how mod 10 =? 2); destruct D as (-> & -> & ->);
    [replace (_ + k - _) with k by lia|rewrite Z.sub_0_r];
    replace (0 <=? k) with true by lia; destruct (how =? how mod 10); do 2 f_equal; cost_eq.
Qed.

Lemma budget_unlock sl m how s k sps csp sl' : 0 <= k <= 1 -> disposed sl how s k sps csp sl' ->
  sp_budget sl (MUnlock m how s) sps = Some (csp, sl').
Proof.
  intros K D. unfold disposed in D. cbn [sp_budget]. rewrite (clear_le3 k) in D by lia.
  destruct (how =? 2); destruct D as (-> & -> & ->).
  - replace ((0 <=? _) && (_ <=? 1)) with true by lia. rewrite cadd_c0_r. reflexivity.
  - replace ((0 <=? k) && (k <=? 1)) with true by lia. reflexivity.
Qed.

Lemma resolve_ok coro heap st f kind how s v : Inv coro st ->
  let r := step coro heap st (FResolve f kind how s v) in
  step_ok coro heap st (FResolve f kind how s v) r /\
  (o_st (snd r) = 0 ->
   o_sps (snd r) = (if how mod 10 =? 2 then sp_size (gets st s) else 0) + zlen (coro_waiters (f_chain (getf st f)))).
Proof.
  intros I. unfold step. cbv zeta. destruct (_ && _); [|split; [apply rejected_ok, I|discriminate]].
  destruct (walk _ _ _ _ _ _) as [[[[st2 sp] csp] cb] sy] eqn:W. apply walk_add_all in W as (Aw & Sw & Lw).
  apply (add_all_can _ _ _ _ sp_can_empty) in Aw as (Csp & Szsp & ->). change (sp_size sp_empty) with 0 in *.
  assert (same3 st st2) as S2 by (eapply same3_trans; [|exact Sw]; repeat split). cbn [setf live] in Lw.
  destruct (if how =? how mod 10 then _ else _) as [[[st2' sp'] csp1] cdq1] eqn:Wr.
  apply (csp_wrap_spec coro) in Wr as (Iw & Sl & Lv & Hw & Csp' & Sz & -> & Z1 & Zn1); [|exact (Inv_same3 _ _ _ S2 I)|exact Csp].
  destruct (dispose _ _ _ _ _) as [[[[[st3 ev] csp2] cdq] k] sps] eqn:D.
  assert (sizes st2' = sizes st) as Ss by (rewrite <- (sizes_same3 _ _ S2); unfold sizes; rewrite Sl; reflexivity).
  split.
  - rewrite cadd_assoc. destruct S2 as (_ & _ & Sdq). rewrite Sdq in Hw, Z1. rewrite <- Sz in Zn1.
    eapply disposed_ok; try exact D; trivial; [congruence|].
    intros sl' X. rewrite Ss, Sz in X. apply budget_resolve; [apply sp_size_nonneg|exact X].
  - intros _. apply dispose_spec in D as (_ & X); [|exact Iw|exact Csp']. cbn [snd o_sps].
    unfold disposed in X. rewrite Ss, sizes_nth, Sz, Szsp in X. unfold witems in X. rewrite zlen_map, Z.add_0_l in X.
    destruct (how mod 10 =? 2); destruct X as (-> & _); reflexivity.
Qed.

(* mutex::unlock hands a suspend point of at most one handle to dispose *)
Lemma unlock_disposed_ok coro heap st m how s sta sp st' ev csp cdq k sps evs :
  Inv coro st -> same3 st sta -> live sta = live st -> sp_can sp -> sp_size sp <= 1 ->
  dispose coro how s sta sp = (st', ev, csp, cdq, k, sps) ->
  step_ok coro heap st (MUnlock m how s) (st', mkObs 0 0 sps (frames_freed heap k) csp cdq evs).
Proof.
  intros I S Lv C Sz D. rewrite <- (cadd_c0_l csp), <- (cadd_c0_l cdq).
  eapply disposed_ok; try exact D; trivial; [exact (Inv_same3 _ _ _ S I)| |].
  - destruct S as (_ & _ & ->). unfold dq_le. lia.
  - intros sl' X. rewrite cadd_c0_l. rewrite (sizes_same3 _ _ S) in X.
    apply (budget_unlock _ _ _ _ _ _ _ _ (conj (sp_size_nonneg sp) Sz) X).
Qed.

Lemma unlock_ok coro heap st m how s : Inv coro st ->
  step_ok coro heap st (MUnlock m how s) (step coro heap st (MUnlock m how s)).
Proof.
  intros I. guarded I G.
  destruct (m_q (getm st m)) as [|[k0 i] q]; [|destruct (release_spec st (k0, i)) as (S & Lv); destruct (k0 =? 0)].
  - destruct (dispose _ _ _ _ _) as [[[[[st3 ev] csp2] cdq] k] sps] eqn:D.
    eapply unlock_disposed_ok; try exact D; trivial; [repeat split|apply sp_can_empty|discriminate].
  - change (sp_add sp_empty (1, i, m)) with (mkSp [(1, i, m)] false 0, c0). cbv beta iota.
    destruct (dispose _ _ _ _ _) as [[[[[st3 ev] csp2] cdq] k] sps] eqn:D. rewrite cadd_c0_l.
    eapply unlock_disposed_ok; try exact D; trivial;
      [apply sp_can_single|discriminate].
  - destruct (dispose _ _ _ _ _) as [[[[[st3 ev] csp2] cdq] k] sps] eqn:D.
    eapply unlock_disposed_ok; try exact D; trivial;
      [apply sp_can_empty|discriminate].
Qed.

Lemma flush_ok coro heap st s how : Inv coro st ->
  step_ok coro heap st (SpFlush s how) (step coro heap st (SpFlush s how)).
Proof.
  intros I. guarded I G.
  destruct (dispose _ _ _ _ _) as [[[[[st3 ev] csp2] cdq] k] sps] eqn:D.
  rewrite <- (cadd_c0_l csp2), <- (cadd_c0_l cdq).
  eapply disposed_ok; try exact D; trivial; try (unfold dq_le; cbn; lia); [|apply gets_can, I|].
  - destruct I as (Isl & Idq). split; [|exact Idq]. apply Forall_set_nth; [exact Isl|apply sp_can_empty].
  - intros sl' X. unfold disposed in X. replace (how =? 2) with false in X by lia. destruct X as (-> & -> & ->).
    rewrite cadd_c0_l. cbn [sp_budget]. rewrite sizes_sets. reflexivity.
Qed.

Lemma await_coro_ok coro heap st x f w mode : Inv coro st -> frames_of x = 1 -> plain_op x = true ->
  step_ok coro heap st x (await_coro_step coro heap st f w mode).
Proof.
  intros I F P. unfold await_coro_step. cbv zeta. apply guarded_ok; [exact I|intros G].
  apply andb_prop in G as [G _]. apply andb_prop in G as [_ M]. apply start_ok; trivial; repeat split.
Qed.

(* side conditions hold by computation on the setters: `trivial`, and `repeat split` for same3 *)
Theorem step_spec coro heap st x : Inv coro st -> step_ok coro heap st x (step coro heap st x).
Proof.
  intros HI. destruct x.
  - (* FNew *) guarded HI G. apply quiet_ok; trivial; repeat split.
  - (* FGetP *) guarded HI G. apply quiet_ok; trivial; repeat split.
  - (* FAwaitCoro *) apply await_coro_ok; trivial.
  - (* FAwaitSync *) guarded HI G. destruct (f_st _ =? 3); apply quiet_ok; trivial; repeat split.
  - (* FAwaitCb *) guarded HI G. destruct (f_st _ =? 3); apply quiet_ok; trivial; repeat split.
  - (* FAwaitCbA *) guarded HI G. apply await_coro_ok; trivial.
  - (* FResolve *) apply resolve_ok, HI.
  - (* FDestroy *) guarded HI G. apply quiet_ok; trivial; repeat split.
  - (* MTry *) guarded HI G. destruct (m_st _ =? 0); apply quiet_ok; trivial; repeat split.
  - (* MLockCoro *) guarded HI G. apply andb_prop in G as [_ M]. apply start_ok; trivial; repeat split.
  - (* MLockSync *) guarded HI G. destruct (m_st _ =? 0); apply quiet_ok; trivial; repeat split.
  - (* MLockCb *) guarded HI G. destruct (m_st _ =? 0); apply quiet_ok; trivial; repeat split.
  - (* MUnlock *) apply unlock_ok, HI.
  - (* GNew *) guarded HI G.
    apply simple_ok with (j := 0); trivial; [repeat split|destruct heap; reflexivity..|lia|cbn; lia].
  - (* GNext *) guarded HI G. destruct (nth _ _ _) as [[[cur k] a]|]; [|apply rejected_ok, HI].
    destruct ((6 <=? how) && _); [apply rejected_ok, HI|].
    destruct (how =? 8); [|destruct (cur <? k); [|destruct (cur =? k); [|destruct (how mod 3 =? 1)]]];
      try (apply rejected_ok, HI); apply quiet_ok; trivial; repeat split.
  - (* GDestroy *) guarded HI G. destruct (nth _ _ _); [|apply rejected_ok, HI].
    apply simple_ok with (j := 1); trivial; [repeat split|destruct heap; reflexivity..|lia|cbn; lia].
  - (* SpFlush *) apply flush_ok, HI.
  - (* Pause *) guarded HI G. subst coro. destruct (suspend_drain st [] []) as [[[st1 ev] c] k] eqn:D.
    apply suspend_drain_spec in D as (R & Sl); [|exact HI].
    apply ran_ok with (sta := st) (k := k) (j := k); trivial; [repeat split|destruct heap; reflexivity..|lia|cbn; lia].
  - (* PMove *) guarded HI G. apply quiet_ok; trivial; repeat split.
  - (* CfStart *) guarded HI G. destruct (mode =? 3); apply quiet_ok; trivial; repeat split.
  - (* CfResolve *) guarded HI G. apply quiet_ok; trivial; repeat split.
  - (* OBad *) apply rejected_ok, HI.
Qed.

Arguments step : simpl never.

Lemma Forall2_impl' {A B} (P Q : A -> B -> Prop) l l' : (forall a b, P a b -> Q a b) -> Forall2 P l l' -> Forall2 Q l l'.
Proof. intros H F. induction F; constructor; auto. Qed.

Lemma Forall2_right {A B} (P : A -> B -> Prop) (Q : B -> Prop) l l' : (forall a b, P a b -> Q b) -> Forall2 P l l' -> Forall Q l'.
Proof. intros H F. induction F; constructor; eauto. Qed.

Lemma run_facts coro heap l : forall st, Inv coro st ->
  Inv coro (snd (run_from coro heap st l)) /\ dq_le (dq st) (dq (snd (run_from coro heap st l))) /\
  Forall2 (fun x o => (exists sa sb, Inv coro sa /\ step_ok coro heap sa x (sb, o)) /\
                      (dq_hw (dq (snd (run_from coro heap st l))) <= node_end (dq_head (dq st)) -> o_cdq o = c0))
          l (fst (run_from coro heap st l)).
Proof.
  induction l as [|x l IH]; intros st I; cbn [run_from].
  - cbn [fst snd]. unfold dq_le. split; [exact I|]. split; [lia|constructor].
  - pose proof (step_spec coro heap st x I) as S. destruct (step coro heap st x) as [st1 o].
    destruct (IH st1 (proj1 S)) as (Jinv & Jle & Jall). destruct (run_from coro heap st1 l) as [os st2]. cbn [fst snd] in *.
    pose proof S as (_ & T & Z & _). pose proof (node_end_mono (dq_head (dq st)) (dq_head (dq st1))). unfold dq_le in *.
    split; [exact Jinv|]. split; [lia|]. constructor.
    + split; [exists st, st1; auto|]. intros E. apply Z. lia.
    + eapply Forall2_impl'; [|exact Jall]. intros y p (Ex & Zy). split; [exact Ex|]. intros E. apply Zy. lia.
Qed.

Lemma budget_small st x sps c sl' : sp_budget (sizes st) x sps = Some (c, sl') -> sps <= 3 -> c = c0.
Proof.
  pose proof (fun s => sp_size_nonneg (gets st s)) as O.
  destruct x; cbn [sp_budget]; try (intros [= <- _] _; reflexivity); intros H L; specialize (O s); rewrite <- sizes_nth in O.
  - (* FResolve *)
    set (old := if how mod 10 =? 2 then nth (n s) (sizes st) 0 else 0) in *.
    assert (0 <= old) by (subst old; destruct (how mod 10 =? 2); lia).
    destruct (0 <=? sps - old) eqn:K; [|discriminate].
    rewrite !grow_small, clear_le3 in H by lia.
    destruct (how =? how mod 10), (how mod 10 =? 2); injection H as <- _; reflexivity.
  - (* MUnlock *)
    destruct (how =? 2); [destruct (_ && _) eqn:K|destruct (_ && _)]; try discriminate; injection H as <- _;
      [apply grow_small; lia|reflexivity].
  - (* SpFlush *) injection H as <- _. apply clear_le3, L.
Qed.

(* what the property demands of one accepted step *)
Definition step_clean (heap : bool) (x : op) (o : obs) : Prop :=
  o = rejected \/ (o_st o = 0 /\ (o_sps o <= 3 -> o_other o = c0) /\ frame_ok heap x o).

(* zero allocation beside the frames: normal mode; coroutine mode while the queue stays in the node its head is in *)
Theorem zero_alloc_from coro heap st ops : Inv coro st ->
  coro = false \/ dq_hw (dq (snd (run_from coro heap st ops))) <= node_end (dq_head (dq st)) ->
  Forall2 (step_clean heap) ops (fst (run_from coro heap st ops)).
Proof.
  intros I H. destruct (run_facts coro heap ops st I) as (_ & _ & F).
  eapply Forall2_impl'; [|exact F]. intros x o ((sa & sb & _ & S) & Z).
  destruct S as (_ & _ & _ & Zn & [(R & _)|(A & B & _ & Bud)]); [left; exact R|right].
  split; [exact A|]. split; [|exact B].
  intros L. unfold o_other. rewrite (budget_small _ _ _ _ _ Bud L), cadd_c0_l.
  destruct H as [H|H]; [apply Zn; [exact H|lia]|exact (Z H)].
Qed.

Lemma line_ok_step coro heap st x st' o : step_ok coro heap st x (st', o) -> o_cdq o = c0 ->
  line_ok heap (sizes st) x (encode_obs o) = Some (sizes st').
Proof.
  intros (_ & _ & _ & _ & [(-> & ->)|(A & (Fa & Ff & Fn) & _ & Bud)]) Z; [reflexivity|].
  unfold encode_obs, line_ok, o_other, ceq. rewrite A, Bud, Fa, Z, cadd_c0_r, !Z.eqb_refl.
  replace (0 <=? c_f (o_cfr o)) with true by lia.
  destruct heap; [|rewrite Fn by reflexivity]; reflexivity.
Qed.

Lemma lines_ok_run coro heap l : forall st, Inv coro st ->
  Forall (fun o => o_cdq o = c0) (fst (run_from coro heap st l)) ->
  lines_ok heap (sizes st) l (map encode_obs (fst (run_from coro heap st l))) = true.
Proof.
  induction l as [|x l IH]; intros st I F; cbn [run_from] in *; [reflexivity|].
  pose proof (step_spec coro heap st x I) as S. destruct (step coro heap st x) as [st1 o].
  specialize (IH st1 (proj1 S)). destruct (run_from coro heap st1 l) as [os st2]. cbn [fst map lines_ok] in *.
  inversion F as [|? ? Z F']; subst. rewrite (line_ok_step _ _ _ _ _ _ S Z). exact (IH F').
Qed.

(* the strict oracle accepts: normal mode below 64 handles per create_suspend_point; coroutine mode inside one node *)
Theorem oracle_from coro heap st l : Inv coro st ->
  (coro = false /\ Forall (fun o => o_sps o <= 63) (fst (run_from coro heap st l))) \/
  dq_hw (dq (snd (run_from coro heap st l))) <= node_end (dq_head (dq st)) ->
  lines_ok heap (sizes st) l (map encode_obs (fst (run_from coro heap st l))) = true.
Proof.
  intros I H. apply (lines_ok_run _ _ _ _ I). destruct (run_facts coro heap l st I) as (_ & _ & F).
  destruct H as [(C & H)|H].
  - apply (Forall2_right _ (fun o => o_sps o <= 63 -> o_cdq o = c0)) in F.
    + rewrite Forall_forall in *. intros o In. exact (F o In (H o In)).
    + intros x o ((sa & sb & _ & (_ & _ & _ & Zn & _)) & _). exact (Zn C).
  - eapply Forall2_right; [|exact F]. intros x o (_ & Z). exact (Z H).
Qed.

(* the suspend point cost of every accepted step of every program in every mode is the budget computed from handle
   counts alone: arrays of 6, 12, 24 ... handles from the fourth handle on, nothing else *)
Theorem sp_cost_is_budget coro heap st x : Inv coro st ->
  let r := step coro heap st x in
  o_st (snd r) = 0 -> sp_budget (sizes st) x (o_sps (snd r)) = Some (o_csp (snd r), sizes (fst r)).
Proof.
  intros I r A. subst r. pose proof (step_spec coro heap st x I) as S. destruct (step coro heap st x) as [st1 o].
  destruct S as (_ & _ & _ & _ & [(-> & _)|(_ & _ & _ & B)]); [discriminate|exact B].
Qed.

Fixpoint total_fa (tr : list obs) : Z := match tr with [] => 0 | o :: t => c_a (o_cfr o) + total_fa t end.
Fixpoint total_ff (tr : list obs) : Z := match tr with [] => 0 | o :: t => c_f (o_cfr o) + total_ff t end.
Fixpoint total_other (tr : list obs) : Z := match tr with [] => 0 | o :: t => c_a (o_other o) + total_other t end.
Fixpoint frames_created (ops : list op) (tr : list obs) : Z :=
  match ops, tr with
  | x :: t, o :: u => (if o_st o =? 0 then frames_of x else 0) + frames_created t u
  | _, _ => 0
  end.

(* frame allocations = coroutines the program created; none, and no frees, under a non-heap storage *)
Theorem frames_from coro heap st ops : Inv coro st ->
  total_fa (fst (run_from coro heap st ops)) =
    (if heap then frames_created ops (fst (run_from coro heap st ops)) else 0) /\
  (heap = false -> total_ff (fst (run_from coro heap st ops)) = 0).
Proof.
  intros I. destruct (run_facts coro heap ops st I) as (_ & _ & F).
  induction F as [|x o l tr ((sa & sb & _ & S) & _) F (IH1 & IH2)]; cbn [total_fa total_ff frames_created].
  - destruct heap; auto.
  - rewrite IH1. destruct S as (_ & _ & _ & _ & [(-> & _)|(A & (Fa & _ & Fn) & _)]).
    + cbn. destruct heap; auto.
    + rewrite A, Fa. cbn. split; [destruct heap; lia|]. intros E. rewrite (Fn E), (IH2 E). reflexivity.
Qed.

(* frames allocated - frames freed = coroutines still alive (suspended, queued, not yet started) + live generators:
   `live` is raised exactly where a created coroutine is left unfinished or a generator is created, and lowered exactly
   where a coroutine runs to its end or a generator is destroyed *)
Lemma live_balance_from coro l : forall st, Inv coro st ->
  total_fa (fst (run_from coro true st l)) - total_ff (fst (run_from coro true st l)) =
  live (snd (run_from coro true st l)) - live st.
Proof.
  induction l as [|x l IH]; intros st I; cbn [run_from]; [cbn; lia|].
  pose proof (step_spec coro true st x I) as S. destruct (step coro true st x) as [st1 o].
  specialize (IH st1 (proj1 S)). destruct (run_from coro true st1 l) as [os st2]. cbn [fst snd total_fa total_ff] in *.
  destruct S as (_ & _ & _ & _ & [(-> & ->)|(_ & _ & L & _)]); [cbn|specialize (L eq_refl)]; lia.
Qed.

(* in normal mode, with at most three handles per suspend point, the frames are ALL the allocations *)
Theorem only_frames_from heap st ops : Inv false st ->
  Forall (fun o => o_sps o <= 3) (fst (run_from false heap st ops)) ->
  total_other (fst (run_from false heap st ops)) = 0.
Proof.
  intros I H. pose proof (zero_alloc_from false heap st ops I (or_introl eq_refl)) as F.
  induction F as [|x o l tr S F IH]; cbn [total_other]; [reflexivity|].
  inversion H; subst. rewrite IH by assumption.
  destruct S as [->|(A & B & _)]; [reflexivity|]. rewrite B by assumption. reflexivity.
Qed.

(* a discarded resolution hands back exactly the waiting coroutines: free up to three, an array from the fourth *)
Theorem resolve_threshold coro heap st f kind s v : Inv coro st ->
  let o := snd (step coro heap st (FResolve f kind 0 s v)) in
  o_st o = 0 ->
  o_sps o = zlen (coro_waiters (f_chain (getf st f))) /\
  o_csp o = cadd (grow_cost 0 (o_sps o)) (clear_cost (o_sps o)) /\
  (o_sps o <= 3 -> o_csp o = c0) /\ (3 < o_sps o -> 1 <= c_a (o_csp o)).
Proof.
  intros I o A. subst o.
  pose proof (sp_cost_is_budget coro heap st (FResolve f kind 0 s v) I A) as B.
  pose proof (proj2 (resolve_ok coro heap st f kind 0 s v I) A) as Sz. cbn in Sz.
  set (o := snd (step coro heap st (FResolve f kind 0 s v))) in *.
  cbn [sp_budget] in B. change (0 mod 10) with 0 in B. cbn [Z.eqb] in B.
  rewrite Z.sub_0_r in B. destruct (0 <=? o_sps o) eqn:K; [|discriminate]. injection B as E _.
  split; [exact Sz|]. split; [symmetry; exact E|]. rewrite <- E. split; intros L.
  - rewrite grow_small, clear_le3 by lia. reflexivity.
  - pose proof (grow_alloc_pos _ L). destruct (clear_nonneg (o_sps o)). unfold cadd; cbn [c_a]. lia.
Qed.

(* what c20_zero_alloc_refuted checks of its witness, `rounds 64` *)
Definition sps_small (tr : list obs) : bool := forallb (fun o => o_sps o <=? 3) tr.
Definition all_accepted (tr : list obs) : bool := forallb (fun o => o_st o =? 0) tr.

(* one round fewer pays nothing; cited by no theorem *)
Lemma witness_minimal :
  let tr := fst (run_from true true st0 (rounds 63)) in total_other tr = 0 /\ all_accepted tr = true.
Proof. vm_compute. split; reflexivity. Qed.
