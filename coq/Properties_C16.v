(* Properties_C16.v — C16: publisher: subscribers see a gap-free, ordered, duplicate-free stream.
   Only statements; each is proved in a line or two from the lemmas of PublisherProofs, PubThreadProofs and PubOnce.
   Quantification: every op list (any length; publish, batch, close, ~publisher, kick, subscribe recent / at a
   position / by copy, ~subscriber, position(), next() split into its three locked steps, blocking next() and
   next_ready() as sequences of those steps), any number of subscribers in any of the three modes, every
   configuration 1 <= min <= max < 2^64 (max = 2^64-1 is "unlimited").  A history over the split steps is a schedule
   of publisher and subscriber threads at lock granularity.
   final_m mn mx ops = what the reference monitor recorded from the model's trace of ops;
   final_e mn mx ops = the model's state after ops.  m_deliv r = (position, value, number published so far)
   triples delivered to subscriber r before its first end of stream, newest first. *)
From Cocls Require Import Base BaseProofs PublisherDefs PublisherProofs PubThreadDefs PubThreadProofs PubOnce.
Local Open Scope Z_scope.

(* the property oracle (run on the implementation's traces by the check) accepts the model's trace of EVERY case *)
Theorem c16_oracle_accepts_model : forall ops, pub_oracle ops (pub_run ops) = true.
Proof. exact oracle_accepts_model. Qed.
Print Assumptions c16_oracle_accepts_model.

(* all_values: the deliveries before the first end of stream are at consecutive positions start+1, start+2, ...
   (no gap, no duplicate, in order) and the value delivered at position p is the p-th published value *)
Theorem c16_contiguous : forall mn mx ops s r, cfg_ok_b mn mx = true ->
  get (m_subs (final_m mn mx ops)) s = Some r -> m_mode r = 0 ->
  forall i p v k, nth_error (m_deliv r) i = Some (p, v, k) ->
  p = m_start r + zlen (m_deliv r) - Z.of_nat i /\ 1 <= p <= zlen (m_log (final_m mn mx ops)) /\
  v = nthz (m_log (final_m mn mx ops)) (p - 1).
Proof. intros mn mx ops s r C. apply good_contiguous, (final_R mn mx ops C). Qed.
Print Assumptions c16_contiguous.

(* skipping modes: positions strictly increase (each is above every earlier one and above the subscription point),
   the value delivered at position p is the p-th published value, and skip_to_recent delivers the newest one *)
Theorem c16_skip_forward : forall mn mx ops s r, cfg_ok_b mn mx = true ->
  get (m_subs (final_m mn mx ops)) s = Some r -> m_mode r <> 0 ->
  forall i p v k, nth_error (m_deliv r) i = Some (p, v, k) ->
  last_pos (m_start r) (skipn (S i) (m_deliv r)) < p /\ 1 <= p <= k /\ k <= zlen (m_log (final_m mn mx ops)) /\
  v = nthz (m_log (final_m mn mx ops)) (p - 1) /\ (m_mode r = 2 -> p = k).
Proof. intros mn mx ops s r C. apply good_skip_forward, (final_R mn mx ops C). Qed.
Print Assumptions c16_skip_forward.

(* the first end of stream of a subscriber is legitimate: m_eos_ok is computed by the monitor at that moment as
   kicked \/ lagged more than max behind / subscribed outside the window (m_lost) \/ (closed /\ everything read) *)
Theorem c16_eos_only_when : forall mn mx ops s r, cfg_ok_b mn mx = true ->
  get (m_subs (final_m mn mx ops)) s = Some r -> m_eos r = true -> m_eos_ok r = true.
Proof. intros mn mx ops s r C. apply good_eos, (final_R mn mx ops C). Qed.
Print Assumptions c16_eos_only_when.

(* every wake-up list (publish, batch, close, ~publisher, kick) was exactly the set of awaiters parked at that moment,
   each once; a kicked subscriber never received a value; subscription positions were as specified (recent = number
   published, copy = the original's position) *)
Theorem c16_wakes_exact : forall mn mx ops, cfg_ok_b mn mx = true -> m_bad (final_m mn mx ops) = false.
Proof. intros mn mx ops C. apply good_not_bad, (final_R mn mx ops C). Qed.
Print Assumptions c16_wakes_exact.

(* in every state related to the monitor by the invariant, what push_lk would resume (close / publish) is exactly the
   parked awaiters of the live subscribers, without repetition *)
Theorem c16_close_wakes_all : forall e m, Inv e m -> wake_all_ok (m_subs m) (flat_map wake_of (regs (pq e))) = true.
Proof. exact wake_list_exact. Qed.
Print Assumptions c16_close_wakes_all.

(* trimming never removes a value a non-lagging all_values subscriber still needs *)
Theorem c16_window_sufficient : forall mn mx ops s o r, cfg_ok_b mn mx = true -> m_viol (final_m mn mx ops) = false ->
  live_obj (final_e mn mx ops) s = Some o -> get (m_subs (final_m mn mx ops)) s = Some r ->
  m_mode r = 0 -> m_eos r = false -> m_lost r = false ->
  consumed r <= npub (final_m mn mx ops) /\
  npub (final_m mn mx ops) - consumed r <= zlen (qd (pq (final_e mn mx ops))) /\
  npub (final_m mn mx ops) - consumed r <= maxl (pq (final_e mn mx ops)).
Proof.
  intros mn mx ops s o r C V. destruct (final_R mn mx ops C) as (_ & [X|I]); [congruence|]. apply (Inv_window _ _ _ _ _ I).
Qed.
Print Assumptions c16_window_sufficient.

(* a copy has its own registration: a next() step of one subscriber leaves every other subscriber's registration
   (position, kicked flag, awaiter) unchanged *)
Theorem c16_copy_independent : forall e m x s o s' o', Inv e m -> free_obj e s = Some o -> live_obj e s' = Some o' ->
  s <> s' -> (x = OReady s \/ x = OSuspend s \/ x = OGet s) ->
  rget (regs (pq (fst (step e x)))) (s_h o') = rget (regs (pq e)) (s_h o').
Proof.
  intros e m x s o s' o' I F L' N X. apply (next_step_frame e x s o); try assumption.
  intros E. apply N. apply (i_inj _ _ I s s' o o' (free_live _ _ _ F) L'). symmetry. exact E.
Qed.
Print Assumptions c16_copy_independent.

(* the simulation invariant is preserved by every locked step from every related pair of states *)
Theorem c16_step_invariant : forall e m x, R e m -> R (fst (step e x)) (mon_step m x (snd (step e x))).
Proof. exact step_R. Qed.
Print Assumptions c16_step_invariant.

(* over a whole run (any history, composite blocking/polled calls included) no awaiter id occurs twice in the wake-up
   lists: nothing is resumed twice; with c16_wakes_exact (each list = exactly the parked awaiters): exactly once *)
Theorem c16_woken_at_most_once : forall mn mx ops, NoDup (wakes (fst (run_from (tst0 mn mx) ops))).
Proof. exact woken_at_most_once. Qed.
Print Assumptions c16_woken_at_most_once.

(* threads: a publisher thread against subscriber threads (blocking next(), coroutines co_awaiting next() that are
   resumed on the waking thread, polling), scheduled at every acquisition of the queue mutex by ANY schedule: the trace
   of locked steps is accepted by the same oracle, i.e. all of the above holds for every interleaving *)
Theorem c16_threads_oracle_accepts_model : forall ops, pubt_oracle ops (pubt_run ops) = true.
Proof. exact threads_oracle_accepts_model. Qed.
Print Assumptions c16_threads_oracle_accepts_model.

(* non-vacuity: two subscribers (one a copy), close in the window of a next(), a parked awaiter woken, values delivered *)
Example c16_nonvacuous :
  let ops := [OSubRecent 0 0; OPub 7; OPub 8; OReady 0; OGet 0; OSubCopy 1 0; OReady 0; OGet 0; OReady 0; OSuspend 0;
              OPub 9; OGet 0; OReady 1; OGet 1; OReady 0; OClose; OSuspend 0; OGet 0] in
  let m := final_m 1 unlimited ops in
  m_viol m = false /\ m_log m = [7; 8; 9] /\
  option_map m_deliv (get (m_subs m) 0%nat) = Some [(3, 9, 3); (2, 8, 2); (1, 7, 2)] /\
  option_map m_eos (get (m_subs m) 0%nat) = Some true /\
  option_map m_deliv (get (m_subs m) 1%nat) = Some [(2, 8, 3)] /\
  option_map m_lost (get (m_subs m) 1%nat) = Some false.
Proof. vm_compute. repeat split; reflexivity. Qed.
