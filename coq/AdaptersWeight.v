(* AdaptersWeight.v — termination: every step consumes potential *)
From Cocls Require Import Base BaseProofs AdaptersDefs AdaptersInv.
Require Import ZifyBool.
Local Open Scope nat_scope.

(* any numbers under which an instruction outweighs what it pushes (weight_exec) *)
Definition w (i : instr) : nat :=
  match i with
  | IPriv _ | IPark _ | IXWait | ICvWalk | IRel => 1
  | ICvResolve => 2 | ICvDtor => 3 | ICvPark _ => 4 | ICvSet _ => 6 | ICvReady => 7 | ICvClaim => 8
  | IOClaim => 3 | IOWait => 4
  | IPark2 | IXWait2 | IWalk2 => 1 | ISub2 _ => 2 | IResolve2 => 2 | IClaim2 | IDtorP2 => 3
  | IWalk => 9 | ISub _ => 10 | IReady => 11 | IResolve => 10 | IClaim _ | IDtorP => 11
  | IOSub _ => 2 | IOReady => 3
  end.
Fixpoint wl (l : list instr) : nat := match l with [] => 0 | x :: t => w x + wl t end.
Definition weight (s : st) : nat := wl (th0 s) + wl (th1 s) + wl (th2 s).

Lemma wl_app a b : wl (a ++ b) = wl a + wl b.
Proof. induction a as [|x a IH]; cbn [wl app]; [reflexivity|rewrite IH; lia]. Qed.

Lemma weight_push s i l : i < 3 -> weight (push s i l) = wl l + weight s.
Proof. intros L. destruct i as [|[|[|i]]]; [| | |lia]; unfold weight; cbn [push set_thr thr th0 th1 th2]; rewrite wl_app; lia. Qed.

Lemma weight_pop s i ins rest : i < 3 -> thr s i = ins :: rest -> weight s = w ins + weight (set_thr (tick s) i rest).
Proof.
  intros L H. destruct i as [|[|[|i]]]; [| | |lia]; cbn [thr] in H; unfold weight; cbn [tick set_thr th0 th1 th2]; rewrite H; cbn [wl]; lia.
Qed.

(* what an instruction pushes weighs less than the instruction; a retry (a subscription that finds another subscriber,
   a converter that finds its source pending) would not, and the invariant rules it out *)
Lemma weight_exec c s i ins : i < 3 -> InvN c s (fun p => cnt p [ins] + N p s) ->
  weight (fst (exec c s i ins)) < w ins + weight s.
Proof.
  intros L [[_ _ Hdtk _ Hfired _ _] _ _ [Hstage _ _ _ _ _ _ _ _ _ _ Hotk _ _] _ [_ _ Hdtk2 _ _ _ _] _].
  assert (cv c * nfire s <= nfire s /\ re c * nfire s <= nfire s /\ cv c <= 1) as (MC & MR & CV)
    by (unfold cv, re, b2n; destruct (is_conv c), (c_re c); lia).
  assert (RD : rdy (slot s) <= 1) by (destruct (slot s); cbn [rdy]; lia).
  destruct ins; unfold exec, fire, fire2, deliver; cbn [fst]; dflags s; cbn [fst];
    try rewrite weight_push by exact L;
    repeat match goal with |- context[weight ?X] => tryif is_var X then fail else change (weight X) with (weight s) end;
    cbn [wl w]; try lia.
  all: repeat match goal with Q : ?f ?x = _ |- _ => is_var x; rewrite Q in * end; redch; lia.
Qed.

Lemma weight_step c s i : Inv c s -> enabled s i = true -> weight (fst (tstep c s i)) < weight s.
Proof.
  intros [I _] E. unfold tstep. destruct (thr s i) as [|ins rest] eqn:H; [unfold enabled in E; rewrite H in E; discriminate|].
  assert (L : i < 3) by (destruct i as [|[|[|i]]]; [lia|lia|lia|discriminate H]).
  rewrite (weight_pop s i ins rest L H). apply weight_exec; [exact L|apply InvN_pop; assumption].
Qed.
