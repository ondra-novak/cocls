(* Timer2Proofs.v — the scheduler of TimerDefs.v over its pending multiset (property C12).
   What get_expired, remove and schedule do to the array; the manual API as a refinement of the multiset specification
   `spec_step` and the theorems about its histories (any length, any time points — equal / past / negative —, any
   idents, duplicates included); the worker thread under a virtual clock. *)
From Cocls Require Import Base BaseProofs TimerDefs TimerProofs.
Require Import ZifyBool ZifyNat Sorted.
Local Open Scope Z_scope.

Definition live (e : entry) : bool := negb (isnone (e_p e)).

Lemma pending_eq l : pending l = filter live l.
Proof. reflexivity. Qed.

Lemma filter_perm {A} (f : A -> bool) a b : Permutation a b -> Permutation (filter f a) (filter f b).
Proof.
  induction 1 as [|x a b P IH|x y a|a b c P1 IH1 P2 IH2]; cbn [filter].
  - constructor.
  - destruct (f x); [apply perm_skip|]; exact IH.
  - destruct (f x), (f y); try reflexivity. apply perm_swap.
  - etransitivity; eassumption.
Qed.

#[export] Instance pending_perm : Morphisms.Proper (Morphisms.respectful (@Permutation entry) (@Permutation entry)) pending.
Proof. intros a b. apply filter_perm. Qed.

Lemma pending_cons t l : pending (t :: l) = if live t then t :: pending l else pending l.
Proof. reflexivity. Qed.

Lemma pending_In e l : In e (pending l) <-> In e l /\ live e = true.
Proof. apply filter_In. Qed.

Lemma live_some e : live e = true <-> exists p, e_p e = Some p.
Proof.
  unfold live. destruct (e_p e) as [p|]; cbn [isnone negb].
  - split; [exists p; reflexivity|reflexivity].
  - split; [discriminate|intros [p H]; discriminate H].
Qed.

Definition pid_of (e : entry) : list nat := match e_p e with Some p => [p] | None => [] end.
(* promise ids held by the array *)
Definition ppids (l : list entry) : list nat := flat_map pid_of l.

#[export] Instance ppids_perm : Morphisms.Proper (Morphisms.respectful (@Permutation entry) (@Permutation nat)) ppids.
Proof. intros a b. apply Permutation_flat_map. Qed.

Lemma ppids_cons e l : ppids (e :: l) = pid_of e ++ ppids l.
Proof. reflexivity. Qed.

Lemma pid_of_some e p : e_p e = Some p -> pid_of e = [p].
Proof. unfold pid_of. intros ->. reflexivity. Qed.

Lemma ppids_pending l : ppids (pending l) = ppids l.
Proof.
  induction l as [|e l IH]; [reflexivity|]. rewrite pending_cons, ppids_cons, <- IH. unfold live.
  destruct (e_p e) as [p|] eqn:E; cbn [isnone negb]; [reflexivity|].
  unfold pid_of. rewrite E. reflexivity.
Qed.

Lemma In_ppids p l : In p (ppids l) <-> exists t, In t (pending l) /\ e_p t = Some p.
Proof.
  rewrite <- ppids_pending. unfold ppids. rewrite in_flat_map.
  split; intros (e & I & H); exists e; (split; [exact I|]).
  - unfold pid_of in H. destruct (e_p e); [destruct H as [-> |[]]; reflexivity|destruct H].
  - rewrite (pid_of_some e p H). left. reflexivity.
Qed.

(* one live entry leaves the pending multiset / the pending multiset stays: the same for the promise ids *)
Lemma ppids_take l t l' p : e_p t = Some p -> Permutation (pending l) (t :: pending l') ->
  Permutation (ppids l) (p :: ppids l').
Proof. intros E P. rewrite <- (ppids_pending l), P, ppids_cons, ppids_pending, (pid_of_some t p E). reflexivity. Qed.

Lemma ppids_same l l' : Permutation (pending l) (pending l') -> Permutation (ppids l) (ppids l').
Proof. intros P. rewrite <- (ppids_pending l), P, ppids_pending. reflexivity. Qed.

(* schedule: push_back + push_heap *)
Lemma schedule_ok l e p : heap_ok l -> e_p e = Some p ->
  heap_ok (heap_push l e) /\ Permutation (pending (heap_push l e)) (e :: pending l) /\
  Permutation (ppids (heap_push l e)) (p :: ppids l).
Proof.
  intros H E. destruct (heap_push_ok l e H) as (H1 & P1 & _). split; [exact H1|].
  rewrite P1, pending_cons, ppids_cons, (pid_of_some e p E). unfold live. rewrite E. split; reflexivity.
Qed.

(* get_expired_lk, in terms of the pending multiset P of the array it starts from *)
Definition expired_spec (P : list entry) (now : Z) (l' : list entry) (r : expired) : Prop :=
  match r with
  | ExpP t =>
      live t = true /\ e_tp t <= now /\ Permutation P (t :: pending l') /\ (forall u, In u P -> e_tp t <= e_tp u)
  | ExpT tp =>
      now < tp /\ Permutation P (pending l') /\ (exists t, In t P /\ e_tp t = tp) /\ (forall u, In u l' -> tp <= e_tp u)
  | ExpMax => l' = [] /\ P = []
  end.

Lemma get_expired_lk_ok fuel : forall l now P, (length l < fuel)%nat -> heap_ok l -> Permutation P (pending l) ->
  exists l' r, get_expired_lk fuel l now = Ok (l', r) /\ heap_ok l' /\ expired_spec P now l' r.
Proof.
  induction fuel as [|f IH]; intros l now P F H PP; [lia|]. cbn [get_expired_lk].
  destruct l as [|t rest]; cbn [is_empty top rbind].
  - exists [], ExpMax. split; [reflexivity|]. split; [exact H|]. split; [reflexivity|].
    apply Permutation_nil. symmetry. exact PP.
  - assert (forall u, In u (t :: rest) -> e_tp t <= e_tp u) as MIN by (intros u; apply heap_top_min_in; exact H).
    destruct ((e_tp t <=? now) || isnone (e_p t))%bool eqn:C.
    + destruct (pop_item_ok t rest H) as (l1 & -> & H1 & P1 & L1). cbn [rbind].
      destruct (e_p t) as [p|] eqn:EP; cbn [isnone] in C; cbv iota.
      * (* a due live entry: returned *)
        assert (live t = true) as LT by (unfold live; rewrite EP; reflexivity).
        exists l1, (ExpP t). split; [reflexivity|]. split; [exact H1|].
        split; [exact LT|]. split; [lia|]. split.
        -- rewrite PP, pending_cons, LT, P1. reflexivity.
        -- intros u Hu. rewrite PP in Hu. apply pending_In in Hu. apply MIN, Hu.
      * (* an emptied entry: dropped, look again *)
        apply IH; [cbn [length] in F; lia|exact H1|].
        rewrite PP, pending_cons, P1. unfold live. rewrite EP. reflexivity.
    + (* the top is live and not due *)
      apply orb_false_iff in C. destruct C as [C1 C2].
      exists (t :: rest), (ExpT (e_tp t)). split; [reflexivity|]. split; [exact H|].
      split; [lia|]. split; [exact PP|]. split; [|exact MIN].
      exists t. split; [|reflexivity]. rewrite PP. apply pending_In. split; [left; reflexivity|].
      unfold live. rewrite C2. reflexivity.
Qed.

Lemma get_expired_ok l now : heap_ok l ->
  exists l' r, get_expired l now = Ok (l', r) /\ heap_ok l' /\ expired_spec (pending l) now l' r.
Proof. intros H. apply get_expired_lk_ok; [lia|exact H|reflexivity]. Qed.

(* remove(id), in terms of the pending multiset P of the array it starts from *)
Definition remove_spec (P : list entry) (id : Z) (l' : list entry) (r : option entry) : Prop :=
  match r with
  | Some t => live t = true /\ e_id t = id /\ Permutation P (t :: pending l')
  | None => Permutation P (pending l') /\ forall u, In u P -> e_id u <> id
  end.

Lemma remove_loop_ok fuel : forall l id P, (length l < fuel)%nat -> heap_ok l -> Permutation P (pending l) ->
  exists l' r, remove_loop fuel l id = Ok (l', r) /\ heap_ok l' /\ incl l' l /\
    match r with Some _ => remove_spec P id l' r | None => Permutation P (pending l') end.
Proof.
  induction fuel as [|f IH]; intros l id P F H PP; [lia|]. cbn [remove_loop].
  destruct l as [|t rest]; cbn [is_empty top rbind].
  - exists [], None. auto using incl_refl.
  - destruct (e_id t =? id) eqn:C.
    + destruct (pop_item_ok t rest H) as (l1 & -> & H1 & P1 & L1). cbn [rbind].
      assert (incl l1 (t :: rest)) as S1 by (intros u Hu; right; rewrite <- P1; exact Hu).
      destruct (e_p t) as [p|] eqn:EP; cbv iota.
      * assert (live t = true) as LT by (unfold live; rewrite EP; reflexivity).
        exists l1, (Some t). split; [reflexivity|]. split; [exact H1|]. split; [exact S1|].
        split; [exact LT|]. split; [lia|]. rewrite PP, pending_cons, LT, P1. reflexivity.
      * destruct (IH l1 id P) as (l' & r & E & H' & S & SP); [cbn [length] in F; lia|exact H1| |].
        { rewrite PP, pending_cons, P1. unfold live. rewrite EP. reflexivity. }
        exists l', r. split; [exact E|]. split; [exact H'|]. split; [|exact SP]. eapply incl_tran; eassumption.
    + exists (t :: rest), None. auto using incl_refl.
Qed.

Lemma find_take_ok l id : forall l' r, find_take l id = (l', r) ->
  map e_tp l' = map e_tp l /\ remove_spec (pending l) id l' r.
Proof.
  induction l as [|e t IH]; intros l' r E; cbn [find_take] in E.
  - inversion E; subst. split; [reflexivity|]. split; [reflexivity|intros u []].
  - destruct ((e_id e =? id) && negb (isnone (e_p e)))%bool eqn:C.
    + inversion E; subst. clear E. apply andb_true_iff in C. destruct C as [C1 C2]. fold (live e) in C2.
      split; [reflexivity|]. split; [exact C2|]. split; [lia|].
      rewrite !pending_cons, C2. reflexivity.
    + destruct (find_take t id) as [t' r'] eqn:E'. inversion E; subst. clear E.
      destruct (IH t' r eq_refl) as (M & SP).
      split; [cbn [map]; rewrite M; reflexivity|].
      destruct r as [x|]; cbn [remove_spec] in *.
      * destruct SP as (A & B & P). split; [exact A|]. split; [exact B|].
        rewrite !pending_cons. destruct (live e); [rewrite P; apply perm_swap|exact P].
      * destruct SP as (P & NO). rewrite !pending_cons. fold (live e) in C.
        destruct (live e); [|auto]. split; [apply perm_skip; exact P|].
        intros u [<-|Hu]; [rewrite andb_true_r in C; lia|apply NO; exact Hu].
Qed.

Theorem remove_ok l id : heap_ok l ->
  exists l' r, remove l id = Ok (l', r) /\ heap_ok l' /\ incl (map e_tp l') (map e_tp l) /\
               remove_spec (pending l) id l' r.
Proof.
  intros H. unfold remove. destruct (is_empty l) eqn:NE.
  - destruct l; [|discriminate]. exists [], None. split; [reflexivity|]. split; [exact H|]. split; [apply incl_refl|].
    split; [reflexivity|intros u []].
  - destruct (remove_loop_ok (S (length l)) l id _ (Nat.lt_succ_diag_r _) H (Permutation_refl _))
      as (l1 & r1 & -> & H1 & S1 & SP1).
    cbn [rbind fst snd]. apply (incl_map e_tp) in S1.
    destruct r1 as [t|].
    + exists l1, (Some t). auto.
    + (* the loop left the array at an entry with another ident: linear search, the entry found is emptied in place *)
      destruct (find_take l1 id) as [l2 r2] eqn:E2.
      destruct (find_take_ok l1 id l2 r2 E2) as (M & SP2).
      exists l2, r2. split; [reflexivity|]. split; [apply (heap_ok_ext l1 l2); [symmetry; exact M|exact H1]|].
      split; [rewrite M; exact S1|].
      destruct r2 as [t|]; cbn [remove_spec] in *; setoid_rewrite SP1; exact SP2.
Qed.

Record inv (s : st) : Prop := mkInv {
  inv_heap : heap_ok (sched s);                         (* _scheduled[0] is a minimum *)
  inv_dead : alive s = false -> sched s = [];
  inv_nodup : NoDup (ppids (sched s));                  (* a promise sits in at most one slot *)
  inv_pend : forall p, get (futs s) p = Some FPending <-> In p (ppids (sched s)) }.

Lemma inv_st0 : inv st0.
Proof.
  split; cbn [sched futs alive st0 ppids flat_map].
  - apply heap_ok_nil.
  - reflexivity.
  - constructor.
  - intros p. unfold get. destruct p; cbn; split; intros H; try discriminate; destruct H.
Qed.

Lemma stat_of_not_pending h : stat_of h <> FPending.
Proof. destruct h; discriminate. Qed.

Lemma complete_live f t h p : e_p t = Some p -> complete f (t, h) = put f p (Some (stat_of h)).
Proof. intros E. unfold complete. cbn [fst snd]. rewrite E. reflexivity. Qed.

Lemma inv_take s l' t p h : inv s -> heap_ok l' -> e_p t = Some p ->
  Permutation (pending (sched s)) (t :: pending l') -> inv (mkSt l' (complete (futs s) (t, h)) true).
Proof.
  intros [IH ID IN IP] H' EP P. pose proof (ppids_take _ _ _ _ EP P) as PP.
  rewrite PP in IN. inversion IN as [|? ? NI ND]; subst.
  split; cbn [sched futs alive]; [exact H'|discriminate|exact ND|].
  intros q. rewrite (complete_live _ _ _ _ EP). destruct (Nat.eq_dec q p) as [-> |N].
  - rewrite get_put_same. split; [intros Q; inversion Q; destruct h; discriminate|contradiction].
  - rewrite get_put_other by congruence. rewrite IP, PP. cbn [In]. intuition congruence.
Qed.

Lemma inv_same s l' : inv s -> heap_ok l' -> Permutation (pending (sched s)) (pending l') -> inv (mkSt l' (futs s) true).
Proof.
  intros [IH ID IN IP] H' P. apply ppids_same in P.
  split; cbn [sched futs alive]; [exact H'|discriminate|rewrite <- P; exact IN|].
  intros q. rewrite IP, P. reflexivity.
Qed.

Lemma inv_arm s pid id tp : inv s -> get (futs s) pid = None ->
  inv (mkSt (heap_push (sched s) (mkE tp (Some pid) id)) (put (futs s) pid (Some FPending)) true).
Proof.
  intros [IH ID IN IP] G. destruct (schedule_ok (sched s) (mkE tp (Some pid) id) pid IH eq_refl) as (H1 & _ & PP).
  assert (~ In pid (ppids (sched s))) as NI by (rewrite <- IP, G; discriminate).
  split; cbn [sched futs alive]; [exact H1|discriminate|rewrite PP; constructor; assumption|].
  intros q. rewrite PP. cbn [In]. destruct (Nat.eq_dec q pid) as [-> |N].
  - rewrite get_put_same. split; auto.
  - rewrite get_put_other by congruence. rewrite IP. intuition congruence.
Qed.

(* --- the multiset specification of one call (P = pending multiset before, P' = after) --- *)
Definition rm_spec (P : list entry) (id : Z) (h : how) (o : out) (P' : list entry) : Prop :=
  (exists t, o = mkOut 0 1 0 [(t, h)] /\ In t P /\ e_id t = id /\ Permutation P (t :: P'))
  \/ (o = mkOut 0 0 0 [] /\ (forall u, In u P -> e_id u <> id) /\ Permutation P P').

Definition sched_spec (P : list entry) (pid : nat) (id tp : Z) (o : out) (P' : list entry) : Prop :=
  (o = rejected /\ P' = P) \/ (o = mkOut 0 0 0 [] /\ Permutation P' (mkE tp (Some pid) id :: P)).

Definition spec_step (P : list entry) (x : op) (o : out) (P' : list entry) : Prop :=
  match x with
  | OSchedule pid id tp => sched_spec P pid id tp o P'
  | OSleep pid id tp => sched_spec P pid id tp o P'
  | OExpired now =>
      (exists t, o = mkOut 0 1 0 [(t, ByExpiry now)] /\ In t P /\ e_tp t <= now /\
                 (forall u, In u P -> e_tp t <= e_tp u) /\ Permutation P (t :: P'))
      \/ (exists tp, o = mkOut 0 0 tp [] /\ now < tp /\ (exists t, In t P /\ e_tp t = tp) /\
                     (forall u, In u P -> tp <= e_tp u) /\ Permutation P P')
      \/ (o = mkOut 0 2 0 [] /\ P = [] /\ P' = [])
  | ORemove id => rm_spec P id ByRemove o P'
  | OCancel id => rm_spec P id (ByCancel 0) o P'
  | OCancelE id c => rm_spec P id (ByCancel c) o P'
  | ODestroy => o = mkOut 0 0 0 (map (fun e => (e, ByDestroy)) P) /\ P' = []
  | OBad => o = rejected /\ P' = P
  end.

(* what a call does to the futures: only the futures named by its completion events change *)
Definition futs_effect (s : st) (x : op) (o : out) (s' : st) : Prop :=
  match x with
  | OSchedule pid _ _ | OSleep pid _ _ =>
      if o_st o =? 0 then futs s' = put (futs s) pid (Some FPending) else futs s' = futs s
  | _ => futs s' = fold_left complete (o_evs o) (futs s)
  end.

Lemma step_schedule s pid id tp : inv s -> alive s = true ->
  exists s' o, step s (OSchedule pid id tp) = Ok (s', o) /\ inv s' /\ futs_effect s (OSchedule pid id tp) o s' /\
               sched_spec (pending (sched s)) pid id tp o (pending (sched s')).
Proof.
  intros I A. unfold step. rewrite A. cbn [negb futs_effect].
  destruct (get (futs s) pid) as [v|] eqn:G.
  - exists s, rejected. split; [reflexivity|]. split; [exact I|]. split; [reflexivity|]. left. auto.
  - eexists _, _. split; [reflexivity|]. cbn [schedule fst sched]. split; [apply inv_arm; assumption|].
    split; [reflexivity|]. right. split; [reflexivity|]. apply (schedule_ok (sched s) _ pid); [apply I|reflexivity].
Qed.

Lemma step_expired s now : inv s -> alive s = true ->
  exists s' o, step s (OExpired now) = Ok (s', o) /\ inv s' /\ futs s' = fold_left complete (o_evs o) (futs s) /\
               spec_step (pending (sched s)) (OExpired now) o (pending (sched s')).
Proof.
  intros I A. unfold step. rewrite A. cbn [negb spec_step].
  destruct (get_expired_ok (sched s) now (inv_heap s I)) as (l' & r & -> & H' & SP). cbn [rbind fst snd].
  destruct r as [t|tp|]; cbn [expired_spec] in SP.
  - destruct SP as (LT & DUE & P & MIN). apply live_some in LT. destruct LT as [p EP].
    eexists _, _. split; [reflexivity|]. split; [exact (inv_take s l' t p _ I H' EP P)|]. split; [reflexivity|].
    left. exists t. cbn [sched]. repeat split; auto. rewrite P. left. reflexivity.
  - destruct SP as (FUT & P & EX & MIN).
    eexists _, _. split; [reflexivity|]. split; [exact (inv_same s l' I H' P)|]. split; [reflexivity|].
    right. left. exists tp. cbn [sched]. split; [reflexivity|]. split; [exact FUT|]. split; [exact EX|]. split; [|exact P].
    intros u Hu. apply MIN. rewrite P in Hu. apply pending_In in Hu. apply Hu.
  - destruct SP as (-> & EP).
    eexists _, _. split; [reflexivity|]. split; [apply (inv_same s [] I heap_ok_nil); rewrite EP; reflexivity|].
    split; [reflexivity|]. right. right. cbn [sched]. auto.
Qed.

(* remove / cancel(id) / cancel(id, e) differ only in how the promise taken is resolved *)
Lemma do_remove_ok s id h : inv s ->
  exists s' o, do_remove s id h = Ok (s', o) /\ inv s' /\ futs s' = fold_left complete (o_evs o) (futs s) /\
               rm_spec (pending (sched s)) id h o (pending (sched s')).
Proof.
  intros I. unfold do_remove.
  destruct (remove_ok (sched s) id (inv_heap s I)) as (l' & r & -> & H' & _ & SP). cbn [rbind fst snd].
  destruct r as [t|]; cbn [remove_spec] in SP.
  - destruct SP as (LT & EI & P). apply live_some in LT. destruct LT as [p EP].
    eexists _, _. split; [reflexivity|]. split; [exact (inv_take s l' t p h I H' EP P)|]. split; [reflexivity|].
    left. exists t. cbn [sched]. repeat split; auto. rewrite P. left. reflexivity.
  - destruct SP as (P & NO).
    eexists _, _. split; [reflexivity|]. split; [exact (inv_same s l' I H' P)|]. split; [reflexivity|].
    right. cbn [sched]. auto.
Qed.

(* completing a list of entries: a future none of them holds is untouched; a future one of them holds gets the
   state its event dictates *)
Lemma fold_complete_other evs : forall f p, (forall ev, In ev evs -> e_p (fst ev) <> Some p) ->
  get (fold_left complete evs f) p = get f p.
Proof.
  induction evs as [|ev evs IH]; intros f p H; cbn [fold_left]; [reflexivity|].
  rewrite IH by (intros ev' I'; apply H; right; exact I').
  unfold complete. destruct (e_p (fst ev)) as [q|] eqn:EQ; [|reflexivity].
  apply get_put_other. intros ->. apply (H ev); [left; reflexivity|exact EQ].
Qed.

Lemma fold_complete_event evs : forall f t h p, NoDup (ppids (map fst evs)) -> In (t, h) evs -> e_p t = Some p ->
  get (fold_left complete evs f) p = Some (stat_of h).
Proof.
  induction evs as [|ev evs IH]; intros f t h p ND IE EP; [destruct IE|]. cbn [fold_left].
  cbn [map] in ND. rewrite ppids_cons in ND. destruct IE as [-> |IE].
  - cbn [fst] in ND. rewrite (pid_of_some t p EP) in ND. inversion ND as [|? ? NI _]; subst.
    rewrite fold_complete_other, (complete_live _ _ _ _ EP); [apply get_put_same|].
    intros ev IE Q. apply NI. apply In_ppids. exists (fst ev). split; [|exact Q].
    apply pending_In. split; [apply in_map; exact IE|]. apply live_some. eauto.
  - apply (IH _ t h p); [|exact IE|exact EP]. apply (NoDup_app_r _ _ ND).
Qed.

Lemma fold_complete_used evs : forall f p, get f p <> None -> get (fold_left complete evs f) p <> None.
Proof.
  induction evs as [|ev evs IH]; intros f p F; cbn [fold_left]; [exact F|]. apply IH.
  unfold complete. destruct (e_p (fst ev)) as [q|]; [|exact F].
  destruct (Nat.eq_dec q p) as [-> |N]; [rewrite get_put_same; discriminate|rewrite get_put_other by exact N; exact F].
Qed.

(* the destructor: every future held by the array becomes "no value", no other changes *)
Lemma fold_complete_destroy es : forall f q,
  get (fold_left complete (map (fun e => (e, ByDestroy)) es) f) q =
  if in_dec Nat.eq_dec q (ppids es) then Some FDropped else get f q.
Proof.
  induction es as [|e es IH]; intros f q; cbn [map fold_left].
  - cbn [ppids flat_map]. destruct (in_dec Nat.eq_dec q []) as [[]|]; reflexivity.
  - rewrite IH. rewrite ppids_cons.
    destruct (in_dec Nat.eq_dec q (ppids es)) as [I|I];
    destruct (in_dec Nat.eq_dec q (pid_of e ++ ppids es)) as [J|J]; try reflexivity.
    + exfalso. apply J. apply in_or_app. right. exact I.
    + apply in_app_or in J. destruct J as [J|J]; [|contradiction].
      unfold pid_of in J. destruct (e_p e) as [p|] eqn:EP; [|destruct J]. destruct J as [J|[]]. subst q.
      rewrite (complete_live f e ByDestroy p EP). apply get_put_same.
    + unfold complete. cbn [fst snd]. destruct (e_p e) as [p|] eqn:EP; [|reflexivity].
      rewrite get_put_other; [reflexivity|]. intros Q. subst q. apply J. apply in_or_app. left.
      rewrite (pid_of_some e p EP). left. reflexivity.
Qed.

(* every call in a live state returns (no out-of-bounds access, no fuel artefact), keeps the invariant, and refines
   the multiset specification *)
Theorem step_live s x : inv s -> alive s = true ->
  exists s' o, step s x = Ok (s', o) /\ inv s' /\ futs_effect s x o s' /\
               spec_step (pending (sched s)) x o (pending (sched s')).
Proof.
  intros I A. destruct x as [pid id tp|pid id tp|now|id|id|id c| |]; cbn [futs_effect spec_step].
  - apply step_schedule; assumption.
  - exact (step_schedule s pid id tp I A).      (* sleep_until is schedule with the future's own promise *)
  - apply step_expired; assumption.
  - unfold step. rewrite A. apply do_remove_ok. exact I.
  - unfold step. rewrite A. apply do_remove_ok. exact I.
  - unfold step. rewrite A. apply do_remove_ok. exact I.
  - (* ~scheduler *)
    unfold step. rewrite A. cbn [negb]. eexists _, _. split; [reflexivity|]. cbn [sched futs pending filter o_evs].
    split; [|auto]. destruct I as [IH ID IN IP].
    split; cbn [sched futs alive ppids flat_map]; [apply heap_ok_nil|reflexivity|constructor|].
    intros q. rewrite fold_complete_destroy, ppids_pending. split; [|intros []].
    destruct (in_dec Nat.eq_dec q (ppids (sched s))) as [J|J]; [discriminate|]. intros G. apply J, IP, G.
  - unfold step. rewrite A. exists s, rejected. auto.
Qed.

Lemma step_dead s x : alive s = false -> step s x = Ok (s, rejected).
Proof. intros A. unfold step. rewrite A. reflexivity. Qed.

Lemma step_spec s x s' o : inv s -> alive s = true -> step s x = Ok (s', o) ->
  inv s' /\ futs_effect s x o s' /\ spec_step (pending (sched s)) x o (pending (sched s')).
Proof.
  intros I A E. destruct (step_live s x I A) as (s2 & o2 & E2 & R). rewrite E in E2. inversion E2; subst. exact R.
Qed.

(* --- what the calls have in common: a call is rejected, or it arms one fresh future, or it completes the futures
   of its completion events, which leave the pending multiset --- *)
Lemma ob_out_mk_obs s s1 o : ob_out (mk_obs s s1 o) = o.
Proof. unfold mk_obs. destruct (o_st o =? 0); reflexivity. Qed.

Definition accepted (x : op) (o : obs) : list entry :=
  match x with
  | OSchedule pid id tp | OSleep pid id tp => if o_st (ob_out o) =? 0 then [mkE tp (Some pid) id] else []
  | _ => []
  end.

Definition is_sched (x : op) : bool := match x with OSchedule _ _ _ | OSleep _ _ _ => true | _ => false end.

Lemma accepted_nosched x o : is_sched x = false -> accepted x o = [].
Proof. destruct x; try discriminate; reflexivity. Qed.

Inductive step_shape (s : st) (x : op) (s' : st) (o : out) : Prop :=
| ShRejected : s' = s -> o = rejected -> accepted x (mk_obs s s' o) = [] -> step_shape s x s' o
| ShArmed pid id tp :
    accepted x (mk_obs s s' o) = [mkE tp (Some pid) id] -> o_evs o = [] -> get (futs s) pid = None ->
    futs s' = put (futs s) pid (Some FPending) ->
    Permutation (pending (sched s')) (mkE tp (Some pid) id :: pending (sched s)) -> step_shape s x s' o
| ShCompleted :
    accepted x (mk_obs s s' o) = [] -> futs s' = fold_left complete (o_evs o) (futs s) ->
    Permutation (pending (sched s)) (map fst (o_evs o) ++ pending (sched s')) -> step_shape s x s' o.

Lemma step_shape_ok s x s' o : inv s -> step s x = Ok (s', o) -> inv s' /\ step_shape s x s' o.
Proof.
  intros I E. destruct (alive s) eqn:A.
  2:{ rewrite (step_dead s x A) in E. inversion E; subst. split; [exact I|]. apply ShRejected; auto.
      unfold accepted. rewrite ob_out_mk_obs. destruct x; reflexivity. }
  destruct (step_spec s x s' o I A E) as (I' & FE & SP). split; [exact I'|].
  assert (forall id h, rm_spec (pending (sched s)) id h o (pending (sched s')) ->
            Permutation (pending (sched s)) (map fst (o_evs o) ++ pending (sched s'))) as RM.
  { intros id h [(t & -> & _ & _ & P)|(-> & _ & P)]; exact P. }
  destruct x as [pid id tp|pid id tp|now|id|id|id c| |]; cbn [spec_step futs_effect] in SP, FE.
  1,2: unfold step in E; rewrite A in E; cbn [negb] in E; destruct (get (futs s) pid) as [v|] eqn:G;
    inversion E; subst; [apply ShRejected; reflexivity|].
  1,2: apply (ShArmed _ _ _ _ pid id tp); [reflexivity|reflexivity|exact G|reflexivity|];
    apply (schedule_ok (sched s) _ pid); [apply I|reflexivity].
  - apply ShCompleted; [reflexivity|exact FE|].
    destruct SP as [(t & -> & _ & _ & _ & P)|[(tp & -> & _ & _ & _ & P)|(-> & -> & ->)]]; [exact P|exact P|reflexivity].
  - apply ShCompleted; [reflexivity|exact FE|exact (RM _ _ SP)].
  - apply ShCompleted; [reflexivity|exact FE|exact (RM _ _ SP)].
  - apply ShCompleted; [reflexivity|exact FE|exact (RM _ _ SP)].
  - apply ShCompleted; [reflexivity|exact FE|]. destruct SP as (-> & ->). cbn [o_evs].
    rewrite map_map, map_id, app_nil_r. reflexivity.
  - destruct SP as (-> & _). unfold step in E. rewrite A in E. inversion E; subst. apply ShRejected; reflexivity.
Qed.

Lemma shape_events s s' o : inv s ->
  Permutation (pending (sched s)) (map fst (o_evs o) ++ pending (sched s')) ->
  NoDup (ppids (map fst (o_evs o))) /\ forall ev, In ev (o_evs o) -> In (fst ev) (pending (sched s)).
Proof.
  intros I P. split.
  - pose proof (inv_nodup s I) as ND. rewrite <- ppids_pending, P in ND. unfold ppids in ND. rewrite flat_map_app in ND.
    apply (NoDup_app_l _ _ ND).
  - intros ev IE. rewrite P. apply in_or_app. left. apply in_map. exact IE.
Qed.

(* a future that is no longer pending is never touched again *)
Lemma step_stable s x s' o : inv s -> step s x = Ok (s', o) ->
  forall p v, get (futs s) p = Some v -> v <> FPending -> get (futs s') p = Some v.
Proof.
  intros I E p v G NP. destruct (step_shape_ok s x s' o I E) as (_ & [-> _ _|pid id tp _ _ G0 -> _|_ -> P]).
  - exact G.
  - rewrite get_put_other; [exact G|]. intros <-. congruence.
  - rewrite fold_complete_other; [exact G|]. intros ev IE Q.
    apply (shape_events s s' o I P) in IE.
    assert (get (futs s) p = Some FPending) by (apply (inv_pend s I), In_ppids; eauto). congruence.
Qed.

Lemma step_used s x s' o : inv s -> step s x = Ok (s', o) ->
  forall p, get (futs s) p <> None -> get (futs s') p <> None.
Proof.
  intros I E p G. destruct (step_shape_ok s x s' o I E) as (_ & [-> _ _|pid id tp _ _ _ -> _|_ -> _]).
  - exact G.
  - destruct (Nat.eq_dec pid p) as [-> |N]; [rewrite get_put_same; discriminate|rewrite get_put_other by exact N; exact G].
  - apply fold_complete_used. exact G.
Qed.

Lemma step_event_status s x s' o : inv s -> step s x = Ok (s', o) ->
  forall t h p, In (t, h) (o_evs o) -> e_p t = Some p -> get (futs s') p = Some (stat_of h).
Proof.
  intros I E t h p IE EP. destruct (step_shape_ok s x s' o I E) as (_ & [_ -> _|pid id tp _ EV _ _ _|_ -> P]).
  - destruct IE.
  - rewrite EV in IE. destruct IE.
  - apply (fold_complete_event _ _ t h p); [apply (shape_events s s' o I P)|exact IE|exact EP].
Qed.

(* no call ends in an Err outcome (out-of-bounds / fuel), on a live scheduler or a destroyed one *)
Lemma step_total s x : inv s -> exists s' o, step s x = Ok (s', o) /\ inv s'.
Proof.
  intros I. destruct (alive s) eqn:A.
  - destruct (step_live s x I A) as (s' & o & E & I' & _). eauto.
  - exists s, rejected. split; [apply step_dead; exact A|exact I].
Qed.

Lemma run_from_ok ops : forall s, inv s ->
  exists os s', run_from s ops = (os, Some s') /\ inv s' /\ length os = length ops.
Proof.
  induction ops as [|x t IH]; intros s I; cbn [run_from].
  - exists [], s. auto.
  - destruct (step_total s x I) as (s1 & o & -> & I1). cbn [fst snd].
    destruct (IH s1 I1) as (os & s' & -> & I' & L).
    exists (mk_obs s s1 o :: os), s'. cbn [length]. auto.
Qed.

Lemma run_from_app a : forall s b,
  run_from s (a ++ b) =
  match run_from s a with
  | (os1, Some s1) => let '(os2, e) := run_from s1 b in (os1 ++ os2, e)
  | r => r
  end.
Proof.
  induction a as [|x a IH]; intros s b; cbn [app run_from].
  - destruct (run_from s b). reflexivity.
  - destruct (step s x) as [[s1 o]| |]; [|reflexivity..]. cbn [fst snd]. rewrite IH.
    destruct (run_from s1 a) as [os1 [s2|]]; [|reflexivity]. destruct (run_from s2 b). reflexivity.
Qed.

Lemma run_split pre : forall s x post os s', run_from s (pre ++ x :: post) = (os, Some s') ->
  exists os1 s1 s2 o os2, run_from s pre = (os1, Some s1) /\ step s1 x = Ok (s2, o) /\
                          run_from s2 post = (os2, Some s') /\ os = os1 ++ mk_obs s1 s2 o :: os2.
Proof.
  intros s x post os s' E. rewrite run_from_app in E.
  destruct (run_from s pre) as [os1 [s1|]] eqn:E1; [|discriminate]. cbn [run_from] in E.
  destruct (step s1 x) as [[s2 o]| |] eqn:E2; try discriminate. cbn [fst snd] in E.
  destruct (run_from s2 post) as [os2 e] eqn:E3. inversion E; subst. exists os1, s1, s2, o, os2. auto.
Qed.

(* a history seen as a chain of calls, each made in a state satisfying the invariant *)
Inductive runs : st -> list op -> list obs -> st -> Prop :=
| runs_nil s : inv s -> runs s [] [] s
| runs_cons s x s1 o t os s' :
    inv s -> step s x = Ok (s1, o) -> runs s1 t os s' -> runs s (x :: t) (mk_obs s s1 o :: os) s'.

Lemma run_from_runs ops : forall s os s', inv s -> run_from s ops = (os, Some s') -> runs s ops os s'.
Proof.
  induction ops as [|x t IH]; intros s os s' I E; cbn [run_from] in E.
  - inversion E; subst. constructor. exact I.
  - destruct (step s x) as [[s1 o]| |] eqn:ES; try discriminate. cbn [fst snd] in E.
    destruct (run_from s1 t) as [os1 e] eqn:ER. inversion E; subst.
    constructor; [exact I|exact ES|]. apply IH; [apply (step_shape_ok s x s1 o I ES)|exact ER].
Qed.

Lemma runs_inv s ops os s' : runs s ops os s' -> inv s'.
Proof. induction 1; assumption. Qed.

Definition reachable (s : st) : Prop := exists ops os, run_from st0 ops = (os, Some s).

Lemma reachable_inv s : reachable s -> inv s.
Proof. intros (ops & os & E). apply (runs_inv _ _ _ _ (run_from_runs ops st0 os s inv_st0 E)). Qed.

(* --- what a history scheduled, what it completed --- *)
Fixpoint sched_run (ops : list op) (os : list obs) : list entry :=
  match ops, os with
  | x :: t, o :: u => accepted x o ++ sched_run t u
  | _, _ => []
  end.

Definition events_run (os : list obs) : list (entry * how) := flat_map (fun o => o_evs (ob_out o)) os.
Definition completed_run (os : list obs) : list entry := map fst (events_run os).

Lemma events_run_cons o os : events_run (o :: os) = o_evs (ob_out o) ++ events_run os.
Proof. reflexivity. Qed.

Lemma step_conserves s x s' o : inv s -> step s x = Ok (s', o) ->
  Permutation (accepted x (mk_obs s s' o) ++ pending (sched s)) (map fst (o_evs o) ++ pending (sched s')).
Proof.
  intros I E. destruct (step_shape_ok s x s' o I E) as (_ & [-> -> -> |pid id tp -> -> _ _ P| -> _ P]).
  - reflexivity.
  - symmetry. exact P.
  - exact P.
Qed.

Lemma perm_glue {A} (a b c d e f g : list A) :
  Permutation (a ++ c) (d ++ e) -> Permutation (b ++ e) (f ++ g) -> Permutation ((a ++ b) ++ c) ((d ++ f) ++ g).
Proof.
  intros H1 H2. rewrite <- app_assoc. rewrite Permutation_app_swap_app. rewrite H1.
  rewrite Permutation_app_swap_app. rewrite H2. rewrite app_assoc. reflexivity.
Qed.

(* conservation: scheduled ⊎ pending-before = completed ⊎ pending-after *)
Lemma run_conserves s ops os s' : runs s ops os s' ->
  Permutation (sched_run ops os ++ pending (sched s)) (completed_run os ++ pending (sched s')).
Proof.
  induction 1 as [s I|s x s1 o t os s' I ES R IH]; [reflexivity|].
  cbn [sched_run]. unfold completed_run in *. rewrite events_run_cons, map_app, ob_out_mk_obs.
  apply (perm_glue _ _ _ _ _ _ _ (step_conserves s x s1 o I ES) IH).
Qed.

Lemma run_stable s ops os s' : runs s ops os s' ->
  forall p v, get (futs s) p = Some v -> v <> FPending -> get (futs s') p = Some v.
Proof. induction 1 as [s I|s x s1 o t os s' I ES R IH]; intros p v G NP; eauto using step_stable. Qed.

(* every completion event fixes the final state of its future: value for expiry / remove, the given exception
   for cancel, "no value" (await_canceled_exception on access) for destruction *)
Lemma run_event_status s ops os s' : runs s ops os s' ->
  forall t h p, In (t, h) (events_run os) -> e_p t = Some p -> get (futs s') p = Some (stat_of h).
Proof.
  induction 1 as [s I|s x s1 o tl os s' I ES R IH]; intros t h p IE EP; [destruct IE|].
  rewrite events_run_cons, ob_out_mk_obs in IE. apply in_app_or in IE. destruct IE as [IE|IE].
  - apply (run_stable _ _ _ _ R); [|apply stat_of_not_pending]. apply (step_event_status s x s1 o I ES t h p IE EP).
  - apply (IH t h p IE EP).
Qed.

(* promise ids accepted by a history are pairwise distinct: each was unused when its call was made *)
Lemma run_fresh s ops os s' : runs s ops os s' ->
  NoDup (ppids (sched_run ops os)) /\
  (forall p, In p (ppids (sched_run ops os)) -> get (futs s) p = None) /\
  (forall p, get (futs s) p <> None -> get (futs s') p <> None).
Proof.
  induction 1 as [s I|s x s1 o t os s' I ES R (ND & FR & MONO)].
  - split; [constructor|]. split; [intros p []|auto].
  - pose proof (step_used s x s1 o I ES) as SU. cbn [sched_run].
    assert (forall p, In p (ppids (sched_run t os)) -> get (futs s) p = None) as FR'.
    { intros p IP. apply FR in IP. destruct (get (futs s) p) eqn:G; [|reflexivity]. exfalso. apply (SU p); congruence. }
    destruct (step_shape_ok s x s1 o I ES) as (_ & [_ _ -> |pid id tp -> _ G0 F1 _| -> _ _]); cbn [app]; auto.
    rewrite ppids_cons. cbn [pid_of e_p app]. split; [|split; [|auto]].
    + constructor; [|exact ND]. intros Q. apply FR in Q. rewrite F1, get_put_same in Q. discriminate.
    + intros p [<-|IP]; [exact G0|apply FR'; exact IP].
Qed.

(* every element of a history's trace is one call made in a state satisfying the invariant *)
Lemma run_In s ops os s' : runs s ops os s' ->
  forall x ob, In (x, ob) (combine ops os) -> exists s1 s2, inv s1 /\ step s1 x = Ok (s2, ob_out ob).
Proof.
  induction 1 as [s I|s y s1 o t os s' I ES R IH]; intros x ob IN; [destruct IN|].
  destruct IN as [Q|IN]; [|apply IH; exact IN].
  inversion Q; subst. exists s, s1. rewrite ob_out_mk_obs. auto.
Qed.

(* (refinement) every call in a reachable state returns and is a transition of the multiset specification *)
Theorem refines_multiset s x : reachable s ->
  exists s' o, step s x = Ok (s', o) /\ reachable s' /\
               (alive s = true -> spec_step (pending (sched s)) x o (pending (sched s'))) /\
               (alive s = false -> s' = s /\ o = rejected).
Proof.
  intros R. destruct (alive s) eqn:A.
  - destruct (step_live s x (reachable_inv s R) A) as (s' & o & E & _ & _ & SP).
    exists s', o. split; [exact E|]. split; [|split; [intros _; exact SP|discriminate]].
    destruct R as (ops & os & ER). exists (ops ++ [x]), (os ++ [mk_obs s s' o]).
    rewrite run_from_app, ER. cbn [run_from]. rewrite E. reflexivity.
  - exists s, rejected. split; [apply step_dead; exact A|]. split; [exact R|]. split; [discriminate|auto].
Qed.

(* an expiry event only comes from get_expired(now), is due, and is a minimum of the pending multiset *)
Lemma expiry_step s x s' o : inv s -> step s x = Ok (s', o) ->
  forall t now, In (t, ByExpiry now) (o_evs o) ->
  x = OExpired now /\ e_tp t <= now /\ o_evs o = [(t, ByExpiry now)] /\
  (forall u, In u (pending (sched s)) -> e_tp t <= e_tp u).
Proof.
  intros I E t now IE. destruct (alive s) eqn:A.
  2:{ rewrite (step_dead s x A) in E. inversion E; subst. destruct IE. }
  destruct (step_spec s x s' o I A E) as (_ & _ & SP).
  assert (forall id h, rm_spec (pending (sched s)) id h o (pending (sched s')) -> h = ByExpiry now) as RM.
  { intros id h [(t0 & -> & _)|(-> & _)]; cbn [o_evs] in IE; [|destruct IE].
    destruct IE as [Q|[]]. inversion Q. reflexivity. }
  destruct x as [pid id tp|pid id tp|n|id|id|id c| |]; cbn [spec_step] in SP;
    try (apply RM in SP; discriminate).
  1,2: destruct SP as [[-> _]|[-> _]]; destruct IE.
  - destruct SP as [(t0 & -> & IT & DUE & MIN & P)|[(tp & -> & _)|(-> & _)]]; cbn [o_evs] in IE; try (destruct IE; fail).
    destruct IE as [Q|[]]. inversion Q; subst. auto.
  - destruct SP as (-> & _). cbn [o_evs] in IE. apply in_map_iff in IE. destruct IE as (e & Q & _). discriminate.
  - destruct SP as (-> & _). destruct IE.
Qed.

(* (deadline order, pairwise) when `a` is completed by expiry, every sleep `b` that was pending at the start of the
   history or scheduled during it, and is not yet completed, has a time point >= a's: nobody is overtaken *)
Theorem deadline_order s0 pre os1 s1 x s2 o a now b :
  runs s0 pre os1 s1 -> step s1 x = Ok (s2, o) -> In (a, ByExpiry now) (o_evs o) ->
  In b (sched_run pre os1 ++ pending (sched s0)) -> ~ In b (completed_run os1) -> e_tp a <= e_tp b.
Proof.
  intros R ES IE IB NB.
  destruct (expiry_step s1 x s2 o (runs_inv _ _ _ _ R) ES a now IE) as (_ & _ & _ & MIN).
  apply MIN. rewrite (run_conserves _ _ _ _ R) in IB. apply in_app_or in IB. destruct IB; [contradiction|assumption].
Qed.

(* time points completed by expiry, in completion order *)
Definition expiry_tps (os : list obs) : list Z :=
  flat_map (fun ev => match snd ev with ByExpiry _ => [e_tp (fst ev)] | _ => [] end) (events_run os).

Lemma expiry_dec (evs : list (entry * how)) :
  flat_map (fun ev => match snd ev with ByExpiry _ => [e_tp (fst ev)] | _ => [] end) evs = []
  \/ exists a now, In (a, ByExpiry now) evs.
Proof.
  induction evs as [|[a h] evs [IH|(a' & n & I)]]; [left; reflexivity| |right; exists a', n; right; exact I].
  destruct h as [now| | |]; [right; exists a, now; left; reflexivity|left; exact IH..].
Qed.

(* without a schedule call in between, what is pending later was pending before, and what expires was pending *)
Lemma nosched_run s ops os s' : runs s ops os s' -> forallb (fun x => negb (is_sched x)) ops = true ->
  incl (pending (sched s')) (pending (sched s)) /\
  StronglySorted Z.le (expiry_tps os) /\
  (forall tp, In tp (expiry_tps os) -> exists u, In u (pending (sched s)) /\ e_tp u = tp).
Proof.
  induction 1 as [s I|s x s1 o t os s' I ES R IH]; intros NS.
  - split; [apply incl_refl|]. split; [constructor|intros tp []].
  - cbn [forallb] in NS. apply andb_true_iff in NS. destruct NS as [NX NT]. apply negb_true_iff in NX.
    destruct (IH NT) as (SUB & SS & FROM).
    pose proof (step_conserves s x s1 o I ES) as C. rewrite (accepted_nosched x _ NX) in C. cbn [app] in C.
    assert (incl (pending (sched s1)) (pending (sched s))) as SUB1.
    { intros u IU. rewrite C. apply in_or_app. right. exact IU. }
    assert (forall tp, In tp (expiry_tps os) -> exists u, In u (pending (sched s)) /\ e_tp u = tp) as FROM1.
    { intros tp IT. destruct (FROM tp IT) as (u & IU & EU). exists u. auto. }
    split; [eapply incl_tran; eassumption|].
    unfold expiry_tps in *. rewrite events_run_cons, ob_out_mk_obs, flat_map_app.
    destruct (expiry_dec (o_evs o)) as [->|(a & now & IE)]; [auto|].
    (* the call completed `a` by expiry: a minimum of what was pending, hence of everything that expires later *)
    destruct (expiry_step s x s1 o I ES a now IE) as (_ & _ & EV & MIN). rewrite EV in *. cbn [flat_map snd fst app map] in *.
    split.
    + constructor; [exact SS|]. apply Forall_forall. intros tp IT.
      destruct (FROM1 tp IT) as (u & IU & <-). apply MIN. exact IU.
    + intros tp [<-|IT]; [|apply FROM1; exact IT].
      exists a. split; [|reflexivity]. rewrite C. left. reflexivity.
Qed.

(* (each once) promise ids are distinct; scheduled = completed ⊎ still pending; the final state of every completed
   future is the one its (single) completion event dictates; pending futures are pending; after the destructor
   scheduled = completed *)
Theorem each_once ops os sf : run_from st0 ops = (os, Some sf) ->
  NoDup (ppids (sched_run ops os)) /\
  Permutation (sched_run ops os) (completed_run os ++ pending (sched sf)) /\
  (forall t h p, In (t, h) (events_run os) -> e_p t = Some p -> get (futs sf) p = Some (stat_of h)) /\
  (forall e p, In e (pending (sched sf)) -> e_p e = Some p -> get (futs sf) p = Some FPending) /\
  (alive sf = false -> Permutation (sched_run ops os) (completed_run os)).
Proof.
  intros E. pose proof (run_from_runs ops st0 os sf inv_st0 E) as R. pose proof (runs_inv _ _ _ _ R) as IF.
  pose proof (run_conserves _ _ _ _ R) as C. rewrite app_nil_r in C.
  split; [apply (run_fresh _ _ _ _ R)|]. split; [exact C|]. split; [|split].
  - apply (run_event_status _ _ _ _ R).
  - intros e p IE EP. apply (inv_pend sf IF), In_ppids. eauto.
  - intros D. rewrite (inv_dead sf IF D), app_nil_r in C. exact C.
Qed.

Definition cancel_exact_spec (s : st) (id : Z) (h : how) (s' : st) (o : out) : Prop :=
  (o_r1 o = 1 /\
   exists t p, o_evs o = [(t, h)] /\ In t (pending (sched s)) /\ e_id t = id /\ e_p t = Some p /\
               Permutation (pending (sched s)) (t :: pending (sched s')) /\
               get (futs s) p = Some FPending /\ get (futs s') p = Some (stat_of h) /\
               (forall q, q <> p -> get (futs s') q = get (futs s) q))
  \/
  (o_r1 o = 0 /\ o_evs o = [] /\ (forall u, In u (pending (sched s)) -> e_id u <> id) /\
   Permutation (pending (sched s)) (pending (sched s')) /\ futs s' = futs s).

(* (cancel exact) remove / cancel(id) / cancel(id, e) in a state satisfying the invariant, hence in every reachable one:
   true => exactly one pending sleep carrying id is completed as `h` says, every other future and the rest of the
   pending multiset untouched; false <=> nothing pending carries id, and then nothing changes *)
Theorem remove_exact_gen s id h : inv s ->
  exists s' o, do_remove s id h = Ok (s', o) /\ cancel_exact_spec s id h s' o /\
               (o_r1 o = 0 <-> forall u, In u (pending (sched s)) -> e_id u <> id).
Proof.
  intros I. destruct (do_remove_ok s id h I) as (s' & o & E & I' & FE & SP).
  exists s', o. split; [exact E|].
  destruct SP as [(t & -> & IT & EI & P)|(-> & NO & P)]; cbn [o_evs fold_left o_r1] in *.
  - destruct (proj1 (live_some t)) as [p EP]; [apply pending_In in IT; apply IT|].
    rewrite (complete_live _ _ _ _ EP) in FE. split.
    + left. split; [reflexivity|]. exists t, p. repeat split; auto.
      * apply (inv_pend s I), In_ppids. eauto.
      * rewrite FE. apply get_put_same.
      * intros q Q. rewrite FE. apply get_put_other. congruence.
    + split; [discriminate|]. intros NO. exfalso. apply (NO t IT EI).
  - split; [right; auto|]. split; auto.
Qed.

(* (destroy cancels) the destructor completes exactly the pending sleeps, each as "cancelled" (future ready without a
   value), touches no other future, and leaves nothing pending; the dead scheduler rejects every later call *)
Theorem destroy_cancels s : inv s -> alive s = true ->
  exists s' o, step s ODestroy = Ok (s', o) /\
    sched s' = [] /\ alive s' = false /\
    o_evs o = map (fun e => (e, ByDestroy)) (pending (sched s)) /\
    (forall p, get (futs s) p = Some FPending -> get (futs s') p = Some FDropped) /\
    (forall p v, get (futs s) p = Some v -> v <> FPending -> get (futs s') p = Some v) /\
    (forall p, get (futs s') p <> Some FPending) /\
    (forall x, step s' x = Ok (s', rejected)).
Proof.
  intros I A. destruct (step_live s ODestroy I A) as (s' & o & E & I' & _). exists s', o. split; [exact E|].
  pose proof (step_stable s ODestroy s' o I E) as STABLE.
  unfold step in E. rewrite A in E. inversion E; subst s' o. clear E. cbn [sched alive futs o_evs] in *.
  split; [reflexivity|]. split; [reflexivity|]. split; [reflexivity|]. split; [|split; [exact STABLE|split]].
  - intros p G. rewrite fold_complete_destroy, ppids_pending.
    destruct (in_dec Nat.eq_dec p (ppids (sched s))) as [J|J]; [reflexivity|]. exfalso. apply J, (inv_pend s I), G.
  - intros p G. apply (inv_pend _ I') in G. destruct G.
  - intros x. apply step_dead. reflexivity.
Qed.

(* d is not later than ANY time point in the array (time_point::max, None, only while the array is empty) *)
Definition bound_ok (l : list entry) (d : option Z) : Prop :=
  forall tp, In tp (map e_tp l) -> match d with Some t => t <= tp | None => False end.

(* whenever the worker is blocked in (or about to enter) wait_until(d): a wake-up is pending, or d is such a bound *)
Definition wait_ok (w : wst) : Prop :=
  match w_mode w with
  | WWait d ntf => ntf = true \/ bound_ok (w_sched w) d
  | WDecided d => bound_ok (w_sched w) d
  | _ => True
  end.

(* with the stop-token-aware wait a requested stop never leaves the worker blocked *)
Definition stop_ok (aw : bool) (w : wst) : Prop :=
  aw = true -> w_stop w = true -> match w_mode w with WWait _ ntf => ntf = true | _ => True end.

Record winv (aw : bool) (w : wst) : Prop := mkWinv {
  wi_heap : heap_ok (w_sched w);
  wi_err : w_err w = false;
  wi_wait : wait_ok w;
  wi_done : forall t now, In (t, now) (w_done w) -> e_tp t <= now;
  wi_cons : Permutation (w_in w) (map fst (w_done w) ++ w_rm w ++ pending (w_sched w));
  wi_stop : stop_ok aw w }.

Lemma winv0 aw : winv aw wst0.
Proof. split; cbn; auto using heap_ok_nil. - intros t now []. - intros _ H. discriminate. Qed.

(* when the wait predicate fails on a non-empty heap, d is not later than its top, hence than any time point in it *)
Lemma wake_pred_bound l d : heap_ok l -> l <> [] -> wake_pred l d = false -> bound_ok l d.
Proof.
  intros H NE WP. destruct l as [|t rest]; [contradiction|]. cbn [wake_pred] in WP. destruct d as [x|]; [|discriminate].
  intros tp' IT. apply in_map_iff in IT. destruct IT as (u & <- & IU). pose proof (heap_top_min_in t rest u H IU). lia.
Qed.

(* a schedule call that does not notify found a top not later than the new time point: every bound stays one *)
Lemma quiet_schedule_bound l e d : heap_ok l -> snd (schedule l e) = false -> bound_ok l d -> bound_ok (heap_push l e) d.
Proof.
  intros H NT B. cbn [schedule snd] in NT. destruct l as [|t rest]; [discriminate|]. cbn [is_empty orb] in NT.
  pose proof (B (e_tp t) (or_introl eq_refl)) as BT. destruct (heap_push_ok (t :: rest) e H) as (_ & P1 & _).
  intros tp' IT. rewrite P1 in IT. destruct IT as [<-|IT]; [|apply B; exact IT]. destruct d; [lia|exact BT].
Qed.

Lemma wstep_inv aw w e : winv aw w -> winv aw (wstep aw w e).
Proof.
  intros I. pose proof I as [IH IE IW ID IC IS]. unfold wstep. rewrite IE.
  destruct e as [pid id tp|id|dt| | | |].
  - (* schedule from another thread *)
    destruct (lock_held w) eqn:LH; [exact I|].
    set (en := mkE tp (Some pid) id). pose proof (quiet_schedule_bound (w_sched w) en) as QUIET.
    destruct (heap_push_ok (w_sched w) en IH) as (H1 & P1 & L1).
    unfold schedule in *. cbn [snd] in QUIET. set (l := heap_push (w_sched w) en) in *.
    remember (is_empty (w_sched w) || match w_sched w with t :: _ => e_tp en <? e_tp t | [] => true end)%bool as ntf eqn:NT in *.
    split; cbn [w_sched w_err w_mode w_done w_now w_in w_rm w_stop]; auto.
    + unfold wait_ok in *. cbn [w_mode w_sched].
      destruct (w_mode w) as [|d|d n|] eqn:M; try (solve [destruct ntf; cbn [notify]; exact Logic.I]).
      * unfold lock_held in LH. rewrite M in LH. discriminate.
      * destruct ntf; cbn [notify].
        -- (* notified: the wait predicate is evaluated on the new array *)
           destruct n; [left; reflexivity|]. cbn [orb]. destruct aw; [|left; reflexivity].
           destruct (wake_pred l d) eqn:WP; [left; reflexivity|right].
           apply wake_pred_bound; [exact H1| |exact WP]. intros EL. rewrite EL in L1. discriminate.
        -- destruct IW as [IW|IW]; [left; exact IW|right; apply QUIET; auto].
    + rewrite P1, pending_cons, IC. change (live en) with true. cbn iota. rewrite <- !Permutation_middle. reflexivity.
    + intros AW ST. specialize (IS AW ST).
      destruct (w_mode w) as [|d|d n|]; destruct ntf; cbn [notify]; auto. subst n. reflexivity.
  - (* remove / cancel from another thread: never notifies, and does not need to: no time point is new *)
    destruct (lock_held w) eqn:LH; [exact I|].
    destruct (remove_ok (w_sched w) id IH) as (l' & r & -> & H' & TS & SP). cbn [fst snd].
    split; cbn [w_sched w_err w_mode w_done w_now w_in w_rm w_stop]; auto.
    + unfold wait_ok in *. cbn [w_mode w_sched].
      assert (forall d, bound_ok (w_sched w) d -> bound_ok l' d) as B by (intros d Bd tp' IT; apply Bd, TS, IT).
      destruct (w_mode w) as [|d|d n|]; auto. destruct IW as [IW|IW]; [left; exact IW|right; apply B; exact IW].
    + destruct r as [t|]; cbn [remove_spec] in SP.
      * destruct SP as (_ & _ & P). rewrite IC, P. cbn [app]. rewrite <- !Permutation_middle. reflexivity.
      * destruct SP as (P & _). rewrite IC, P. reflexivity.
  - split; cbn [w_sched w_err w_mode w_done w_now w_in w_rm w_stop]; auto.
  - (* one worker iteration, up to its decision *)
    destruct (runnable w) eqn:RN; cbn [negb]; [|exact I].
    destruct (w_stop w) eqn:ST.
    { split; cbn [set_mode w_sched w_err w_mode w_done w_now w_in w_rm w_stop]; auto. constructor. intros _ _. constructor. }
    destruct (get_expired_ok (w_sched w) (w_now w) IH) as (l' & r & -> & H' & SP).
    (* in each of the three outcomes it remains to show wait_ok, wi_done and wi_cons, in this order *)
    destruct r as [t|tp|]; cbn [expired_spec] in SP;
      (split; cbn [w_sched w_err w_mode w_done w_now w_in w_rm w_stop]; [exact H'|reflexivity| | | |intros _ Q; discriminate]).
    + exact Logic.I.
    + destruct SP as (_ & DUE & _). intros t0 now [Q|IT]; [inversion Q; subst; exact DUE|apply ID; exact IT].
    + destruct SP as (_ & _ & P & _). cbn [map fst app]. rewrite IC, P, <- !Permutation_middle. reflexivity.
    + destruct SP as (_ & _ & _ & MIN). intros tp' IT. apply in_map_iff in IT. destruct IT as (u & <- & IU). apply MIN, IU.
    + exact ID.
    + destruct SP as (_ & P & _). rewrite IC, P. reflexivity.
    + destruct SP as (-> & _). intros tp' [].
    + exact ID.
    + destruct SP as (-> & EP). rewrite IC, EP. reflexivity.
  - (* entering the wait *)
    destruct (w_mode w) as [|d|d n|] eqn:M; try exact I.
    unfold wait_ok in IW. rewrite M in IW.
    destruct (aw && w_stop w)%bool eqn:AS.
    + split; cbn [set_mode w_sched w_err w_mode w_done w_now w_in w_rm w_stop]; auto. constructor. intros _ _. constructor.
    + split; cbn [set_mode w_sched w_err w_mode w_done w_now w_in w_rm w_stop]; auto.
      * unfold wait_ok. cbn [w_mode w_sched]. right. exact IW.
      * intros AW ST. cbn [set_mode w_stop] in ST. rewrite AW, ST in AS. discriminate.
  - (* spurious wake-up: the predicate is evaluated again *)
    split; cbn [set_mode w_sched w_err w_mode w_done w_now w_in w_rm w_stop]; auto.
    + unfold wait_ok in *. cbn [w_mode w_sched].
      destruct (w_mode w) as [|d|d n|]; cbn [notify]; auto.
      destruct IW as [->|IW]; [left; reflexivity|right; exact IW].
    + intros AW ST. specialize (IS AW ST). destruct (w_mode w) as [|d|d n|]; cbn [notify]; auto. subst n. reflexivity.
  - (* request_stop *)
    split; cbn [w_sched w_err w_mode w_done w_now w_in w_rm w_stop]; auto.
    + unfold wait_ok in *. cbn [w_mode w_sched]. destruct (w_mode w) as [|d|d n|]; auto.
    + intros _ _. destruct (w_mode w); cbn [w_mode]; auto.
Qed.

Lemma wrun_inv aw evs : forall w, winv aw w -> winv aw (wrun aw w evs).
Proof. induction evs as [|e t IH]; intros w I; cbn [wrun fold_left]; [exact I|]. apply IH. apply wstep_inv. exact I. Qed.

(* (idle wakes on time) in every state satisfying the invariant, hence for every interleaving of schedule / cancel calls
   from other threads, clock ticks, spurious wake-ups and stop requests, with either wait primitive: once the clock has
   reached the time point of any entry of the array, a worker that has not finished is runnable (after it has entered
   the wait it had decided on, if it was at that point) *)
Theorem idle_wakes_on_time aw w : winv aw w ->
  forall e, In e (w_sched w) -> e_tp e <= w_now w -> w_mode w <> WFin -> runnable (wstep aw w WBlock) = true.
Proof.
  intros [IH IE IW ID IC IS] e IN DUE NF. unfold wstep. rewrite IE. unfold wait_ok in IW.
  (* a bound d on the array is at most e's time point, hence reached *)
  assert (forall d, bound_ok (w_sched w) d -> match d with Some t => t <=? w_now w | None => false end = true) as B.
  { intros d Bd. specialize (Bd (e_tp e) (in_map e_tp _ _ IN)). destruct d; [lia|destruct Bd]. }
  destruct (w_mode w) as [|d|d n|] eqn:M.
  - unfold runnable. rewrite M. reflexivity.
  - destruct (aw && w_stop w)%bool; unfold runnable; cbn [set_mode w_mode w_now orb]; [reflexivity|apply B, IW].
  - unfold runnable. rewrite M. destruct IW as [->|IW]; [reflexivity|]. rewrite (B d IW). apply orb_true_r.
  - congruence.
Qed.

(* ... and when it runs with a due live entry in the array, that iteration completes a due entry with the least
   time point among the pending ones (it does not go back to sleep and does not pick a later one) *)
Theorem worker_resolves_due aw w : winv aw w ->
  w_stop w = false -> runnable w = true ->
  (exists e, In e (pending (w_sched w)) /\ e_tp e <= w_now w) ->
  exists t, w_done (wstep aw w WIter) = (t, w_now w) :: w_done w /\ In t (pending (w_sched w)) /\
            (forall u, In u (pending (w_sched w)) -> e_tp t <= e_tp u) /\
            Permutation (pending (w_sched w)) (t :: pending (w_sched (wstep aw w WIter))).
Proof.
  intros [IH IE IW ID IC IS] ST RN (e & IN & DUE).
  unfold wstep. rewrite IE, ST, RN. cbn [negb].
  destruct (get_expired_ok (w_sched w) (w_now w) IH) as (l' & r & -> & H' & SP).
  destruct r as [t|tp|]; cbn [expired_spec] in SP.
  - destruct SP as (LT & DUE' & P & MIN). exists t. cbn [w_done w_sched]. repeat split; auto.
    rewrite P. left. reflexivity.
  - exfalso. destruct SP as (FUT & P & _ & MIN).
    rewrite P in IN. apply pending_In in IN. specialize (MIN e (proj1 IN)). lia.
  - exfalso. destruct SP as (_ & EP). rewrite EP in IN. destruct IN.
Qed.

(* (stop ends the worker) current code, any interleaving, the stop request landing in ANY window — also between the
   worker's decision to wait and the wait itself: once stop is requested the worker's own next steps leave the loop;
   ~scheduler, which waits for exactly that, returns *)
Theorem stop_ends_worker w : winv true w ->
  w_stop w = true -> w_mode (wrun true w [WBlock; WIter]) = WFin.
Proof.
  intros [IH IE IW ID IC IS] ST. specialize (IS eq_refl ST).
  cbn [wrun fold_left]. clear - IE ST IS.
  destruct w as [l now m st dn er wi wr]. cbn [w_err w_stop w_mode] in *. subst er st.
  destruct m as [|d|d n|]; try subst n; reflexivity.
Qed.

(* (F-C12d as a theorem about the old wait primitive) with plain condition_variable::wait_until there is an
   interleaving — stop requested between the decision and the wait, on an empty heap — after which, however long the
   clock runs and however often the worker is given the processor, it never leaves the loop: ~scheduler hangs *)
Definition quiet (e : wev) : Prop := e = WIter \/ e = WBlock \/ exists dt, e = WTick dt.

Theorem lost_stop_old : let w := wrun false wst0 [WIter; WStop; WBlock] in
  w_stop w = true /\ forall evs, Forall quiet evs -> w_mode (wrun false w evs) = WWait None false.
Proof.
  cbn zeta. split; [reflexivity|].
  assert (forall evs w, w_err w = false -> w_mode w = WWait None false -> Forall quiet evs ->
                        w_mode (wrun false w evs) = WWait None false) as G.
  { induction evs as [|e t IHe]; intros w E M Q; cbn [wrun fold_left]; [exact M|].
    inversion Q as [|? ? QE QT]; subst.
    assert (w_err (wstep false w e) = false /\ w_mode (wstep false w e) = WWait None false) as (E' & M').
    { unfold wstep. rewrite E. destruct QE as [->|[->|(dt & ->)]].
      - unfold runnable. rewrite M. cbn [orb negb]. auto.
      - rewrite M. auto.
      - cbn [w_err w_mode]. auto. }
    apply (IHe _ E' M' QT). }
  intros evs Q. apply G; [reflexivity|reflexivity|exact Q].
Qed.

(* for the interval() theorems of Timer4Proofs.v *)
(* the state the interval scenario is in after a list of operations *)
Fixpoint istate (tg : nat -> Z) (s : ist) (ops : list (list Z)) : ist :=
  match ops with
  | [] => s
  | o :: t => match istep false tg s o with IOk s1 _ => istate tg s1 t | _ => s end
  end.
