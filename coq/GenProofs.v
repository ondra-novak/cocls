(* GenProofs.v — the generator model (C13).  `Inv` / `Good`: the invariant of reachable states.  `rem s args nc`: what
   the specification still expects from state s.  `resume_ok`: resuming the body logs exactly the next expected items,
   hence `run_conforms`: the log of any run from a good state conforms to `rem`.  What follows `gen_conforms` are the
   general forms (any good state, any conforming log) of the other statements of Properties_C13. *)
From Cocls Require Import Base BaseProofs GenDefs.
Require Import ZifyBool.
Local Open Scope Z_scope.

Definition tag (n : nat) (l : list item) : list (item * nat) := map (fun i => (i, n)) l.

Lemma tag_app n a b : tag n (a ++ b) = tag n a ++ tag n b.
Proof. unfold tag. apply map_app. Qed.

Lemma item_eqb_refl x : item_eqb x x = true.
Proof. destruct x; cbn; auto; apply Z.eqb_refl. Qed.

Lemma arg_items_dtors gs : arg_items (map EDtor gs) = [].
Proof. induction gs; cbn; auto. Qed.

(* how the body stopped: the answer the consumer gets, the state the body is left in, and what the specification
   expects from there on (p, c = rest of the script and argument variable at the stop) *)
Definition res_of (st : stop) : res :=
  match st with SYield v => RVal v | SPend _ => RPend | SThrow e => RExc e | SRet => REndF end.
Definition bst_of (st : stop) : bstat :=
  match st with SYield _ => BYield | SPend k => BPend k | _ => BFinal end.
Definition after (st : stop) (p : list instr) (c arg : Z) (args : list Z) (np : nat) : list (item * nat) :=
  match st with
  | SYield _ => (XArg (hd 0 args), np) :: expected p (hd 0 args) (hd 0 args) (tl args) np
  | SPend _ => expected p c arg args (S np)
  | _ => []
  end.

Lemma exec_expected : forall pc gs cur arg args np,
  let '(st, p, _, c, ev) := exec pc gs cur arg in
  expected pc cur arg args np = tag np (arg_items ev ++ res_item (res_of st)) ++ after st p c arg args np.
Proof.
  induction pc as [|i t IH]; intros gs cur arg args np; [cbn; rewrite arg_items_dtors; reflexivity|].
  destruct i; cbn [exec expected]; rewrite ?arg_items_dtors; try reflexivity.
  - specialize (IH gs cur arg args np). destruct (exec t gs cur arg) as [[[[st p] g] c] ev]. exact IH.
  - destruct (Nat.ltb (length gs) max_guards); [|apply IH].
    specialize (IH (x :: gs) cur arg args np). destruct (exec t (x :: gs) cur arg) as [[[[st p] g] c] ev]. exact IH.
  - destruct gs as [|x g']; [apply IH|].
    specialize (IH g' cur arg args np). destruct (exec t g' cur arg) as [[[[st p] g] c] ev]. exact IH.
  - specialize (IH gs arg arg args np). destruct (exec t gs arg arg) as [[[[st p] g] c] ev].
    rewrite IH. reflexivity.
  - apply IH.
Qed.


Lemma count_ev_app f a b : count_ev f (a ++ b) = (count_ev f a + count_ev f b)%nat.
Proof. induction a; cbn; auto. rewrite IHa. lia. Qed.

Lemma count_dtor_map x gs : count_ev (is_dtor x) (map EDtor gs) = count_z x gs.
Proof. induction gs; cbn; auto. rewrite IHgs. reflexivity. Qed.

Lemma count_ctor_map x gs : count_ev (is_ctor x) (map EDtor gs) = O.
Proof. induction gs; cbn; auto. Qed.

Lemma exec_balance : forall x pc gs cur arg,
  let '(_, _, g, _, ev) := exec pc gs cur arg in
  (count_ev (is_ctor x) ev + count_z x gs = count_ev (is_dtor x) ev + count_z x g)%nat.
Proof.
  intros x. induction pc as [|i t IH]; intros gs cur arg.
  - cbn. rewrite count_dtor_map, count_ctor_map. lia.
  - destruct i; cbn [exec].
    + cbn. lia.
    + specialize (IH gs cur arg). destruct (exec t gs cur arg) as [[[[st p] g] c] ev]. cbn. exact IH.
    + cbn. lia.
    + rewrite count_dtor_map, count_ctor_map. cbn. lia.
    + rewrite count_dtor_map, count_ctor_map. cbn. lia.
    + destruct (Nat.ltb (length gs) max_guards).
      * specialize (IH (x0 :: gs) cur arg). destruct (exec t (x0 :: gs) cur arg) as [[[[st p] g] c] ev].
        cbn [count_ev count_z is_ctor is_dtor] in *. destruct (x =? x0); cbn in *; lia.
      * apply IH.
    + destruct gs as [|x0 g'].
      * apply IH.
      * specialize (IH g' cur arg). destruct (exec t g' cur arg) as [[[[st p] g] c] ev].
        cbn [count_ev count_z is_ctor is_dtor] in *. destruct (x =? x0); cbn in *; lia.
    + specialize (IH gs arg arg). destruct (exec t gs arg arg) as [[[[st p] g] c] ev]. cbn. exact IH.
    + cbn. lia.
    + apply IH.
Qed.

Lemma exec_final_guards : forall pc gs cur arg,
  match exec pc gs cur arg with
  | (SThrow _, p, g, _, _) => g = [] /\ p = []
  | (SRet, p, g, _, _) => g = [] /\ p = []
  | _ => True
  end.
Proof.
  induction pc as [|i t IH]; intros gs cur arg; [cbn; auto|].
  destruct i; cbn [exec]; try (split; reflexivity); try exact I.
  - specialize (IH gs cur arg). destruct (exec t gs cur arg) as [[[[st p] g] c] ev]. destruct st; auto.
  - destruct (Nat.ltb (length gs) max_guards); [|apply IH].
    specialize (IH (x :: gs) cur arg). destruct (exec t (x :: gs) cur arg) as [[[[st p] g] c] ev]. destruct st; auto.
  - destruct gs as [|x g']; [apply IH|].
    specialize (IH g' cur arg). destruct (exec t g' cur arg) as [[[[st p] g] c] ev]. destruct st; auto.
  - specialize (IH gs arg arg). destruct (exec t gs arg arg) as [[[[st p] g] c] ev]. destruct st; auto.
  - apply IH.
Qed.

Definition is_terminal (i : item) : bool := match i with XEnd => true | XExc _ => true | _ => false end.

Lemma expected_shape : forall pc cur arg args np,
  exists l t n, expected pc cur arg args np = l ++ [(t, n)] /\ is_terminal t = true /\
                forallb (fun p => negb (is_terminal (fst p))) l = true.
Proof.
  induction pc as [|i t IH]; intros cur arg args np; cbn [expected].
  - exists [], XEnd, np. auto.
  - destruct i; cbn [expected];
    try (destruct (IH cur arg args np) as (l & t0 & n & E & T & F); exists l, t0, n; auto; fail).
    + destruct (IH (hd 0 args) (hd 0 args) (tl args) np) as (l & t0 & n & E & T & F).
      exists ((XVal v, np) :: (XArg (hd 0 args), np) :: l), t0, n. rewrite E. auto.
    + destruct (IH cur arg args (S np)) as (l & t0 & n & E & T & F). exists l, t0, n. auto.
    + exists [], (XExc e), np. auto.
    + exists [], XEnd, np. auto.
    + destruct (IH arg arg args np) as (l & t0 & n & E & T & F).
      exists ((XArg arg, np) :: l), t0, n. rewrite E. auto.
    + destruct (IH (hd 0 args) (hd 0 args) (tl args) np) as (l & t0 & n & E & T & F).
      exists ((XVal cur, np) :: (XArg (hd 0 args), np) :: l), t0, n. rewrite E. auto.
Qed.

Fixpoint count_val (l : list (item * nat)) : nat :=
  match l with
  | [] => O
  | (XVal _, _) :: t => S (count_val t)
  | _ :: t => count_val t
  end.

Lemma nth_hd_tl (k : nat) (l : list Z) : nth k (hd 0 l :: tl l) 0 = nth k l 0.
Proof. destruct l; [destruct k as [|[|k]]; reflexivity|reflexivity]. Qed.

(* every argument the body receives is the argument of the call that resumed it: the number of values
   delivered before that point identifies the call (call 0 started the body) *)
Lemma expected_args : forall pc cur arg rest np pre a n post,
  expected pc cur arg rest np = pre ++ (XArg a, n) :: post ->
  a = nth (count_val pre) (arg :: rest) 0.
Proof.
  induction pc as [|i t IH]; intros cur arg rest np pre a n post H; cbn [expected] in H.
  - destruct pre as [|p [|q pre]]; cbn in H; discriminate.
  - destruct i; cbn [expected] in H; try (eapply IH; exact H; fail);
      try (destruct pre as [|p [|q pre]]; cbn in H; discriminate; fail).
    1,3: (destruct pre as [|p pre]; [discriminate|]; injection H as <- H;
       destruct pre as [|q pre]; cbn in H;
       [injection H as <- _ _; cbn; destruct rest; reflexivity
       |injection H as <- H; cbn [count_val]; apply IH in H; rewrite H; cbn [nth]; apply nth_hd_tl]).
    destruct pre as [|p pre]; cbn in H.
    + injection H as <- _ _. reflexivity.
    + injection H as <- H. cbn [count_val]. eapply IH. exact H.
Qed.


Global Arguments exec : simpl never.
Global Arguments expected : simpl never.

Definition valid_style (y : Z) : Prop := 0 <= y <= 6.

(* the consumer of the outstanding access y is parked waiting for the body *)
Definition waiting (y : Z) (s : sys) : Prop :=
  if sync_style y then caller s = CInternal /\ ifn s = FSync /\ block s = false
  else if fut_style y then caller s = CInternal /\ ifn s = FFuture /\ fut s = FPending
  else caller s = CAwt /\ awake s = false.

Definition Inv (s : sys) : Prop :=
  err s = false /\
  match bst s with
  | BInit => out s = None /\ caller s = CNull /\ done s = false /\ exn s = None /\ gds s = []
  | BYield => out s = None /\ caller s = CNull /\ done s = false /\ exn s = None /\ exists v, ret s = Some v
  | BPend _ => (exists y a, out s = Some y /\ valid_style y /\ argp s = Some a /\ waiting y s) /\ done s = false /\ exn s = None
  | BFinal => out s = None /\ caller s = CNull /\ gds s = [] /\ pc s = [] /\ ret s = None /\
              ((done s = true /\ exn s = None) \/ (done s = false /\ exists e, exn s = Some e))
  end.

(* what the body sees when it is resumed: the argument, and its argument variable (a body parked at a yield
   receives the argument as the result of that yield) *)
Definition arg_in (s : sys) : Z := match argp s with Some x => x | None => 0 end.
Definition cur_in (s : sys) : Z := match bst s with BYield => arg_in s | _ => cur s end.

(* what is still expected from state s on, given the arguments of the calls still to come and the number of
   completions so far *)
Definition rem (s : sys) (args : list Z) (nc : nat) : list (item * nat) :=
  match bst s with
  | BInit => expected (pc s) (cur s) (hd 0 args) (tl args) nc
  | BYield => (XArg (hd 0 args), nc) :: expected (pc s) (hd 0 args) (hd 0 args) (tl args) nc
  | BPend _ => expected (pc s) (cur s) (arg_in s) args (S nc)
  | BFinal => []
  end.

Lemma valid_style_cases y : valid_style y -> y = 0 \/ y = 1 \/ y = 2 \/ y = 3 \/ y = 4 \/ y = 5 \/ y = 6.
Proof. unfold valid_style. lia. Qed.

(* A body about to be resumed on behalf of access y: the caller is armed, nothing delivered yet. *)
Definition armed (y : Z) (s : sys) : Prop :=
  err s = false /\ done s = false /\ exn s = None /\ waiting y s /\
  (exists a, argp s = Some a) /\ bst s <> BFinal.

Definition exec_of (s : sys) : stop * list instr * list Z * Z * list event :=
  exec (pc s) (gds s) (cur_in s) (arg_in s).

Definition pre_events (s : sys) (av : Z) : list event :=
  match bst s with
  | BYield => [EArg (arg_in s)]
  | BPend _ => [EAw av]
  | _ => []
  end.

(* the heart: resuming the body on behalf of an armed access, then letting the consumer look.
   Seven styles, three states of the body, four ways it stops: settled by computation. *)
Lemma resume_settle : forall y s av, valid_style y -> armed y s ->
  let '(st, p, g, c, ev0) := exec_of s in
  let '(s1, ev) := run_body s av in
  let '(s2, r) := settle y s1 in
  ev = pre_events s av ++ ev0 /\ live s2 = live s /\ created s2 = created s /\ Inv s2 /\
  pc s2 = p /\ gds s2 = g /\ cur s2 = c /\ r = res_of st /\ bst s2 = bst_of st /\ (r = RPend -> argp s2 = argp s).
Proof.
  intros y s av Hy Ha.
  pose proof (exec_final_guards (pc s) (gds s) (cur_in s) (arg_in s)) as HF.
  destruct s as [lv cr pc0 gd cu bs ca fn ap rt ex dn bl aw ot fu it ak ns er].
  unfold armed, waiting in Ha. cbn [err done exn bst argp caller ifn block fut awake] in Ha.
  destruct Ha as (He & Hd & Hx & Hw & (a0 & Hap) & Hb). subst er dn ex ap.
  unfold exec_of, run_body, cur_in, arg_in in *. cbn [bst pc gds cur argp] in *.
  destruct (valid_style_cases y Hy) as [->|[->|[->|[->|[->|[->| ->]]]]]]; vm_compute in Hw;
  destruct Hw as (Hw1 & Hw2); try destruct Hw2 as (Hw2 & Hw3); subst;
  (destruct bs as [| |k0|]; [| | |exfalso; apply Hb; reflexivity]);
  match goal with
  | |- context [exec ?a ?b ?c ?d] => destruct (exec a b c d) as [[[[st p] g] c'] ev0]
  end;
  destruct st; vm_compute; try destruct HF; subst;
  repeat split; eauto;
  (* what is left of Inv: how the body ended, the outstanding access of a suspended body, and closed inequalities *)
  lazymatch goal with
  | |- _ \/ _ => first [left; split; reflexivity|right; split; eauto]
  | |- exists _, _ => eexists; eexists; repeat split; eauto; first [discriminate|intro; discriminate]
  | |- _ => first [discriminate|intro; discriminate]
  end.
Qed.

Lemma expected_nonempty : forall pc cur arg args np, expected pc cur arg args np <> [].
Proof.
  induction pc as [|i t IH]; intros; cbn [expected]; [discriminate|].
  destruct i; try discriminate; apply IH.
Qed.

(* what an armed state is about to produce: `rem` of the state the access or completion started from *)
Definition due (s : sys) (args : list Z) (n : nat) : list (item * nat) :=
  tag n (arg_items (pre_events s 0)) ++ expected (pc s) (cur_in s) (arg_in s) args n.

Definition step_items (ev : list event) (r : res) : list item := arg_items ev ++ res_item r.

Lemma resume_ok : forall y s av, valid_style y -> armed y s ->
  let '(s1, ev) := run_body s av in
  let '(s2, r) := settle y s1 in
  Inv s2 /\ live s2 = live s /\ created s2 = created s /\
  (forall x, (count_ev (is_ctor x) ev + count_z x (gds s) = count_ev (is_dtor x) ev + count_z x (gds s2))%nat) /\
  (r = RPend <-> exists k, bst s2 = BPend k) /\
  (step_items ev r = [] -> forall args n, rem s2 args n <> []) /\
  forall args n, due s args n = tag n (step_items ev r) ++ rem s2 args n.
Proof.
  intros y s av Hy Ha. pose proof (resume_settle y s av Hy Ha) as HR. unfold exec_of in HR.
  pose proof exec_balance as HB. pose proof (exec_expected (pc s) (gds s) (cur_in s) (arg_in s)) as HX.
  destruct (exec (pc s) (gds s) (cur_in s) (arg_in s)) as [[[[st p] g] c] ev0] eqn:E.
  destruct (run_body s av) as [s1 ev]. destruct (settle y s1) as [s2 r].
  destruct HR as (-> & Hl & Hcr & HI & <- & <- & <- & -> & Hb & Hap).
  split; [exact HI|]. split; [exact Hl|]. split; [exact Hcr|].
  split.
  { intro x. specialize (HB x (pc s) (gds s) (cur_in s) (arg_in s)). rewrite E in HB. rewrite !count_ev_app.
    replace (count_ev (is_ctor x) (pre_events s av)) with O by (unfold pre_events; destruct (bst s); reflexivity).
    replace (count_ev (is_dtor x) (pre_events s av)) with O by (unfold pre_events; destruct (bst s); reflexivity).
    exact HB. }
  assert (HA : arg_items (pre_events s av ++ ev0) = arg_items (pre_events s 0) ++ arg_items ev0)
    by (unfold pre_events; destruct (bst s); reflexivity).
  assert (HRem : forall args n, rem s2 args n = after st (pc s2) (cur s2) (arg_in s) args n).
  { intros args n. unfold rem. rewrite Hb. destruct st; try reflexivity.
    cbn [bst_of after]. unfold arg_in. rewrite Hap by reflexivity. reflexivity. }
  split. { rewrite Hb. destruct st; cbn; split; try discriminate; eauto; intros [k H]; discriminate. }
  split.
  { intros H args n. rewrite HRem. apply app_eq_nil in H as [_ H]. destruct st; try discriminate H. apply expected_nonempty. }
  intros args n. unfold due, step_items. rewrite HRem, HA, (HX args n). unfold tag. rewrite !map_app, <- !app_assoc. reflexivity.
Qed.

Lemma conforms_np_irrel log ex a b : ex <> [] -> conforms log ex a = conforms log ex b.
Proof. destruct log as [|[r n] l]; cbn; auto. destruct ex as [|[x m] e]; [congruence|auto]. Qed.

Lemma conforms_tag_app n l log ex : forall np, (l = [] -> np = n \/ ex <> []) ->
  conforms (tag n l ++ log) (tag n l ++ ex) np = conforms log ex n.
Proof.
  induction l as [|i l IH]; intros np H; cbn.
  - destruct (H eq_refl) as [->|Hne]; [reflexivity|apply conforms_np_irrel; exact Hne].
  - rewrite item_eqb_refl, Nat.eqb_refl. cbn. apply IH. intros _. left. reflexivity.
Qed.

Definition arm (y a : Z) (s : sys) : sys :=
  let s := set_argp s (Some a) in
  if fut_style y then
    set_prom (set_cons s (out s) FPending (itn s) (awake s) (nstate s)) CInternal FFuture (Some a) (ret s) (exn s) (done s) (block s) true
  else if (y =? 3) || (y =? 6) then set_cons (set_caller s CAwt) (out s) (fut s) (itn s) false (nstate s)
  else set_prom (set_cons s (out s) (fut s) (itn s) (awake s) false) CInternal FSync (Some a) (ret s) (exn s) (done s) false (awaiting s).

Lemma access_arm : forall y a s, Inv s -> valid_style y -> (bst s = BInit \/ bst s = BYield) ->
  access y a s = (let '(s3, ev) := run_body (arm y a s) 0 in let '(s4, r) := settle y s3 in (s4, r, ev)) /\
  armed y (arm y a s).
Proof.
  intros y a s HI Hy Hb.
  destruct s as [lv cr pc0 gd cu bs ca fn ap rt ex dn bl aw ot fu it ak ns er].
  unfold Inv in HI. cbn [err bst out caller done exn gds ret] in HI. cbn [bst] in Hb.
  destruct HI as [He HI].
  destruct (valid_style_cases y Hy) as [->|[->|[->|[->|[->|[->| ->]]]]]];
  destruct Hb as [-> | ->]; destruct HI as (Ho & Hc & Hd & Hx & Hr); subst;
  (split; [vm_compute; reflexivity|]);
  unfold armed, waiting; vm_compute; repeat split; eauto; try discriminate; intro; discriminate.
Qed.

Lemma arm_frame : forall y a s,
  pc (arm y a s) = pc s /\ gds (arm y a s) = gds s /\ cur (arm y a s) = cur s /\ bst (arm y a s) = bst s /\
  argp (arm y a s) = Some a /\ live (arm y a s) = live s /\ created (arm y a s) = created s.
Proof.
  intros. unfold arm. destruct (fut_style y); [|destruct ((y =? 3) || (y =? 6))]; cbn; repeat split; reflexivity.
Qed.

Lemma rem_arm y a s rest nc : bst s = BInit \/ bst s = BYield -> rem s (a :: rest) nc = due (arm y a s) rest nc.
Proof.
  destruct (arm_frame y a s) as (Ep & _ & Ec & Eb & Ea & _).
  unfold due, rem, pre_events, cur_in, arg_in. rewrite Ep, Ec, Eb, Ea. intros [-> | ->]; reflexivity.
Qed.

Lemma access_final : forall y a s, Inv s -> valid_style y -> bst s = BFinal ->
  let '(s1, r, ev) := access y a s in
  Inv s1 /\ live s1 = live s /\ created s1 = created s /\ bst s1 = BFinal /\ gds s1 = gds s /\ ev = [] /\
  res_item r = [XEnd].
Proof.
  intros y a s HI Hy Hb.
  destruct s as [lv cr pc0 gd cu bs ca fn ap rt ex dn bl aw ot fu it ak ns er].
  unfold Inv in HI. cbn [err bst out caller done exn gds ret pc] in HI. cbn [bst] in Hb. subst bs.
  destruct HI as (He & Ho & Hc & Hg & Hp & Hr & Hd). subst.
  destruct (valid_style_cases y Hy) as [->|[->|[->|[->|[->|[->| ->]]]]]];
  destruct Hd as [(-> & ->)|(-> & e & ->)]; vm_compute;
  repeat split; eauto; discriminate.
Qed.

Definition Good (s : sys) : Prop :=
  err s = false /\ (live s = true -> Inv s /\ created s = true) /\ (live s = false -> gds s = []).

Definition nc_next (x : op) (o : obs) (nc : nat) : nat := if ok o && is_complete x then S nc else nc.
Definition step_log (x : op) (o : obs) (nc : nat) : list (item * nat) :=
  tag (nc_next x o nc) (arg_items (o_ev o) ++ (if is_access x || is_complete x then res_item (o_res o) else [])).
Definition cons_arg (x : op) (o : obs) (args : list Z) : list Z :=
  match x with OAccess _ a => if ok o then a :: args else args | _ => args end.

Lemma log_of_cons x ops o os nc :
  log_of (x :: ops) (o :: os) nc = step_log x o nc ++ log_of ops os (nc_next x o nc).
Proof. reflexivity. Qed.

Lemma call_args_cons x ops o os : call_args (x :: ops) (o :: os) = cons_arg x o (call_args ops os).
Proof. destruct x; reflexivity. Qed.

Lemma style_ok_valid ha y : style_ok ha y = true -> valid_style y.
Proof. unfold style_ok, valid_style. lia. Qed.

Lemma inv_out_pend s : Inv s -> ((exists k, bst s = BPend k) <-> out s <> None).
Proof.
  intro HI. unfold Inv in HI. destruct (bst s) eqn:Eb.
  3: { destruct HI as (_ & (y & a & Ho & _) & _). rewrite Ho. split; [discriminate|eauto]. }
  all: destruct HI as (_ & Ho & _); rewrite Ho; split; [intros [k H]; discriminate|congruence].
Qed.

(* an op is accepted only under its guard; otherwise nothing changes *)
Definition guard (ha : bool) (s : sys) (x : op) : Prop :=
  match x with
  | OCreate _ => created s = false
  | OAccess y _ => live s = true /\ out s = None /\ style_ok ha y = true
  | OComplete k _ => live s = true /\ bst s = BPend k /\ exists y, out s = Some y
  | ODestroy | OPeek => live s = true /\ out s = None
  | OBad => False
  end.

Lemma step_guard ha s x : step ha s x = (s, rejected) \/ guard ha s x.
Proof.
  destruct x as [sc|y a|k v| | |]; cbn [step guard]; auto.
  - destruct (created s); auto.
  - destruct (live s), (out s), (style_ok ha y); auto.
  - destruct (out s) as [y|]; auto. destruct (bst s) as [| |k'|]; auto. destruct (live s); auto.
    destruct (Z.eqb_spec k k') as [->|]; eauto.
  - destruct (live s), (out s); auto.
  - destruct (live s), (out s); auto.
Qed.

(* what one step keeps, in this order: Good; RAII balance; the log stays conforming to `rem`; Pending iff suspended;
   frames allocated - freed follow `live`; created stays *)
Definition step_ok (s : sys) (x : op) (s1 : sys) (o : obs) : Prop :=
  Good s1 /\
  (forall z, (count_ev (is_ctor z) (o_ev o) + count_z z (gds s) = count_ev (is_dtor z) (o_ev o) + count_z z (gds s1))%nat) /\
  (live s = true -> forall nc args log,
     conforms (step_log x o nc ++ log) (rem s (cons_arg x o args) nc) nc
     = conforms log (rem s1 args (nc_next x o nc)) (nc_next x o nc)) /\
  (ok o = true -> (is_access x || is_complete x) = true -> (o_res o = RPend <-> exists k, bst s1 = BPend k)) /\
  ((o_news o - o_dels o = b2z (live s1) - b2z (live s)) /\ (0 <= o_news o) /\ (0 <= o_dels o)) /\
  (created s = true -> created s1 = true).

Lemma step_rejected_log x nc : step_log x rejected nc = [] /\ nc_next x rejected nc = nc /\ forall args, cons_arg x rejected args = args.
Proof. unfold step_log, nc_next, cons_arg. destruct x; cbn; auto. Qed.

Lemma step_ok_rejected s x : Good s -> step_ok s x s rejected.
Proof.
  intro HG. split; [exact HG|]. split; [intro; cbn; lia|].
  split. { intros _ nc args log. destruct (step_rejected_log x nc) as (-> & -> & ->). reflexivity. }
  split. { cbn. discriminate. }
  split; [cbn; lia|auto].
Qed.

Lemma dead_step ha s x : live s = false -> created s = true -> step ha s x = (s, rejected).
Proof.
  intros Hl Hc. destruct (step_guard ha s x) as [E|G]; [exact E|].
  destruct x; cbn [guard] in G; [congruence| | | | |contradiction]; destruct G as [G _]; congruence.
Qed.

(* an accepted access or completion that resumes the body: s' is s with the caller armed *)
Lemma resumed_step_ok x s s' y av cnt : Good s -> live s = true -> (is_access x || is_complete x) = true ->
  valid_style y -> armed y s' -> live s' = live s -> created s' = created s -> gds s' = gds s ->
  (forall o args nc, ok o = true -> rem s (cons_arg x o args) nc = due s' args (nc_next x o nc)) ->
  let '(s1, ev) := run_body s' av in
  let '(s2, r) := settle y s1 in
  step_ok s x s2 (mkObs 0 r (done_flag s2) 0 0 ev (cnt r)).
Proof.
  intros (_ & HG1 & _) Hl Hx Hy Ha El Ec Eg Hrem. destruct (HG1 Hl) as [_ Hcr].
  pose proof (resume_ok y s' av Hy Ha) as HR.
  destruct (run_body s' av) as [s1 ev]. destruct (settle y s1) as [s2 r].
  destruct HR as (HI & Hl2 & Hc2 & Hbal & Hp & Hne & Hdue).
  unfold step_ok. cbn [o_ev o_res o_news o_dels].
  split. { split; [apply HI|]. split; [intros _; split; [exact HI|congruence]|congruence]. }
  split. { rewrite <- Eg. exact Hbal. }
  split.
  { intros _ nc args log. rewrite (Hrem (mkObs 0 r (done_flag s2) 0 0 ev (cnt r)) args nc eq_refl), Hdue. unfold step_log. rewrite Hx. cbn [o_ev o_res].
    apply conforms_tag_app. intro H. right. apply Hne. exact H. }
  split. { intros _ _. exact Hp. }
  split; [rewrite Hl2, El, !Z.sub_diag; repeat split; apply Z.le_refl|congruence].
Qed.

Lemma step_facts : forall ha s x, Good s -> let '(s1, o) := step ha s x in step_ok s x s1 o.
Proof.
  intros ha s x HG. destruct (step_guard ha s x) as [->|G]; [apply step_ok_rejected; exact HG|].
  pose proof HG as (He & HG1 & HG2).
  destruct x as [sc|y a|k v| | |]; cbn [step guard] in *.
  - rewrite G.
    assert (Hl : live s = false) by (destruct (live s); [destruct (HG1 eq_refl); congruence|reflexivity]).
    unfold step_ok. cbn [o_ev o_res o_news o_dels live gds created].
    split. { split; [exact He|]. split; [intros _|discriminate]. split; [|reflexivity]. unfold Inv. cbn. repeat split; auto. }
    split. { intro z. rewrite (HG2 Hl). cbn. lia. }
    split. { congruence. }
    split. { cbn. discriminate. }
    split; [rewrite Hl; cbn; lia|reflexivity].
  - destruct G as (Hl & Ho & Hs). rewrite Hl, Ho, Hs. cbn [andb].
    pose proof (style_ok_valid ha y Hs) as Hy. destruct (HG1 Hl) as [HI Hcr].
    destruct (bst s) eqn:Hb.
    3: { exfalso. apply (proj1 (inv_out_pend s HI)); eauto. }
    1,2: (assert (Hb' : bst s = BInit \/ bst s = BYield) by auto;
      destruct (access_arm y a s HI Hy Hb') as [-> Harm]; destruct (arm_frame y a s) as (_ & Eg & _ & _ & _ & El & Ecr);
      pose proof (resumed_step_ok (OAccess y a) s (arm y a s) y 0 (resumes y (negb (done s) && negb (is_final s)))
                    HG Hl eq_refl Hy Harm El Ecr Eg) as HR;
      destruct (run_body (arm y a s) 0) as [s3 ev]; destruct (settle y s3) as [s4 r]; apply HR;
      intros o args nc Hok; unfold cons_arg, nc_next; rewrite Hok; apply rem_arm; exact Hb').
    pose proof (access_final y a s HI Hy Hb) as HA.
    destruct (access y a s) as [[s1 r] ev].
    destruct HA as (HI1 & Hl1 & Hcr1 & Hb1 & Hg1 & -> & Hr).
    unfold step_ok; cbn [o_ev o_res o_news o_dels o_st].
    split. { split; [apply HI1|]. split; [intros _; split; [exact HI1|congruence]|congruence]. }
    split. { intro z. rewrite Hg1. cbn. lia. }
    split. { intros _ nc args log. unfold step_log, nc_next, cons_arg, ok. cbn [o_st o_ev o_res is_access is_complete orb andb Z.eqb arg_items app].
             rewrite Hr. unfold rem. rewrite Hb, Hb1. cbn. rewrite Nat.eqb_refl. reflexivity. }
      split. { intros _ _. split; [intro H; subst r; discriminate|intros [k H]; congruence]. }
    split; [rewrite Hl1; lia|congruence].
  - destruct G as (Hl & Hb & y & Ho). rewrite Ho, Hb, Hl, Z.eqb_refl. cbn [andb]. destruct (HG1 Hl) as [HI Hcr].
    assert (Hy : valid_style y /\ armed y s).
    { unfold Inv in HI. rewrite Hb in HI. destruct HI as (He' & (y0 & a0 & Ho' & Hv & Ha & Hw) & Hd & Hx).
      rewrite Ho in Ho'. injection Ho' as <-. split; auto. unfold armed. rewrite Hb. repeat split; eauto. discriminate. }
    pose proof (resumed_step_ok (OComplete k v) s s y v (resumes y true) HG Hl eq_refl (proj1 Hy) (proj2 Hy) eq_refl eq_refl eq_refl) as HR.
    destruct (run_body s v) as [s1 ev]. destruct (settle y s1) as [s2 r]. apply HR.
    intros o args nc Hok. unfold cons_arg, nc_next, rem, due, pre_events, cur_in. rewrite Hok, Hb. reflexivity.
  - destruct G as (Hl & Ho). rewrite Hl, Ho. cbn [andb].
    unfold step_ok; cbn [o_ev o_res o_news o_dels o_st].
    split. { split; [exact He|]. split; [cbn; discriminate|reflexivity]. }
    split. { intro z. rewrite count_ctor_map, count_dtor_map. cbn. lia. }
    split. { intros _ nc args log. unfold step_log, nc_next, cons_arg, ok. cbn [o_st o_ev o_res is_access is_complete orb andb Z.eqb].
             rewrite arg_items_dtors. reflexivity. }
      split. { cbn. discriminate. }
    split; [rewrite Hl; cbn; lia|reflexivity].
  - destruct G as (Hl & Ho). rewrite Hl, Ho. cbn [andb].
    unfold step_ok; cbn [o_ev o_res o_news o_dels o_st].
    split; [exact HG|]. split; [intro; cbn; lia|].
    split. { intros _ nc args log. reflexivity. }
      split. { cbn. discriminate. }
    split; [lia|auto].
  - contradiction.
Qed.

Lemma run_cons ha s x ops :
  run_from ha s (x :: ops) =
  (snd (step ha s x) :: fst (run_from ha (fst (step ha s x)) ops), snd (run_from ha (fst (step ha s x)) ops)).
Proof. cbn [run_from]. destruct (step ha s x) as [s1 o]. cbn [fst snd]. destruct (run_from ha s1 ops); reflexivity. Qed.

Lemma dead_log : forall ha ops s nc, live s = false -> created s = true -> log_of ops (fst (run_from ha s ops)) nc = [].
Proof.
  induction ops as [|x ops IH]; intros s nc Hl Hc; [reflexivity|].
  rewrite run_cons, (dead_step ha s x Hl Hc). cbn [fst snd]. rewrite log_of_cons.
  destruct (step_rejected_log x nc) as (-> & -> & _). apply IH; assumption.
Qed.

(* the log of any run from a good live state conforms to what the body script promises *)
Lemma run_conforms : forall ha ops s nc, Good s -> live s = true ->
  conforms (log_of ops (fst (run_from ha s ops)) nc) (rem s (call_args ops (fst (run_from ha s ops))) nc) nc = true.
Proof.
  induction ops as [|x ops IH]; intros s nc HG Hl; [reflexivity|].
  rewrite run_cons. cbn [fst snd]. rewrite log_of_cons, call_args_cons.
  pose proof (step_facts ha s x HG) as HS. destruct (step ha s x) as [s1 o]. cbn [fst snd].
  destruct HS as (HG1 & _ & HC & _ & _ & Hcr).
  rewrite (HC Hl).
  destruct (live s1) eqn:Hl1.
  - apply IH; auto.
  - destruct HG as (_ & HGl & _). destruct (HGl Hl) as [_ Hc].
    rewrite (dead_log ha ops s1 (nc_next x o nc) Hl1 (Hcr Hc)). reflexivity.
Qed.

Lemma good0 : Good sys0.
Proof. unfold Good. cbn. repeat split; auto; discriminate. Qed.

Lemma run_good : forall ha ops s, Good s -> Good (snd (run_from ha s ops)).
Proof.
  induction ops as [|x ops IH]; intros s HG; [exact HG|].
  rewrite run_cons. cbn [snd]. apply IH.
  pose proof (step_facts ha s x HG) as HS. destruct (step ha s x) as [s1 o]. apply HS.
Qed.

(* C13 style_independent / sync_waits_async: for every body script, every op list (any mix of styles, any
   completion timing, malformed ops included) the log of what the consumer received and what the body received
   is a prefix of the specification's log, with matching completion counts, and only End follows it. *)
Theorem gen_conforms : forall ha sc ops,
  let os := fst (run_from ha sys0 (OCreate sc :: ops)) in
  conforms (log_of (OCreate sc :: ops) os 0) (spec sc (call_args (OCreate sc :: ops) os)) 0 = true.
Proof.
  intros ha sc ops os. subst os.
  rewrite run_cons. cbn [fst snd]. rewrite log_of_cons, call_args_cons.
  pose proof (step_facts ha sys0 (OCreate sc) good0) as HS.
  cbn [step created sys0] in *.
  destruct HS as (HG1 & _).
  set (s1 := mkSys true true sc [] 0 BInit CNull FNone None None None false false false None FNoVal None false false false) in *.
  change (conforms (log_of ops (fst (run_from ha s1 ops)) 0) (rem s1 (call_args ops (fst (run_from ha s1 ops))) 0) 0 = true).
  apply run_conforms; auto.
Qed.

Lemma item_eqb_eq a b : item_eqb a b = true -> a = b.
Proof. destruct a, b; cbn; try discriminate; intro H; try reflexivity; f_equal; lia. Qed.

Lemma conforms_cons r n log ex np : conforms ((r, n) :: log) ex np = true ->
  match ex with
  | (x, m) :: ex' => (r, n) = (x, m) /\ conforms log ex' m = true
  | [] => (r, n) = (XEnd, np) /\ conforms log [] np = true
  end.
Proof.
  cbn. destruct ex as [|[x m] ex']; intro H; apply andb_prop in H as [H H2]; apply andb_prop in H as [H1 H3];
  apply item_eqb_eq in H1; apply Nat.eqb_eq in H3; subst; auto.
Qed.

Lemma conforms_nth : forall log ex np, conforms log ex np = true ->
  forall i r n, nth_error log i = Some (r, n) ->
  match nth_error ex i with
  | Some p => p = (r, n)
  | None => r = XEnd
  end.
Proof.
  induction log as [|[r0 n0] log IH]; intros ex np H i r n Hi; [destruct i; discriminate|].
  apply conforms_cons in H. destruct ex as [|[x m] ex']; destruct H as [E H]; destruct i; cbn in *.
  - congruence.
  - specialize (IH [] np H i r n Hi). destruct i; exact IH.
  - congruence.
  - exact (IH ex' m H i r n Hi).
Qed.

Lemma conforms_prefix : forall log ex np, conforms log ex np = true ->
  forall i, (i <= length log)%nat -> (i <= length ex)%nat -> firstn i log = firstn i ex.
Proof.
  induction log as [|[r0 n0] log IH]; intros ex np H i Hl He.
  - cbn in Hl. assert (i = O) by lia. subst. reflexivity.
  - destruct i; [reflexivity|]. destruct ex as [|[x m] ex']; [cbn in He; lia|].
    apply conforms_cons in H as [E H]. cbn [firstn]. f_equal; [exact E|].
    apply (IH ex' m H); cbn in *; lia.
Qed.

Lemma spec_args sc args pre a n post :
  spec sc args = pre ++ (XArg a, n) :: post -> a = nth (count_val pre) args 0.
Proof.
  unfold spec. intro H. apply expected_args in H. rewrite H. apply nth_hd_tl.
Qed.

Lemma all_events_cons o os : all_events (o :: os) = o_ev o ++ all_events os.
Proof. reflexivity. Qed.

Lemma run_balance : forall ha ops s z, Good s ->
  (count_ev (is_ctor z) (all_events (fst (run_from ha s ops))) + count_z z (gds s)
   = count_ev (is_dtor z) (all_events (fst (run_from ha s ops))) + count_z z (gds (snd (run_from ha s ops))))%nat.
Proof.
  induction ops as [|x ops IH]; intros s z HG; [cbn; lia|].
  rewrite run_cons. cbn [fst snd]. rewrite all_events_cons, !count_ev_app.
  pose proof (step_facts ha s x HG) as HS. destruct (step ha s x) as [s1 o]. cbn [fst snd].
  destruct HS as (HG1 & HB & _). specialize (HB z). specialize (IH s1 z HG1). lia.
Qed.

Lemma run_frames : forall ha ops s, Good s ->
  sumz (map o_news (fst (run_from ha s ops))) - sumz (map o_dels (fst (run_from ha s ops)))
  = b2z (live (snd (run_from ha s ops))) - b2z (live s).
Proof.
  induction ops as [|x ops IH]; intros s HG; [cbn; lia|].
  rewrite run_cons. cbn [fst snd map sumz].
  pose proof (step_facts ha s x HG) as HS. destruct (step ha s x) as [s1 o]. cbn [fst snd].
  destruct HS as (HG1 & _ & _ & _ & (HF & _) & _). specialize (IH s1 HG1). lia.
Qed.

Lemma run_accounts : forall ha ops s z, Good s ->
  let r := run_from ha s ops in
  let evs := all_events (fst r) in
  (count_ev (is_ctor z) evs + count_z z (gds s) = count_ev (is_dtor z) evs + count_z z (gds (snd r)))%nat /\
  (live (snd r) = false -> count_ev (is_ctor z) evs + count_z z (gds s) = count_ev (is_dtor z) evs)%nat /\
  (live (snd r) = true -> bst (snd r) = BFinal -> count_ev (is_ctor z) evs + count_z z (gds s) = count_ev (is_dtor z) evs)%nat /\
  sumz (map o_news (fst r)) - sumz (map o_dels (fst r)) = b2z (live (snd r)) - b2z (live s).
Proof.
  intros ha ops s z HG r evs. subst r evs.
  pose proof (run_balance ha ops s z HG) as HB. destruct (run_good ha ops s HG) as (_ & HG1 & HG2).
  split; [exact HB|]. split; [intro Hl; rewrite (HG2 Hl) in HB; cbn in HB; lia|].
  split; [|apply run_frames; exact HG].
  intros Hl Hb. destruct (HG1 Hl) as [HI _]. unfold Inv in HI. rewrite Hb in HI.
  destruct HI as (_ & _ & _ & Hg & _). rewrite Hg in HB. cbn in HB. lia.
Qed.

Lemma destroy_step : forall ha s, Good s -> live s = true -> out s = None ->
  let '(s1, o) := step ha s ODestroy in
  o_ev o = map EDtor (gds s) /\ o_dels o = 1 /\ o_news o = 0 /\ live s1 = false /\ gds s1 = [] /\
  (bst s = BInit -> o_ev o = []) /\
  forall x, snd (step ha s1 x) = rejected.
Proof.
  intros ha s (_ & HG1 & _) Hl Ho. cbn [step]. rewrite Hl, Ho. cbn [andb]. destruct (HG1 Hl) as [HI Hc].
  repeat split; auto.
  - intro Hb. unfold Inv in HI. rewrite Hb in HI. destruct HI as (_ & _ & _ & _ & _ & Hg). cbn. rewrite Hg. reflexivity.
  - intro x. rewrite dead_step; auto.
Qed.

Lemma step_pending : forall ha s x, Good s ->
  let '(s1, o) := step ha s x in
  (ok o = true -> (is_access x || is_complete x) = true -> (o_res o = RPend <-> exists k, bst s1 = BPend k)) /\
  (live s1 = true -> ((exists k, bst s1 = BPend k) <-> out s1 <> None)) /\
  err s1 = false.
Proof.
  intros ha s x HG.
  pose proof (step_facts ha s x HG) as HS. destruct (step ha s x) as [s1 o].
  destruct HS as ((He & HG1 & _) & _ & _ & HP & _).
  split; [exact HP|]. split; [|exact He].
  intro Hl. destruct (HG1 Hl) as [HI _]. apply inv_out_pend. exact HI.
Qed.

Lemma conforms_exception log sp np i e n : conforms log sp np = true ->
  (exists l t m, sp = l ++ [(t, m)] /\ is_terminal t = true /\ forallb (fun p => negb (is_terminal (fst p))) l = true) ->
  nth_error log i = Some (XExc e, n) ->
  firstn (S i) log = firstn (S i) sp /\ S i = length sp /\
  forall j r m, (i < j)%nat -> nth_error log j = Some (r, m) -> r = XEnd.
Proof.
  intros HC (l & t & n' & E & T & F) Hi.
  pose proof (conforms_nth log sp np HC i (XExc e) n Hi) as Hn.
  destruct (nth_error sp i) as [p|] eqn:Esp; [subst p|discriminate].
  assert (Hlen : S i = length sp).
  { rewrite E in *. rewrite app_length. cbn [length].
    destruct (Nat.lt_ge_cases i (length l)) as [Hlt|Hge].
    - rewrite nth_error_app1 in Esp by exact Hlt. rewrite forallb_forall in F.
      specialize (F _ (nth_error_In _ _ Esp)). discriminate.
    - assert (i < length (l ++ [(t, n')]))%nat by (apply nth_error_Some; congruence).
      rewrite app_length in H. cbn in H. lia. }
  split.
  { apply (conforms_prefix log sp np HC); [|lia].
    assert (i < length log)%nat by (apply nth_error_Some; congruence). lia. }
  split; [exact Hlen|].
  intros j r m Hj Hnj. pose proof (conforms_nth log sp np HC j r m Hnj) as H.
  assert (nth_error sp j = None) by (apply nth_error_None; lia). rewrite H0 in H. exact H.
Qed.

Lemma conforms_argument log sc args np i a n : conforms log (spec sc args) np = true ->
  nth_error log i = Some (XArg a, n) -> a = nth (count_val (firstn i log)) args 0.
Proof.
  intros HC Hi. set (sp := spec sc args) in *.
  pose proof (conforms_nth log sp np HC i (XArg a) n Hi) as Hn.
  destruct (nth_error sp i) as [p|] eqn:Esp; [subst p|discriminate].
  assert (Hil : (i < length log)%nat) by (apply nth_error_Some; congruence).
  assert (His : (i < length sp)%nat) by (apply nth_error_Some; congruence).
  rewrite (conforms_prefix log sp np HC i) by lia.
  apply nth_error_split in Esp as (l1 & l2 & E & <-). rewrite E, firstn_app, Nat.sub_diag, firstn_all, app_nil_r.
  exact (spec_args sc args l1 a n l2 E).
Qed.

Definition keep_ev (ha : bool) (e : event) : bool := match e with EArg _ => ha | _ => true end.

Lemma dec_enc_events ha l : dec_events (enc_events ha l) = filter (keep_ev ha) l.
Proof.
  induction l as [|e l IH]; [reflexivity|].
  destruct e; cbn [enc_events filter keep_ev]; try (cbn; rewrite IH; reflexivity).
  destruct ha; cbn; rewrite IH; reflexivity.
Qed.

Lemma dec_enc_res r : dec_res (fst (enc_res r)) (snd (enc_res r)) = r.
Proof. destruct r; reflexivity. Qed.

(* what survives encoding and decoding an observation (dec_enc_obs) *)
Definition filt_obs (ha : bool) (o : obs) : obs :=
  mkObs (o_st o) (o_res o) (o_done o) (o_news o) (o_dels o) (filter (keep_ev ha) (o_ev o)) (o_cnt o).

Lemma dec_enc_obs ha o : dec_obs (encode_obs ha o) = filt_obs ha o.
Proof. unfold encode_obs, dec_obs, filt_obs. rewrite dec_enc_res, dec_enc_events. reflexivity. Qed.

Lemma arg_items_filter ha l : arg_items (filter (keep_ev ha) l) = if ha then arg_items l else [].
Proof.
  induction l as [|e l IH]; [destruct ha; reflexivity|].
  destruct e; cbn [filter keep_ev arg_items]; auto.
  destruct ha; cbn; rewrite IH; reflexivity.
Qed.

Definition not_arg (p : item * nat) : bool := match fst p with XArg _ => false | _ => true end.

Lemma res_item_not_arg r n : filter not_arg (map (fun i => (i, n)) (res_item r)) = map (fun i => (i, n)) (res_item r).
Proof. destruct r; reflexivity. Qed.

Lemma arg_items_all_arg l n : filter not_arg (map (fun i => (i, n)) (arg_items l)) = [].
Proof. induction l as [|e l IH]; [reflexivity|]. destruct e; cbn; auto. Qed.

(* the log computed from the decoded wire observations is the visible part of the model's log *)
Lemma log_of_filt ha : forall ops os nc,
  visible ha (log_of ops (map (filt_obs ha) os) nc) = visible ha (log_of ops os nc).
Proof.
  destruct ha.
  - intros ops os nc. f_equal. f_equal.
    assert (H : forall l, filter (keep_ev true) l = l) by (induction l as [|e l IH]; [reflexivity|destruct e; cbn; rewrite IH; reflexivity]).
    induction os as [|o os IH]; [reflexivity|]. cbn [map]. rewrite IH. f_equal.
    unfold filt_obs. rewrite H. destruct o; reflexivity.
  - intros ops os nc. change (visible false) with (filter not_arg). revert os nc. induction ops as [|x ops IH]; intros [|o os] nc; try reflexivity.
    cbn [map log_of]. replace (ok (filt_obs false o)) with (ok o) by reflexivity.
    rewrite !filter_app, IH. f_equal.
    unfold filt_obs at 1 2. cbn [o_ev o_res]. rewrite arg_items_filter. cbn [app].
    rewrite map_app, filter_app, arg_items_all_arg. reflexivity.
Qed.

Lemma call_args_filt ha : forall ops os, call_args ops (map (filt_obs ha) os) = call_args ops os.
Proof.
  induction ops as [|x ops IH]; intros [|o os]; try reflexivity; try (destruct x; reflexivity).
  destruct x; cbn [map call_args]; rewrite ?IH; try reflexivity.
Qed.

Definition ends_kept (ex : list (item * nat)) : Prop := ex = [] \/ not_arg (last ex (XEnd, O)) = true.

Lemma ends_kept_tail p ex : ex <> [] -> ends_kept (p :: ex) -> ends_kept ex.
Proof. intros Hne [H|H]; [discriminate|]. right. destruct ex; [congruence|exact H]. Qed.

Lemma filter_nonempty_of_last ex : ex <> [] -> not_arg (last ex (XEnd, O)) = true -> filter not_arg ex <> [].
Proof.
  induction ex as [|p ex IH]; [congruence|]. intros _ H. cbn [filter].
  destruct ex as [|q ex'].
  - cbn in H. rewrite H. discriminate.
  - destruct (not_arg p); [discriminate|]. apply IH; [discriminate|exact H].
Qed.

Lemma conforms_filter : forall log ex np, ends_kept ex -> conforms log ex np = true ->
  conforms (filter not_arg log) (filter not_arg ex) np = true.
Proof.
  induction log as [|[r n] log IH]; intros ex np HK H; [reflexivity|].
  apply conforms_cons in H. destruct ex as [|[x m] ex']; destruct H as [[= -> ->] H].
  - cbn. rewrite Nat.eqb_refl. apply (IH [] np); [left; reflexivity|exact H].
  - assert (HK' : ends_kept ex') by (destruct ex'; [left; reflexivity|apply (ends_kept_tail (x, m)); [discriminate|exact HK]]).
    cbn [filter]. destruct (not_arg (x, m)) eqn:E.
    + cbn [conforms]. rewrite item_eqb_refl, Nat.eqb_refl. cbn. apply IH; assumption.
    + specialize (IH ex' m HK' H).
      destruct ex' as [|q ex''].
      * (* the dropped item was the last one: impossible, the last item is kept *)
        destruct HK as [HK|HK]; [discriminate|]. cbn in HK. congruence.
      * rewrite (conforms_np_irrel _ _ np m); [exact IH|].
        destruct HK' as [HK'|HK']; [discriminate|]. apply filter_nonempty_of_last; [discriminate|exact HK'].
Qed.

Lemma spec_ends_kept sc args : ends_kept (spec sc args).
Proof.
  unfold spec. destruct (expected_shape sc 0 (hd 0 args) (tl args) 0) as (l & t & n & E & T & _).
  right. rewrite E. rewrite last_last. unfold not_arg. cbn. destruct t; try discriminate; reflexivity.
Qed.

Lemma settle_not_bad y s : snd (settle y s) <> RBad.
Proof.
  unfold settle. destruct (released y s) eqn:R; [|cbn; discriminate].
  unfold consumer_continue, released in *.
  destruct (fut_style y) eqn:F.
  - destruct (sync_style y) eqn:SS; [exfalso; unfold sync_style, fut_style in *; lia|].
    destruct (fut s); cbn; try discriminate.
  - cbn. destruct (negb (done s)); cbn; [|discriminate].
    unfold value_of. cbn.
    repeat match goal with |- context [match ?x with _ => _ end] => destruct x end; cbn; discriminate.
Qed.

Lemma access_not_bad y a s : snd (fst (access y a s)) <> RBad.
Proof.
  unfold access.
  repeat match goal with
  | |- context [if ?c then _ else _] => destruct c
  end; cbn [fst snd]; try discriminate;
  match goal with
  | |- context [run_body ?x ?v] => destruct (run_body x v) as [s3 ev]
  end;
  pose proof (settle_not_bad y s3) as H; destruct (settle y s3) as [s4 r]; exact H.
Qed.

Lemma step_obs_ok ha s x : o_res (snd (step ha s x)) <> RBad /\ 0 <= o_cnt (snd (step ha s x)) <= 1.
Proof.
  assert (R : forall y b r, 0 <= resumes y b r <= 1) by (intros y b r; unfold resumes; destruct ((y =? 6) && b); [destruct r|]; lia).
  destruct (step_guard ha s x) as [->|G]; [cbn; split; [discriminate|lia]|].
  destruct x as [sc|y a|k v| | |]; cbn [step guard] in *.
  - rewrite G. cbn. split; [discriminate|lia].
  - destruct G as (-> & -> & ->). cbn [andb].
    pose proof (access_not_bad y a s) as H. destruct (access y a s) as [[s1 r] ev]. split; [exact H|apply R].
  - destruct G as (-> & -> & y & ->). rewrite Z.eqb_refl. cbn [andb].
    destruct (run_body s v) as [s1 ev]. pose proof (settle_not_bad y s1) as H. destruct (settle y s1) as [s2 r]. split; [exact H|apply R].
  - destruct G as (-> & ->). cbn. split; [discriminate|lia].
  - destruct G as (-> & ->). cbn. split; [|lia]. unfold value_of. destruct (exn s); [|destruct (ret s)]; discriminate.
  - contradiction.
Qed.

Lemma run_obs_ok ha : forall ops s, Forall (fun o => o_res o <> RBad /\ 0 <= o_cnt o <= 1) (fst (run_from ha s ops)).
Proof.
  induction ops as [|x ops IH]; intro s; [constructor|]. rewrite run_cons. constructor; [apply step_obs_ok|apply IH].
Qed.

Lemma run_length ha : forall ops s, length (fst (run_from ha s ops)) = length ops.
Proof. induction ops as [|x ops IH]; intro s; [reflexivity|]. rewrite run_cons. cbn. rewrite IH. reflexivity. Qed.

Lemma oracle_core_ops : forall ha sc ops0,
  let ops := OCreate sc :: ops0 in
  let os := map (filt_obs ha) (fst (run_from ha sys0 ops)) in
  length ops = length os /\
  no_bad os = true /\
  conforms (visible ha (log_of ops os 0)) (visible ha (spec sc (call_args ops os))) 0 = true /\
  forallb (fun o => (0 <=? o_cnt o) && (o_cnt o <=? 1)) os = true.
Proof.
  intros ha sc ops0 ops os. subst os.
  pose proof (run_obs_ok ha ops sys0) as HO. rewrite Forall_forall in HO.
  split; [rewrite map_length, run_length; reflexivity|].
  split.
  { unfold no_bad. rewrite forallb_forall. intros o Ho. apply in_map_iff in Ho as (o' & <- & Ho').
    destruct (HO o' Ho') as [H _]. cbn. destruct (o_res o'); congruence. }
  split.
  { rewrite log_of_filt, call_args_filt. pose proof (gen_conforms ha sc ops0) as HC. cbv zeta in HC.
    destruct ha; [exact HC|]. apply conforms_filter; [apply spec_ends_kept|exact HC]. }
  rewrite forallb_forall. intros o Ho. apply in_map_iff in Ho as (o' & <- & Ho').
  destruct (HO o' Ho') as [_ H]. cbn [filt_obs o_cnt]. lia.
Qed.
