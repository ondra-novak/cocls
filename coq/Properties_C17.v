(* Properties_C17.v — C17: shared_future: one result for all copies; the shared state lives exactly as long as needed.
   Each proved in a line or two from the lemmas of SharedInv, SharedProofs and SharedProofs2-4.  `reachable ops s` ranges over every
   schedule of: a creator thread (five construction modes, among them late initialisation through get_promise() on a
   default-constructed handle or on a copy of an init_if_needed() handle), one resolver (value / exception / drop) and
   any number of user threads that copy, poll, co_await, sync(), subscribe a callback awaiter and drop handles. *)
From Cocls Require Import Base BaseProofs SharedDefs SharedProofs SharedProofs2 SharedProofs3 SharedProofs4.
Local Open Scope nat_scope.

(* the state is never destroyed while the future is pending, even when every handle has been dropped *)
Theorem c17_alive_until_resolved : forall ops s, reachable ops s -> 1 <= freed s -> slot s = SReady.
Proof.
  intros ops s R F. destruct (is_ready s) eqn:RY; [unfold is_ready in RY; destruct (slot s); congruence|].
  destruct (alive_pending s (proj1 (inv_reachable ops s R)) RY). lia.
Qed.
Print Assumptions c17_alive_until_resolved.

(* the mechanism: the counter is exactly handles + self reference and is positive while the state lives; once the
   constructor / get_promise() has returned and the future is still pending, the tracer holds the self reference *)
Theorem c17_counter_is_handles_plus_selfref : forall ops s, reachable ops s -> freed s = 0 ->
  rc s = nh s + b2n (selfref s) /\ 1 <= rc s.
Proof. intros ops s R. apply (cnt_ok s (proj1 (inv_reachable ops s R))). Qed.
Print Assumptions c17_counter_is_handles_plus_selfref.

Theorem c17_selfref_exactly_while_pending : forall ops s, reachable ops s ->
  match cpcf s with
  | CGive | CDrop _ | CDone => tcount s = b2n (selfref s) /\ (is_ready s = true \/ selfref s = true)
  | _ => True
  end.
Proof.
  intros ops s R. pose proof (tr_ok s (proj1 (inv_reachable ops s R))) as T. destruct (cpcf s); auto; exact T.
Qed.
Print Assumptions c17_selfref_exactly_while_pending.

(* never destroyed twice; the stored value is destroyed at most once and only together with the state *)
Theorem c17_freed_at_most_once : forall ops s, reachable ops s ->
  freed s <= 1 /\ pctor s <= 1 /\ pdtor s <= pctor s /\ (freed s = 0 -> pdtor s = 0).
Proof. intros ops s R. apply (counted_freed_once (cnt_ok s (proj1 (inv_reachable ops s R)))). Qed.
Print Assumptions c17_freed_at_most_once.

(* when nothing can run any more: everybody has finished (no awaiter is left behind, no deadlock), every handle and
   the self reference are gone, the state has been destroyed exactly once and the stored value with it (no leak) *)
Theorem c17_freed_exactly_once : forall ops s, reachable ops s -> terminal s ->
  cpcf s = CDone /\ rdone s = true /\ (forall j u, nth_error (users s) j = Some u -> upcf u = UDone) /\
  freed s = 1 /\ pdtor s = pctor s /\ rc s = 0 /\ selfref s = false /\ walk s = [] /\ acc s = [] /\ slot s = SReady.
Proof. intros ops s R. exact (terminal_all_done s (inv_reachable ops s R)). Qed.
Print Assumptions c17_freed_exactly_once.

(* no step of any thread — the resolver's writes, its walk over the tracer node that lives inside the state, the
   tracer callback, an awaiter's read, a copy or a drop — touches the state's memory after the freeing step *)
Theorem c17_no_access_after_free : forall ops s, reachable ops s -> uaf s = 0.
Proof. intros ops s R. apply (cnt_ok s (proj1 (inv_reachable ops s R))). Qed.
Print Assumptions c17_no_access_after_free.

(* every suspended awaiter (through whichever copy) is linked exactly once — in the chain, the detached rest or the
   collected suspend point — and nobody else is: the resolver releases each exactly once *)
Theorem c17_awaiters_linked_once : forall ops s w, reachable ops s -> occ s w = inl (users s) w.
Proof. exact awaiters_linked_once. Qed.
Print Assumptions c17_awaiters_linked_once.

(* all copies observe the same single result: whatever any user picked up through its handle or a copy of it — by
   co_await, sync(), a callback awaiter or a poll — is the resolver's declared result (a poll may also see "not ready") *)
Theorem c17_one_result_all_copies : forall ops s j u o,
  reachable ops s -> nth_error (users s) j = Some u -> useen u = Some o ->
  o = result_of_ops ops \/ (ukd u = UKPoll /\ o = ONotReady).
Proof. intros ops s j u o R H. apply seen_one_result. exact (seen_reachable ops s j u R H). Qed.
Print Assumptions c17_one_result_all_copies.

(* an awaiter of any copy is never resumed twice; it has been resumed (once, with the result) iff it has finished *)
Theorem c17_awaiters_once : forall ops s j u k,
  reachable ops s -> nth_error (users s) j = Some u -> ukd u = UKAwait k ->
  uruns u <= 1 /\ (upcf u = UDone -> uruns u = 1 /\ useen u = Some (result_of_ops ops)) /\
  (upcf u <> UDone -> uruns u = 0 /\ useen u = None).
Proof. exact awaiters_once. Qed.
Print Assumptions c17_awaiters_once.

(* when nothing can run any more every awaiter has been resumed exactly once with the one result *)
Theorem c17_every_awaiter_resumed_once : forall ops s j u k,
  reachable ops s -> terminal s -> nth_error (users s) j = Some u -> ukd u = UKAwait k ->
  uruns u = 1 /\ useen u = Some (result_of_ops ops).
Proof.
  intros ops s j u k R T H KD. apply (awaiters_once ops s j u k R H KD).
  apply (terminal_all_done s (inv_reachable ops s R) T) with (j := j). exact H.
Qed.
Print Assumptions c17_every_awaiter_resumed_once.

(* the promise always reaches the resolver and every user gets its handle (progress of the creator) *)
Theorem c17_creator_progress : forall ops s, reachable ops s -> Prog s.
Proof. intros ops s R. exact (prog_of_inv s (proj1 (inv_reachable ops s R))). Qed.
Print Assumptions c17_creator_progress.

(* every state the executable model visits on any schedule is covered by the theorems above *)
Theorem c17_runs_are_reachable : forall ops, reachable ops (fst (final_state ops)).
Proof. exact final_state_reachable. Qed.
Print Assumptions c17_runs_are_reachable.

(* the decidable property that is evaluated on the implementation's traces accepts the model's own run whenever the
   runner stops because nothing is enabled (i.e. not by running out of fuel), for every value-type variant *)
Theorem c17_oracle_accepts_model_run : forall isvoid ops,
  all_enabled (fst (final_state ops)) = [] -> sf_oracle isvoid ops (sf_run isvoid ops) = true.
Proof. exact oracle_accepts_terminal. Qed.
Print Assumptions c17_oracle_accepts_model_run.

(* mode, resolver kind and the declared kind of every user never change *)
Theorem c17_declarations_constant : forall ops s, reachable ops s ->
  mode s = mode_of ops /\ rk s = res_of ops /\ kinds s = map ukd (flat_map decode_user ops).
Proof. exact decl_const. Qed.
Print Assumptions c17_declarations_constant.

(* prediction used by the free-running stress part (two threads drop the last two handles of a pending state at once):
   whatever the interleaving, a round that runs to the end leaves the state freed exactly once and no stored value alive *)
Theorem c17_stress_round : forall l, stress_valid l = true ->
  all_enabled (fst (final_state (stress_ops l))) = [] -> stress_round l = [[7; 1; 0; 0]%Z].
Proof. exact stress_round_prediction. Qed.
Print Assumptions c17_stress_round.

(* non-vacuity: late initialisation through a copy (init_if_needed, copy, get_promise on the copy), every handle of two
   awaiters and a dropper; the schedule lets the users subscribe and the creator drop before the resolver runs *)
Example c17_nonvacuous :
  let ops := [[0;3;0]; [1;0;42]; [2;1;4]; [2;0;2]; [2;0;0]; [9; 0;0;0;0;0;0;0;0; 1;1;1;1;1;1;1;1;1;1;1;1;1;1;1;1;1;1;1;1]]%Z in
  let s := fst (final_state ops) in
  all_enabled s = [] /\ freed s = 1 /\ pdtor s = 1 /\ uaf s = 0 /\
  map useen (users s) = [Some (OVal 42); Some (OVal 42); None] /\ map uruns (users s) = [1; 1; 0].
Proof. vm_compute. repeat split. Qed.

(* non-vacuity of the oracle theorem: construction from an async coroutine, copy-assignment / move-assignment /
   self-assignment onto live handles; the runner stops with nothing enabled *)
Example c17_nonvacuous_oracle :
  let ops := [[0;5;0]; [1;0;7]; [2;2;2]; [2;3;4]; [2;4;3]; [2;1;1]; [9; 3;1;4;1;5;9;2;6;5;3;5;8;9;7;9;3;2;3;8;4;6]]%Z in
  all_enabled (fst (final_state ops)) = [] /\ sf_oracle false ops (sf_run false ops) = true.
Proof. vm_compute. split; reflexivity. Qed.
