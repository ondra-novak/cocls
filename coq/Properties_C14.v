(* Properties_C14.v — C14: generator_aggregator = union of all sources, per-source order preserved.
   Only statements, each proved in a line or two from the lemmas of AggrProofs.
   Quantification: any number of sources (a list), any scripts, any op list = any access sequence and any completion
   schedule (position and order of the Complete ops), malformed ops included; both generator<T> and generator<T,Arg>. *)
From Cocls Require Import Base BaseProofs GenDefs GenProofs AggrDefs AggrProofs.

(* accounting: in every reachable state every active source is exactly one of: queued, in flight, or the one whose
   value the consumer holds (count = |queue| + #suspended + [parked at a yield]) *)
Theorem c14_accounting : forall ha ops, AInv (snd (run_from ha agg0 ops)).
Proof. intros. apply run_inv, inv0. Qed.
Print Assumptions c14_accounting.

(* the loop: every iteration that does not stop retires one source and consumes one completion; a yield hands out
   the current value of a queued, unfinished, non-throwing source; the loop stops waiting only with an empty queue
   and ends only with count = 0 *)
Theorem c14_loop_accounting : forall l q c x,
  let '(o, q', c', x') := agg_loop l q c x in
  c' + length q = c + length q' + is_yield o /\
  (o = OWait -> q' = [] /\ c' > 0) /\
  (match o with OThrow _ | ORet => c' = 0 | _ => True end) /\
  (forall j, In j q' -> In j q) /\
  (forall i v, o = OYield i v -> In i q /\ s_ret (get_src l i) = Some v /\ s_done (get_src l i) = false /\ s_exn (get_src l i) = None).
Proof. exact agg_loop_acc. Qed.
Print Assumptions c14_loop_accounting.

(* ends_iff_all_ended (only-if): the aggregate ends only when no source is active, queued or in flight *)
Theorem c14_end_means_all_ended : forall ha ops,
  let g := snd (run_from ha agg0 ops) in
  ast g = AFinal -> count g = 0 /\ queue g = [] /\ npend (srcs g) = 0.
Proof.
  intros ha ops g Hf. pose proof (run_inv ha ops agg0 inv0) as HI. fold g in HI.
  unfold AInv in HI. rewrite Hf in HI. exact HI.
Qed.
Print Assumptions c14_end_means_all_ended.

(* exception_kept: a remembered source exception is never forgotten, it is thrown to the consumer only when no source
   is active any more (so the other sources' values came first), and the normal end needs no remembered exception *)
Theorem c14_exception_kept : forall l q c x,
  let '(o, _, c', x') := agg_loop l q c x in
  (x <> None -> x' <> None) /\
  (forall e, o = OThrow e -> c' = 0 /\ x' = Some e) /\
  (o = ORet -> c' = 0 /\ x' = None /\ x = None).
Proof. exact agg_loop_exception. Qed.
Print Assumptions c14_exception_kept.

(* destroy_parked: the destructor of an aggregate parked at a yield pops the whole completion queue and then needs
   exactly one completion per source still in flight; it blocks iff there is one, and then a Complete op is enabled *)
Theorem c14_destroy_parked : forall ha ops i,
  let g := snd (run_from ha agg0 ops) in
  ast g = AYield i ->
  let '(q1, c1, blocked) := drain (queue g) (count g) in
  q1 = [] /\ c1 = npend (srcs g) + 1 /\
  (blocked = true <-> npend (srcs g) > 0) /\
  (blocked = true -> exists j, j < length (srcs g) /\ pendb (nth j (srcs g) (src0 [])) = true).
Proof.
  intros ha ops i g Hy. pose proof (run_inv ha ops agg0 inv0) as HI. fold g in HI.
  unfold AInv in HI. rewrite Hy in HI. apply drain_exact, HI.
Qed.
Print Assumptions c14_destroy_parked.

Theorem c14_destroy_progress : forall ha ops,
  let g := snd (run_from ha agg0 ops) in
  ast g = ADying -> count g = npend (srcs g) + 1 /\ queue g = [] /\ npend (srcs g) > 0.
Proof.
  intros ha ops g Hd. pose proof (run_inv ha ops agg0 inv0) as HI. fold g in HI.
  unfold AInv in HI. rewrite Hd in HI. destruct HI as (Hc & Hq & Hp). repeat split; auto. lia.
Qed.
Print Assumptions c14_destroy_progress.

(* per_source_order: for any number of sources, any scripts (with or without arguments / YieldEcho), any access sequence
   and any completion schedule, the values delivered from source j - in delivery order - are a prefix of the value
   sequence source j's script yields when run with the arguments routed to it so far (`Sof`, defined on the script and
   the received arguments alone; `recvd` = the first argument to every source, each later one to the source returned
   last): nothing skipped, repeated, reordered or invented within a source *)
Theorem c14_per_source_order : forall ha scs ops j, j < length scs -> forall fut,
  exists rest, dj (deliv ha (build_state scs) ops) j ++ rest = Sof scs (recvd ha (build_state scs) ops) j fut.
Proof. intros ha scs ops j Hj. exact (run_per_source ha scs ops _ [] [] (build_tinv scs) j Hj). Qed.
Print Assumptions c14_per_source_order.

(* union: once the aggregate has ended, every source's complete value sequence has been delivered, each value exactly
   once and in the source's order *)
Theorem c14_union : forall ha scs ops,
  ast (snd (run_from ha (build_state scs) ops)) = AFinal ->
  forall j, j < length scs -> forall fut,
  dj (deliv ha (build_state scs) ops) j = Sof scs (recvd ha (build_state scs) ops) j fut.
Proof. intros ha scs ops. exact (run_union ha scs ops _ [] [] (build_tinv scs) (build_ainv scs)). Qed.
Print Assumptions c14_union.

(* for scripts that do not echo their argument the sequence is the script's value list, whatever arguments arrive *)
Theorem c14_values_without_echo : forall scs R j fut,
  has_echo (nth j scs []) = false -> Sof scs R j fut = src_values (nth j scs []).
Proof. intros scs R j fut H. apply svals_noecho, H. Qed.
Print Assumptions c14_values_without_echo.

(* ends_iff_all_ended, if-direction: an accepted access after which every source is finished answers with the end of
   the sequence (End or the remembered exception) and leaves the aggregate finished; with c14_end_means_all_ended this
   is the "iff" *)
Theorem c14_end_if_all_ended : forall ha scs ops y a p,
  let g := snd (run_from ha (build_state scs) ops) in
  let '(g1, o) := step ha g (OAccess y a p) in
  o_st o = 0%Z -> all_final (srcs g1) -> ast g1 = AFinal /\ terminal_res (o_res o).
Proof.
  intros ha scs ops y a p g.
  exact (step_end_if_all_ended ha scs _ _ g y a p (run_tinv ha scs ops _ [] [] (build_tinv scs)) (run_inv ha ops _ (build_ainv scs))).
Qed.
Print Assumptions c14_end_if_all_ended.

(* the delivered values are exactly the value answers the consumer observes, in the same order *)
Theorem c14_delivered_is_observed : forall ha ops g,
  map snd (deliv ha g ops) = vals_of ops (fst (run_from ha g ops)).
Proof. exact aggr_deliv_is_observed. Qed.
Print Assumptions c14_delivered_is_observed.

(* argument_routing: an access of an aggregate parked at the yield of source i resumes exactly source i, which
   receives exactly that access's argument *)
Theorem c14_argument_routing : forall ha g y a p i s1 b e,
  ast g = AYield i -> idle g = true -> style_ok ha y = true ->
  charge (get_src (srcs g) i) a = Some (s1, b, e) ->
  o_ev (snd (step ha g (OAccess y a p))) = tag_ev i e /\ Forall (arg_is a) e /\ s_arg s1 = a.
Proof.
  intros ha g y a pf i s1 b e Ha Hi Hs Hc. cbn [step]. rewrite Hi, Hs, Ha. cbn [andb]. rewrite Hc.
  destruct (apply_outcome g _ _ y) as [g1 r]. split; [reflexivity|apply (src_resumed 0%Z _ a _ (or_introl Hc))].
Qed.
Print Assumptions c14_argument_routing.

(* RAII balance across all source frames: over any run, for every source j and local id x, constructions =
   destructions + locals of source j still alive; once the aggregate is destroyed (parked with or without in-flight
   sources, never started, or finished) every local of every source frame was destroyed exactly as often as it was
   constructed.  (The destruction of all frames is the single step into ADead, after which every op is rejected:
   AggrProofs.aggr_dead_rejects.) *)
Theorem c14_raii_balance : forall ha ops j x,
  let r := run_from ha agg0 ops in
  ccount (is_ctor x) j (all_sevents (fst r)) = ccount (is_dtor x) j (all_sevents (fst r)) + gcount x (srcs (snd r)) j /\
  (ast (snd r) = ADead -> ccount (is_ctor x) j (all_sevents (fst r)) = ccount (is_dtor x) j (all_sevents (fst r))).
Proof.
  intros ha ops j x r. subst r. destruct (run_bal ha x j ops agg0 inv0) as [HB HD].
  assert (H0 : gcount x (srcs agg0) j = 0) by (destruct j; reflexivity). rewrite H0 in HB.
  split; [lia|intro Hd; rewrite (HD (fun _ => H0) Hd) in HB; lia].
Qed.
Print Assumptions c14_raii_balance.

(* the completion ORDER between sources is not fixed by C14: every theorem above quantifies over op lists in which each
   access / completion may carry an arbitrary preference list that rearranges the completion queue before the loop
   pops it (`reorder`, always a permutation; [] = the library's FIFO) - so they hold for FIFO, LIFO or any other
   pop order *)
Theorem c14_any_pop_order : forall p q, Permutation (reorder q p) q.
Proof. exact reorder_perm. Qed.
Print Assumptions c14_any_pop_order.

(* non-vacuity: three sources (one suspending, one throwing) built through the ops, read to the end: the state reached
   by the Source/Build ops is build_state, the union is delivered, the exception comes last *)
Example c14_nonvacuous :
  let scs := [[IYield 0; IYield 1]; [IAwaitPending 1; IYield 1000]; [IYield 2000; IThrow 7]] in
  let ops := [OAccess 0 0 []; OAccess 3 0 []; OAccess 2 0 []; OAccess 0 0 []; OComplete 1 5 []; OAccess 4 0 []; OAccess 0 0 []] in
  snd (run_from false agg0 (map OSource scs ++ [OBuild])) = build_state scs /\
  map o_res (fst (run_from false (build_state scs) ops)) = [RVal 0; RVal 2000; RVal 1; RPend; RVal 1000; RExc 7; REndT] /\
  deliv false (build_state scs) ops = [(0%nat, 0%Z); (2%nat, 2000%Z); (0%nat, 1%Z); (1%nat, 1000%Z)] /\
  ast (snd (run_from false (build_state scs) ops)) = AFinal.
Proof. vm_compute. repeat split; reflexivity. Qed.
