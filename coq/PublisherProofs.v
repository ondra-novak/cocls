(* PublisherProofs.v — invariants of the publisher model and the simulation between the model (PublisherDefs:
   step) and the reference monitor (PublisherDefs: mon_step).  Main result: for EVERY op list (any number of
   subscribers, any min/max configuration, any interleaving of the split next() steps) the monitor's judgement on
   the model's own trace is `good`, and the invariant Inv relates the queue state to what the monitor recorded. *)
From Cocls Require Import Base BaseProofs PublisherDefs.
Require Import ZifyBool.
(* wrap is a mod; also, with ZifyBool alone lia does not return when sub_ok's equation of the two kicked flags is around.
   The redefinition also holds in the files that import this one (PubOnce, PubThreadProofs, Properties_C16). *)
Ltac Zify.zify_post_hook ::= Z.div_mod_to_equations.
Local Open Scope Z_scope.

Lemma wrap_small z : 0 <= z < W -> wrap z = z.
Proof. intros H. unfold wrap. apply Z.mod_small. exact H. Qed.

Lemma wrap_range z : 0 <= wrap z < W.
Proof. unfold wrap. apply Z.mod_pos_bound. reflexivity. Qed.

Lemma wrap_neg z : - W <= z < 0 -> wrap z = z + W.
Proof.
  intros H. unfold wrap. symmetry. apply (Z.mod_unique z W (-1) (z + W)); [left|]; unfold W in *; lia.
Qed.

Lemma HALF_W : HALF * 4 = W. Proof. reflexivity. Qed.

Lemma zlen_nil {A} : zlen (@nil A) = 0. Proof. reflexivity. Qed.
Lemma zlen_firstn {A} (k : nat) (l : list A) : zlen (firstn k l) = Z.min (Z.of_nat k) (zlen l).
Proof. unfold zlen. rewrite firstn_length. lia. Qed.
Lemma zlen_rev {A} (l : list A) : zlen (rev l) = zlen l.
Proof. unfold zlen. rewrite rev_length. reflexivity. Qed.

Lemma rget_set_same l h x : (h < length l)%nat -> rget (set_nth l h x) h = x.
Proof.
  intros H. unfold rget. apply nth_error_nth. apply nth_error_set_nth_same. exact H.
Qed.

Lemma rget_nth_error l h : (h < length l)%nat -> nth_error l h = Some (rget l h).
Proof. intros H. unfold rget. apply nth_error_nth'. exact H. Qed.

Lemma rget_beyond l h : (length l <= h)%nat -> rget l h = reg0.
Proof. intros H. unfold rget. apply nth_overflow. exact H. Qed.

Lemma rget_set_other l h k x : h <> k -> rget (set_nth l h x) k = rget l k.
Proof.
  intros H. unfold rget.
  destruct (Nat.lt_ge_cases k (length l)) as [L|L].
  - apply nth_error_nth. rewrite nth_error_set_nth_other by exact H. apply nth_error_nth'. exact L.
  - rewrite !nth_overflow; [reflexivity|exact L|rewrite set_nth_length; exact L].
Qed.

Lemma rget_used_lt l h : r_used (rget l h) = true -> (h < length l)%nat.
Proof.
  intros H. destruct (Nat.lt_ge_cases h (length l)) as [L|L]; [exact L|].
  rewrite rget_beyond in H by exact L. discriminate.
Qed.

Lemma rget_app_l l x h : (h < length l)%nat -> rget (l ++ [x]) h = rget l h.
Proof. intros H. unfold rget. apply app_nth1. exact H. Qed.
Lemma rget_app_new l x : rget (l ++ [x]) (length l) = x.
Proof. unfold rget. rewrite app_nth2 by lia. rewrite Nat.sub_diag. reflexivity. Qed.

Lemma rget_map_clear l h : rget (map clear_reg l) h = clear_reg (rget l h).
Proof.
  unfold rget. change reg0 with (clear_reg reg0) at 1. apply map_nth.
Qed.

(* the free list of registration slots, threaded through _pos of the unused ones *)
Inductive freelist (rs : list reg) : Z -> list nat -> Prop :=
| fl_nil : freelist rs (zlen rs) []
| fl_cons h t : (h < length rs)%nat -> r_used (rget rs h) = false -> ~ In h t ->
                freelist rs (r_pos (rget rs h)) t -> freelist rs (Z.of_nat h) (h :: t).

Lemma freelist_unused rs nf fl : freelist rs nf fl -> forall h, In h fl -> r_used (rget rs h) = false.
Proof.
  induction 1 as [|h t L U N F IH]; intros k K; [destruct K|].
  destruct K as [<-|K]; [exact U|apply IH; exact K].
Qed.

Lemma freelist_set_other rs nf fl h x : freelist rs nf fl -> ~ In h fl ->
  freelist (set_nth rs h x) nf fl.
Proof.
  induction 1 as [|k t L U N F IH]; intros NI.
  - replace (zlen rs) with (zlen (set_nth rs h x)) by (unfold zlen; rewrite set_nth_length; reflexivity).
    constructor.
  - assert (h <> k) by (intros ->; apply NI; left; reflexivity).
    constructor.
    + rewrite set_nth_length. exact L.
    + rewrite rget_set_other by exact H. exact U.
    + exact N.
    + rewrite rget_set_other by exact H. apply IH. intros K. apply NI. right. exact K.
Qed.

Lemma freelist_head rs nf fl : freelist rs nf fl ->
  (fl = [] /\ nf = zlen rs) \/ (exists h t, fl = h :: t /\ nf = Z.of_nat h /\ (h < length rs)%nat).
Proof. destruct 1; [left; split; reflexivity|right; eauto]. Qed.

Definition awt_of (x : reg) : list Z := olist (r_awt x).

Lemma in_flat_map_rget (f : reg -> list Z) l a :
  In a (flat_map f l) <-> exists h, (h < length l)%nat /\ In a (f (rget l h)).
Proof.
  rewrite in_flat_map. split.
  - intros (x & I & J). apply In_nth_error in I. destruct I as (h & I).
    exists h. assert (L : (h < length l)%nat) by (apply nth_error_Some; congruence).
    split; [exact L|]. rewrite (rget_nth_error l h L) in I. injection I as <-. exact J.
  - intros (h & L & J). exists (rget l h). split; [|exact J].
    eapply nth_error_In. apply rget_nth_error. exact L.
Qed.

(* woken = awaiters resumed so far, held = awaiters stored in the registrations, b = next fresh awaiter id.
   Clause i_awt of Inv, written out there, is once [] (flat_map awt_of (regs (pq e))) (nawt e) up to unfolding. *)
Definition once (woken held : list Z) (b : Z) : Prop := NoDup (woken ++ held) /\ (forall a, In a (woken ++ held) -> a < b).

Lemma once_move woken S w S' b : once woken S b -> Permutation S (w ++ S') -> once (woken ++ w) S' b.
Proof.
  intros (N & B) P.
  assert (PP : Permutation (woken ++ S) ((woken ++ w) ++ S')) by (rewrite <- app_assoc; apply Permutation_app_head; exact P).
  split; [eapply Permutation_NoDup; eassumption|].
  intros a I. apply B. eapply Permutation_in; [symmetry; exact PP|exact I].
Qed.

Lemma once_mono woken S b b' : once woken S b -> b <= b' -> once woken S b'.
Proof. intros (N & B) L. split; [exact N|]. intros a I. specialize (B a I). lia. Qed.

Lemma once_stored woken S b : once woken S b -> once [] S b.
Proof.
  intros (N & B). split; [apply NoDup_app_r in N; exact N|].
  intros a I. apply B. apply in_app_iff. right. exact I.
Qed.

Lemma set_nth_out {A} (l : list A) h x : (length l <= h)%nat -> set_nth l h x = l.
Proof. revert h; induction l as [|y l IH]; intros [|h] H; cbn in *; try reflexivity; try lia. f_equal. apply IH. lia. Qed.

Lemma flat_map_set_nth {A B} (f : A -> list B) l h x d : (h < length l)%nat ->
  Permutation (f (nth h l d) ++ flat_map f (set_nth l h x)) (f x ++ flat_map f l).
Proof.
  revert h; induction l as [|y l IH]; intros [|h] H; cbn in *; try lia.
  - apply Permutation_app_swap_app.
  - rewrite (Permutation_app_swap_app (f (nth h l d)) (f y)), (Permutation_app_swap_app (f x) (f y)).
    apply Permutation_app_head. apply IH. lia.
Qed.

Lemma once_perm woken S S' b : Permutation S S' -> once woken S b -> once woken S' b.
Proof. intros P H. pose proof (once_move woken S [] S' b H P) as X. rewrite app_nil_r in X. exact X. Qed.

Lemma once_drop woken w S b : once woken (w ++ S) b -> once woken S b.
Proof.
  intros (N & B). split.
  - apply (Permutation_NoDup (Permutation_app_swap_app woken w S)) in N. apply NoDup_app_r in N. exact N.
  - intros a I. apply B. rewrite !in_app_iff in *. tauto.
Qed.

Lemma once_fresh woken S b : once woken S b -> once woken (b :: S) (b + 1).
Proof.
  intros (N & B). split.
  - apply (Permutation_NoDup (Permutation_middle woken S b)). constructor; [intros I; specialize (B b I); lia|exact N].
  - intros a I. apply (Permutation_in _ (Permutation_sym (Permutation_middle woken S b))) in I.
    destruct I as [<-|I]; [lia|specialize (B a I); lia].
Qed.

Lemma once_set woken l h x b : once woken (flat_map awt_of l) b ->
  (awt_of x = [] \/ awt_of x = awt_of (rget l h)) -> once woken (flat_map awt_of (set_nth l h x)) b.
Proof.
  intros H X. destruct (Nat.lt_ge_cases h (length l)) as [L|L]; [|rewrite set_nth_out by exact L; exact H].
  pose proof (flat_map_set_nth awt_of l h x reg0 L) as P. fold (rget l h) in P.
  destruct X as [X|X]; rewrite X in P.
  - apply (once_drop woken (awt_of (rget l h))), (once_perm _ _ _ _ (Permutation_sym P)), H.
  - apply Permutation_app_inv_l in P. apply (once_perm _ _ _ _ (Permutation_sym P) H).
Qed.

Lemma once_set_fresh woken l h x b : (h < length l)%nat -> once woken (flat_map awt_of l) b -> awt_of x = [b] ->
  once woken (flat_map awt_of (set_nth l h x)) (b + 1).
Proof.
  intros L H X. pose proof (flat_map_set_nth awt_of l h x reg0 L) as P. fold (rget l h) in P. rewrite X in P.
  apply (once_drop woken (awt_of (rget l h))), (once_perm _ _ _ _ (Permutation_sym P)), once_fresh, H.
Qed.

Lemma once_append woken l x b : once woken (flat_map awt_of l) b -> awt_of x = [] -> once woken (flat_map awt_of (l ++ [x])) b.
Proof. intros H X. rewrite flat_map_app. cbn. rewrite X. cbn. rewrite app_nil_r. exact H. Qed.

Lemma push_perm l : Permutation (flat_map awt_of l) (flat_map wake_of l ++ flat_map awt_of (map clear_reg l)).
Proof.
  induction l as [|x l IH]; [constructor|]. cbn [flat_map map].
  assert (E : awt_of x = wake_of x ++ awt_of (clear_reg x)).
  { unfold wake_of, clear_reg, awt_of. destruct (r_used x); cbn; [rewrite app_nil_r|]; reflexivity. }
  rewrite E. rewrite <- !app_assoc. apply Permutation_app_head.
  rewrite IH. rewrite !app_assoc. apply Permutation_app_tail. apply Permutation_app_comm.
Qed.

Lemma push_once woken q c b : once woken (flat_map awt_of (regs q)) b ->
  once (woken ++ snd (push_lk q c)) (flat_map awt_of (regs (fst (push_lk q c)))) b.
Proof. intros H. unfold push_lk. cbn [fst snd regs]. eapply once_move; [exact H|apply push_perm]. Qed.

Lemma subscribe_once woken q sub p b : once woken (flat_map awt_of (regs q)) b ->
  once woken (flat_map awt_of (regs (fst (subscribe_lk q sub p)))) b.
Proof.
  intros H. unfold subscribe_lk. destruct (zlen (regs q) <=? next_free q); cbn [fst regs].
  - apply once_append; [exact H|reflexivity].
  - apply once_set; [exact H|left; reflexivity].
Qed.

(* the retained queue, newest first, is a prefix of the reversed log *)
Definition win (lg qd : list Z) : Prop := exists k, qd = firstn k (rev lg).

Lemma win_len lg qd : win lg qd -> zlen qd <= zlen lg.
Proof. intros (k & ->). rewrite zlen_firstn, zlen_rev. lia. Qed.

Lemma win_push lg qd vs : win lg qd -> win (lg ++ vs) (rev vs ++ qd).
Proof.
  intros (k & ->). exists (length (rev vs) + k)%nat. rewrite rev_app_distr. rewrite firstn_app_2. reflexivity.
Qed.

Lemma win_trim lg qd j : win lg qd -> win lg (firstn j qd).
Proof. intros (k & ->). exists (Nat.min j k). apply firstn_firstn. Qed.

Lemma win_nth lg qd i : win lg qd -> 0 <= i < zlen qd ->
  nth_error qd (Z.to_nat i) = Some (nthz lg (zlen lg - 1 - i)).
Proof.
  intros (k & ->) H. rewrite zlen_firstn, zlen_rev in H.
  assert (L : (Z.to_nat i < length lg)%nat) by (unfold zlen in H; lia).
  assert (E : nth_error (firstn k (rev lg)) (Z.to_nat i) = nth_error (rev lg) (Z.to_nat i)).
  { rewrite <- (firstn_skipn k (rev lg)) at 2. rewrite nth_error_app1; [reflexivity|].
    rewrite firstn_length, rev_length. lia. }
  rewrite E. rewrite (nth_error_nth' (rev lg) 0) by (rewrite rev_length; exact L).
  f_equal. rewrite rev_nth by exact L. unfold nthz. f_equal. unfold zlen. lia.
Qed.

(* the queue against the published log lg: the next position is |lg| + 1, below 2^62, and the retained queue is a prefix of
   the reversed log of at least min(minl, |lg|) values *)
Record Gq (lg : list Z) (q : pubq) : Prop := {
  g_min : 1 <= minl q;
  g_max : minl q <= maxl q < W;
  g_pos : qpos q = zlen lg + 1;
  g_half : zlen lg + 1 < HALF;
  g_win : win lg (qd q);
  g_len : Z.min (minl q) (zlen lg) <= zlen (qd q) }.

Lemma need_of_ge p l nd : nd <= need_of p l nd.
Proof.
  revert nd; induction l as [|x l IH]; intros nd; cbn [need_of]; [lia|].
  destruct (r_used x); [|apply IH]. specialize (IH (Z.max nd (wrap (p - r_pos x)))). lia.
Qed.

Lemma need_of_mono p l a b : a <= b -> need_of p l a <= need_of p l b.
Proof.
  revert a b; induction l as [|x l IH]; intros a b H; cbn [need_of]; [exact H|].
  destruct (r_used x); apply IH; lia.
Qed.

Lemma need_of_used p l nd x : In x l -> r_used x = true -> wrap (p - r_pos x) <= need_of p l nd.
Proof.
  revert nd; induction l as [|y l IH]; intros nd I U; [destruct I|].
  cbn [need_of]. destruct I as [->|I].
  - rewrite U. pose proof (need_of_ge p l (Z.max nd (wrap (p - r_pos x)))). lia.
  - apply IH; assumption.
Qed.

Lemma need_of_rget p l nd h : r_used (rget l h) = true -> wrap (p - r_pos (rget l h)) <= need_of p l nd.
Proof.
  intros U. apply need_of_used; [|exact U].
  eapply nth_error_In. apply rget_nth_error. apply rget_used_lt. exact U.
Qed.

Lemma push_lk_spec lg q vs :
  Gq lg q -> zlen lg + zlen vs + 1 < HALF ->
  let q0 := mkQ (regs q) (next_free q) (rev vs ++ qd q) (qpos q) (closed q) (minl q) (maxl q) in
  let q' := fst (push_lk q0 (zlen vs)) in
  Gq (lg ++ vs) q' /\ regs q' = map clear_reg (regs q) /\ next_free q' = next_free q /\ closed q' = closed q /\
  minl q' = minl q /\ maxl q' = maxl q /\
  zlen (qd q') = Z.min (Z.min (need_of (zlen lg + zlen vs + 1) (regs q) (minl q)) (maxl q)) (zlen (qd q) + zlen vs) /\
  snd (push_lk q0 (zlen vs)) = flat_map wake_of (regs q).
Proof.
  intros G B q0 q'. destruct G as [G1 G2 G3 G4 G5 G6].
  pose proof (zlen_nonneg vs) as V. pose proof (zlen_nonneg lg) as LG. pose proof (zlen_nonneg (qd q)) as QN.
  assert (HW : HALF < W) by reflexivity.
  assert (P : wrap (qpos q + zlen vs) = zlen lg + zlen vs + 1).
  { rewrite G3. rewrite wrap_small; lia. }
  unfold q', push_lk, q0. cbn [regs next_free qd qpos closed minl maxl fst snd]. rewrite P.
  set (need := need_of (zlen lg + zlen vs + 1) (regs q) (minl q)).
  assert (ND : minl q <= need) by apply need_of_ge.
  assert (QL : zlen (rev vs ++ qd q) = zlen (qd q) + zlen vs) by (rewrite zlen_app, zlen_rev; lia).
  rewrite QL.
  set (nn := Z.min (Z.min need (maxl q)) (zlen (qd q) + zlen vs)).
  assert (NN : 0 <= nn) by (unfold nn; lia).
  assert (ZL : zlen (firstn (Z.to_nat nn) (rev vs ++ qd q)) = nn).
  { rewrite zlen_firstn, QL. unfold nn. lia. }
  repeat split; cbn [regs next_free qd qpos closed minl maxl]; try assumption; try reflexivity; try lia.
  - rewrite zlen_app. lia.
  - rewrite zlen_app. lia.
  - apply win_trim. apply win_push. exact G5.
  - rewrite ZL, zlen_app. pose proof (win_len _ _ G5). unfold nn. lia.
Qed.

Lemma kick_regs_spec sub l :
  (kick_regs sub l = (l, None) /\
   forall h, (h < length l)%nat -> r_used (rget l h) = true -> r_sub (rget l h) <> sub) \/
  exists h, (h < length l)%nat /\ r_used (rget l h) = true /\ r_sub (rget l h) = sub /\
    kick_regs sub l =
    (set_nth l h (mkReg (r_pos (rget l h)) (r_sub (rget l h)) None (r_used (rget l h)) true), r_awt (rget l h)).
Proof.
  induction l as [|x l IH]; [left; split; [reflexivity|intros h L; cbn in L; lia]|].
  cbn [kick_regs]. destruct (r_used x && (r_sub x =? sub)) eqn:E.
  - right. exists 0%nat. apply andb_prop in E as (E1 & E2). unfold rget. cbn [nth length set_nth].
    split; [lia|]. split; [exact E1|]. split; [lia|reflexivity].
  - destruct IH as [(-> & N)|(h & L & U & S & ->)].
    + left. split; [reflexivity|]. intros [|h] L U.
      * unfold rget in *. cbn [nth] in *. rewrite U in E. cbn in E. lia.
      * apply (N h); [cbn in L; lia|exact U].
    + right. exists (Datatypes.S h). cbn [length]. split; [lia|]. split; [exact U|]. split; [exact S|reflexivity].
Qed.

Definition lastp (r : srec) : Z := last_pos (m_start r) (m_deliv r).

(* position of a live subscriber that has not seen an end of stream yet, against what the monitor recorded.
   n = number of published values, qlen = retained window, cl = closed, mx = max queue length *)
Definition pos_ok (n qlen : Z) (cl : bool) (mx : Z) (l : reg) (r : srec) : Prop :=
  0 <= m_start r /\
  (m_mode r = 0 ->
     (r_pos l = consumed r \/ r_pos l = consumed r + 1) /\
     (idle_pc (m_pc r) = true -> r_pos l = consumed r) /\
     (idle_pc (m_pc r) = false -> m_kicked r = false -> r_pos l = consumed r + 1) /\
     (m_lost r = false -> consumed r <= n /\ n - consumed r <= qlen /\ n - consumed r <= mx /\
        (m_pc r = PAdv -> m_kicked r = false -> consumed r = n -> cl = true))) /\
  (m_mode r <> 0 ->
     0 <= lastp r /\
     (idle_pc (m_pc r) = true -> lastp r <= r_pos l) /\
     (idle_pc (m_pc r) = false -> m_kicked r = false -> lastp r < r_pos l) /\
     (m_lost r = false -> r_pos l <= n + 1 /\ (idle_pc (m_pc r) = true -> r_pos l <= n) /\
        (m_pc r = PAdv -> m_kicked r = false -> r_pos l = n + 1 -> cl = true))).

Definition awt_pc (p : pc) : option Z := match p with PParked a => Some a | _ => None end.

Definition sub_ok (n qlen : Z) (cl : bool) (mx : Z) (s : nat) (o : sobj) (l : reg) (r : srec) : Prop :=
  r_used l = true /\ r_sub l = Z.of_nat s /\ m_mode r = s_mode o /\ valid_mode (s_mode o) = true /\
  r_kicked l = m_kicked r /\ m_cur r = r_pos l /\ 0 <= r_pos l < HALF /\
  r_awt l = awt_pc (m_pc r) /\
  (m_eos r = false -> pos_ok n qlen cl mx l r).

Record Inv (e : tst) (m : mon) : Prop := {
  i_g : Gq (m_log m) (pq e);
  i_mm : m_min m = minl (pq e) /\ m_max m = maxl (pq e);
  i_cl : closed (pq e) = m_closed m;
  i_fl : exists fl, freelist (regs (pq e)) (next_free (pq e)) fl;
  i_awt : NoDup (flat_map awt_of (regs (pq e))) /\ (forall a, In a (flat_map awt_of (regs (pq e))) -> a < nawt e);
  i_none : forall s, get (objs e) s = None <-> get (m_subs m) s = None;
  i_live : forall s o r, get (objs e) s = Some o -> get (m_subs m) s = Some r -> s_live o = m_live r;
  i_sub : forall s o r, live_obj e s = Some o -> get (m_subs m) s = Some r ->
          sub_ok (npub m) (zlen (qd (pq e))) (closed (pq e)) (maxl (pq e)) s o (rget (regs (pq e)) (s_h o)) r;
  i_inj : forall s1 s2 o1 o2, live_obj e s1 = Some o1 -> live_obj e s2 = Some o2 -> s_h o1 = s_h o2 -> s1 = s2;
  i_own : forall h, r_used (rget (regs (pq e)) h) = true -> exists s o, live_obj e s = Some o /\ s_h o = h }.

(* what is carried through every run: the judgement holds, and the invariant unless the environment broke the rules *)
Definition R (e : tst) (m : mon) : Prop := good_b m = true /\ (m_viol m = true \/ Inv e m).

Lemma live_obj_get e s o : live_obj e s = Some o -> get (objs e) s = Some o /\ s_live o = true.
Proof.
  unfold live_obj. destruct (get (objs e) s) as [o'|]; [|discriminate].
  destruct (s_live o') eqn:E; [|discriminate]. intros H. injection H as <-. split; [reflexivity|exact E].
Qed.

Lemma live_obj_intro e s o : get (objs e) s = Some o -> s_live o = true -> live_obj e s = Some o.
Proof. intros G L. unfold live_obj. rewrite G, L. reflexivity. Qed.

Lemma inv_rec_any e m s o : Inv e m -> get (objs e) s = Some o ->
  exists r, get (m_subs m) s = Some r /\ m_live r = s_live o.
Proof.
  intros I G. destruct (get (m_subs m) s) as [r|] eqn:E.
  - exists r. split; [reflexivity|]. symmetry. apply (i_live _ _ I s o r G E).
  - apply (i_none _ _ I) in E. congruence.
Qed.

Lemma inv_rec e m s o : Inv e m -> live_obj e s = Some o ->
  exists r, get (m_subs m) s = Some r /\ m_live r = true.
Proof.
  intros I L. apply live_obj_get in L as (G & LV). destruct (inv_rec_any _ _ _ _ I G) as (r & Gr & E).
  exists r. split; [exact Gr|congruence].
Qed.

Lemma Gq_same lg q q' : Gq lg q -> qd q' = qd q -> qpos q' = qpos q -> minl q' = minl q -> maxl q' = maxl q ->
  Gq lg q'.
Proof. intros [A B C D E F] E1 E2 E3 E4. constructor; rewrite ?E1, ?E2, ?E3, ?E4; assumption. Qed.

Lemma set_nth_rget l h : (h < length l)%nat -> set_nth l h (rget l h) = l.
Proof.
  revert h; induction l as [|x l IH]; intros [|h] H; cbn in *; try lia; [reflexivity|].
  f_equal. apply IH. lia.
Qed.

Lemma set_reg_same q h : (h < length (regs q))%nat -> set_reg q h (rget (regs q) h) = q.
Proof. intros H. unfold set_reg, with_regs. rewrite set_nth_rget by exact H. destruct q; reflexivity. Qed.

Lemma forallb_set_nth {A} (f : A -> bool) l i x : forallb f l = true -> f x = true -> forallb f (set_nth l i x) = true.
Proof.
  revert i; induction l as [|y l IH]; intros [|i] H X; cbn in *; try reflexivity.
  - apply andb_prop in H as [_ H]. rewrite X, H. reflexivity.
  - apply andb_prop in H as [H1 H2]. rewrite H1, IH by assumption. reflexivity.
Qed.

Lemma forallb_ensure {A} (f : option A -> bool) l i : f None = true -> forallb f l = true -> forallb f (ensure l i) = true.
Proof.
  intros N. revert l; induction i as [|i IH]; intros [|y l] H; cbn in *; try assumption.
  - rewrite N. reflexivity.
  - rewrite N. rewrite IH; reflexivity.
  - apply andb_prop in H as [H1 H2]. rewrite H1, IH by assumption. reflexivity.
Qed.

Lemma forallb_put {A} (f : option A -> bool) l i x : f None = true -> forallb f l = true -> f x = true ->
  forallb f (put l i x) = true.
Proof. intros N H X. unfold put. apply forallb_set_nth; [apply forallb_ensure; assumption|exact X]. Qed.

Lemma get_In {A} (l : list (option A)) s r : get l s = Some r -> In (Some r) l.
Proof.
  unfold get. destruct (nth_error l s) as [[x|]|] eqn:E; try discriminate.
  intros H. injection H as <-. eapply nth_error_In. exact E.
Qed.

Lemma In_get {A} (l : list (option A)) r : In (Some r) l -> exists s, get l s = Some r.
Proof. intros I. apply In_nth_error in I as (s & E). exists s. unfold get. rewrite E. reflexivity. Qed.

Lemma good_set_sub m s r : good_b m = true -> rec_good_b (m_log m) (Some r) = true -> good_b (set_sub m s r) = true.
Proof.
  unfold good_b, set_sub. cbn [m_bad m_subs m_log]. intros H X.
  apply andb_prop in H as [H1 H2]. rewrite H1. cbn [andb]. apply forallb_put; [reflexivity|exact H2|exact X].
Qed.

Lemma good_rec m s r : good_b m = true -> get (m_subs m) s = Some r -> rec_good_b (m_log m) (Some r) = true.
Proof.
  unfold good_b. intros H G. apply andb_prop in H as [_ H]. rewrite forallb_forall in H. apply H.
  apply get_In with (s := s). exact G.
Qed.

Lemma good_add_bad m : good_b m = true -> good_b (add_bad m false) = true.
Proof. unfold good_b, add_bad. cbn [m_bad m_subs m_log]. rewrite orb_false_r. trivial. Qed.

Ltac simp_rec := unfold consumed, lastp in *;
                 cbn [m_live m_mode m_pc m_start m_cur m_deliv m_eos m_eos_ok m_kicked m_lost
                      r_pos r_sub r_awt r_used r_kicked with_pos with_awt with_pc with_lost awt_pc idle_pc] in *.

Ltac splits := repeat match goal with |- _ /\ _ => split end.

(* The moves of pos_ok; the new record is written out the way mon_step builds it. *)
Lemma pos_ok_idle n qlen cl mx l r l' pc' lv cur eo eok :
  pos_ok n qlen cl mx l r -> idle_pc (m_pc r) = true -> idle_pc pc' = true -> r_pos l' = r_pos l ->
  pos_ok n qlen cl mx l' (mkSr lv (m_mode r) pc' (m_start r) cur (m_deliv r) eo eok (m_kicked r) (m_lost r)).
Proof.
  intros PO IP IP' E. unfold pos_ok in *. simp_rec. rewrite E, IP'. rewrite IP in PO.
  destruct pc'; try discriminate; intuition (try discriminate; try congruence).
Qed.

Lemma pos_ok_kicked n qlen cl mx l r l' pc' lv cur eo eok :
  pos_ok n qlen cl mx l r -> (idle_pc pc' = true -> idle_pc (m_pc r) = true) -> r_pos l' = r_pos l ->
  pos_ok n qlen cl mx l' (mkSr lv (m_mode r) pc' (m_start r) cur (m_deliv r) eo eok true (m_lost r)).
Proof.
  intros PO IP E. unfold pos_ok in *. simp_rec. rewrite E.
  intuition (try discriminate; try congruence).
Qed.

Lemma pos_ok_advance n qlen cl mx l r l' pc' lv cur eo eok :
  pos_ok n qlen cl mx l r -> idle_pc (m_pc r) = true -> idle_pc pc' = false ->
  r_pos l < r_pos l' -> (m_mode r = 0 -> r_pos l' = r_pos l + 1) -> (r_pos l <= n -> r_pos l' <= n + 1) ->
  (pc' = PAdv -> r_pos l' = n + 1 -> r_pos l <= n -> cl = true) ->
  pos_ok n qlen cl mx l' (mkSr lv (m_mode r) pc' (m_start r) cur (m_deliv r) eo eok (m_kicked r) (m_lost r)).
Proof.
  intros PO IP IP' N1 N2 N3 N4. destruct PO as (ST & M0 & M12). unfold pos_ok. simp_rec. rewrite IP'. rewrite IP in *.
  split; [exact ST|]. split; intros MD.
  - destruct (M0 MD) as (A1 & A2 & A3 & A4). specialize (A2 eq_refl). specialize (N2 MD).
    splits; try lia.
    intros LS. destruct (A4 LS) as (D1 & D2 & D3 & _). splits; try lia. intros PA _ E. apply N4; [exact PA|lia|lia].
  - destruct (M12 MD) as (B1 & B2 & B3 & B4). specialize (B2 eq_refl).
    splits; try lia.
    intros LS. destruct (B4 LS) as (C1 & C2 & _). specialize (C2 eq_refl). splits; try lia. intros PA _ E. apply N4; [exact PA|exact E|lia].
Qed.

Lemma pos_ok_deliver n qlen cl mx l r l' np v k lv cur eo eok :
  pos_ok n qlen cl mx l r -> m_pc r = PAdv -> m_kicked r = false -> r_pos l' = np ->
  r_pos l <= np <= n -> (m_mode r = 0 -> np = r_pos l) ->
  pos_ok n qlen cl mx l' (mkSr lv (m_mode r) PIdle (m_start r) cur ((np, v, k) :: m_deliv r) eo eok false (m_lost r)).
Proof.
  intros PO PC KF E NP T0. unfold pos_ok in *. rewrite PC, KF in PO. simp_rec. rewrite E, zlen_cons. cbn [last_pos].
  pose proof (zlen_nonneg (m_deliv r)).
  intuition (try discriminate; try congruence; try lia).
Qed.

(* the only end of stream left to a reader in a next() that is neither kicked nor given up *)
Lemma pos_ok_drained n qlen cl mx l r :
  pos_ok n qlen cl mx l r -> m_pc r = PAdv -> m_kicked r = false -> m_lost r = false ->
  n + 1 <= r_pos l \/ (m_mode r = 0 /\ qlen <= n + 1 - r_pos l - 1) ->
  cl = true /\ (if m_mode r =? 0 then consumed r = n else r_pos l = n + 1).
Proof.
  intros (ST & M0 & M12) PC KF LS HE. rewrite PC, KF, LS in *. unfold consumed in *. cbn [idle_pc] in *.
  destruct (m_mode r =? 0) eqn:T.
  - destruct (M0 ltac:(lia)) as (A1 & A2 & A3 & A4). specialize (A3 eq_refl eq_refl). destruct (A4 eq_refl) as (D1 & D2 & D3 & D4).
    assert (E : m_start r + zlen (m_deliv r) = n) by lia. split; [apply D4; [reflexivity|reflexivity|exact E]|exact E].
  - destruct (M12 ltac:(lia)) as (B1 & B2 & B3 & B4). destruct (B4 eq_refl) as (C1 & C2 & C3).
    assert (E : r_pos l = n + 1) by lia. split; [apply C3; [reflexivity|reflexivity|exact E]|exact E].
Qed.

Lemma idle_wake p : idle_pc (match p with PIdle => PIdle | PRF => PRF | PAdv | PParked _ => PAdv end) = idle_pc p.
Proof. destruct p; reflexivity. Qed.

(* publish or close, and wake-up; the last hypothesis is push_lk's trimming: the window keeps what a reader needs, up to mx *)
Lemma pos_ok_wake n n' qlen qlen' cl cl' mx l r l' lv cur eo eok :
  pos_ok n qlen cl mx l r -> r_pos l' = r_pos l -> n <= n' -> (n' = n -> cl' = true) ->
  (forall d, d <= n' + 1 - r_pos l -> d <= mx -> d <= qlen + (n' - n) -> d <= qlen') ->
  pos_ok n' qlen' cl' mx l'
    (mkSr lv (m_mode r) (match m_pc r with PIdle => PIdle | PRF => PRF | PAdv | PParked _ => PAdv end) (m_start r) cur
          (m_deliv r) eo eok (m_kicked r) (m_lost r || ((m_mode r =? 0) && (mx <? n' - consumed r)))).
Proof.
  intros (ST & M0 & M12) E N CL WIN. unfold pos_ok, consumed, lastp in *.
  cbn [m_mode m_start m_deliv m_kicked m_pc m_lost]. rewrite E, !idle_wake.
  split; [exact ST|]. split; intros MDE.
  - destruct (M0 MDE) as (A1 & A2 & A3 & A4). rewrite MDE. cbn [Z.eqb andb].
    splits; try assumption.
    intros LS. apply orb_false_elim in LS as (LS1 & LS2). destruct (A4 LS1) as (D1 & D2 & D3 & D4).
    splits; try lia; [apply WIN; lia|]. intros _ _ DN. apply CL. lia.
  - destruct (M12 MDE) as (B1 & B2 & B3 & B4).
    assert (MZ : (m_mode r =? 0) = false) by lia. rewrite MZ. cbn [andb]. rewrite orb_false_r.
    splits; try assumption.
    intros LS. destruct (B4 LS) as (C1 & C2 & C3). splits; try lia. intros _ _ DN. apply CL. lia.
Qed.

Lemma free_live e s o : free_obj e s = Some o -> live_obj e s = Some o.
Proof. unfold free_obj. destruct (live_obj e s) as [o'|]; [|discriminate]. destruct (s_blk o'); [discriminate|]. trivial. Qed.

Lemma with_pq_same e : with_pq e (pq e) = e.
Proof. destruct e; reflexivity. Qed.

Lemma R_viol e m : good_b m = true -> R e (set_viol m).
Proof. intros G. split; [exact G|left; reflexivity]. Qed.

Lemma R_same e m : good_b m = true -> Inv e m -> R e m.
Proof. intros G I. split; [exact G|right; exact I]. Qed.

(* a locked step with its guards resolved: rejected, and nothing changes, or one call of a queue function *)
Inductive step_view (e : tst) : op -> tst * obs -> Prop :=
| sv_rejected x : step_view e x (e, rejected)
| sv_pub v : palive e = true -> step_view e (OPub v) (with_pq e (fst (push1 (pq e) v)), okw (snd (push1 (pq e) v)))
| sv_batch vs : palive e = true ->
    step_view e (OBatch vs) (with_pq e (fst (push_batch (pq e) vs)), okw (snd (push_batch (pq e) vs)))
| sv_subrecent s t : get (objs e) s = None ->
    step_view e (OSubRecent s t) (new_sub e s t (subscribe_recent_lk (pq e) (Z.of_nat s)))
| sv_subat s t p : get (objs e) s = None -> step_view e (OSubAt s t p) (new_sub e s t (subscribe_lk (pq e) (Z.of_nat s) p))
| sv_subcopy s src o : get (objs e) s = None -> live_obj e src = Some o ->
    step_view e (OSubCopy s src) (new_sub e s (s_mode o) (subscribe_copy_lk (pq e) (s_h o) (Z.of_nat s)))
| sv_ready s o : free_obj e s = Some o ->
    step_view e (OReady s) (let r := advance_lk (pq e) (s_h o) (s_mode o) in
                            (with_pq e (fst r), ok3 (b2z (snd r)) (pos_of (fst r) (s_h o)) 0))
| sv_suspend s o : free_obj e s = Some o ->
    step_view e (OSuspend s) (let r := advance_suspend_lk (pq e) (s_h o) (nawt e) in
                              (mkT (fst r) (objs e) (nawt e + 1) (palive e), ok3 (b2z (snd r)) (pos_of (fst r) (s_h o)) (nawt e)))
| sv_get s o : free_obj e s = Some o ->
    step_view e (OGet s) (let r := get_value_lk (pq e) (s_h o) (s_mode o) in
                          match snd r with
                          | GVal v => (with_pq e (fst r), ok3 1 v (pos_of (fst r) (s_h o)))
                          | GEos => (with_pq e (fst r), ok3 0 0 (pos_of (fst r) (s_h o)))
                          | GUb => (e, ub_obs)
                          end)
| sv_kick s : step_view e (OKick s) (with_pq e (fst (kick_lk (pq e) (Z.of_nat s))), okw (snd (kick_lk (pq e) (Z.of_nat s))))
| sv_leave s o : free_obj e s = Some o ->
    step_view e (OLeave s) (mkT (leave_lk (pq e) (s_h o)) (put (objs e) s (Some (mkSo (s_h o) (s_mode o) false false))) (nawt e)
                                (palive e), ok3 0 0 0)
| sv_close : palive e = true -> step_view e OClose (with_pq e (fst (close_q (pq e))), okw (snd (close_q (pq e))))
| sv_position s o : live_obj e s = Some o -> step_view e (OPosition s) (e, ok3 (pos_of (pq e) (s_h o)) 0 0)
| sv_destroy : palive e = true ->
    step_view e ODestroyPub (mkT (fst (close_q (pq e))) (objs e) (nawt e) false, okw (snd (close_q (pq e)))).

Lemma step_cases e x : step_view e x (step e x).
Proof.
  unfold step, step_gen. destruct x.
  - destruct (palive e) eqn:PA; [apply sv_pub; exact PA|apply sv_rejected].
  - destruct (palive e) eqn:PA; [apply sv_batch; exact PA|apply sv_rejected].
  - destruct (get (objs e) s) eqn:GN; [apply sv_rejected|].
    destruct (valid_mode t && palive e); [apply sv_subrecent; exact GN|apply sv_rejected].
  - destruct (get (objs e) s) eqn:GN; [apply sv_rejected|].
    destruct (valid_mode t && palive e && (0 <=? p) && (p <? HALF)); [apply sv_subat; exact GN|apply sv_rejected].
  - destruct (get (objs e) s) eqn:GN; [apply sv_rejected|].
    destruct (live_obj e src) eqn:L; [apply sv_subcopy; assumption|apply sv_rejected].
  - destruct (free_obj e s) eqn:F; [apply (sv_ready e s _ F)|apply sv_rejected].
  - destruct (free_obj e s) eqn:F; [apply (sv_suspend e s _ F)|apply sv_rejected].
  - destruct (free_obj e s) eqn:F; [apply (sv_get e s _ F)|apply sv_rejected].
  - destruct (get (objs e) s) as [o|]; [|apply sv_rejected]. destruct (palive e || s_live o); [apply sv_kick|apply sv_rejected].
  - destruct (free_obj e s) eqn:F; [apply (sv_leave e s _ F)|apply sv_rejected].
  - destruct (palive e) eqn:PA; [apply sv_close; exact PA|apply sv_rejected].
  - destruct (live_obj e s) eqn:L; [apply (sv_position e s _ L)|apply sv_rejected].
  - destruct (palive e) eqn:PA; [apply sv_destroy; exact PA|apply sv_rejected].
  - apply sv_rejected.
  - apply sv_rejected.
  - apply sv_rejected.
  - apply sv_rejected.
Qed.

Lemma mon_step_rejected m x : mon_step m x rejected = m.
Proof. unfold mon_step. destruct (m_viol m); reflexivity. Qed.

Lemma R_rejected e m x : good_b m = true -> Inv e m -> R e (mon_step m x rejected).
Proof. intros G I. rewrite mon_step_rejected. apply R_same; assumption. Qed.

Lemma Inv_bad e m b : Inv e m -> Inv e (add_bad m b).
Proof. intros [A B C D E F G H I J]. constructor; assumption. Qed.

Lemma R_bad e m : R e m -> R e (add_bad m false).
Proof.
  intros (G & [V|I]); (split; [apply good_add_bad; exact G|]); [left; exact V|right; apply Inv_bad; exact I].
Qed.

Lemma valid_mode_cases t : valid_mode t = true -> t = 0 \/ t = 1 \/ t = 2.
Proof. unfold valid_mode. lia. Qed.

Lemma inv_sub e m s o : Inv e m -> live_obj e s = Some o ->
  exists r, get (m_subs m) s = Some r /\ m_live r = true /\ (s_h o < length (regs (pq e)))%nat /\
            sub_ok (npub m) (zlen (qd (pq e))) (closed (pq e)) (maxl (pq e)) s o (rget (regs (pq e)) (s_h o)) r.
Proof.
  intros I L. destruct (inv_rec _ _ _ _ I L) as (r & Gr & LV). exists r.
  pose proof (i_sub _ _ I s o r L Gr) as SO.
  split; [exact Gr|]. split; [exact LV|]. split; [apply rget_used_lt; apply SO|exact SO].
Qed.

Lemma live_obj_eq e e' k : get (objs e') k = get (objs e) k -> live_obj e' k = live_obj e k.
Proof. unfold live_obj. intros ->. reflexivity. Qed.

Lemma own_slot e m s o : Inv e m -> live_obj e s = Some o ->
  forall k o1, live_obj e k = Some o1 -> (s_h o1 = s_h o <-> k = s).
Proof. intros I L k o1 L1. split; [intros E; apply (i_inj _ _ I k s o1 o L1 L E)|intros ->; congruence]. Qed.

(* Inv under an update of one subscriber s: its object, the registration that object points to, its record *)
Lemma Inv_update e m e' m' s o' r' :
  Inv e m ->
  (qd (pq e'), qpos (pq e'), closed (pq e'), minl (pq e'), maxl (pq e')) =
    (qd (pq e), qpos (pq e), closed (pq e), minl (pq e), maxl (pq e)) ->
  (m_log m', m_closed m', m_min m', m_max m') = (m_log m, m_closed m, m_min m, m_max m) ->
  (exists fl, freelist (regs (pq e')) (next_free (pq e')) fl) ->
  once [] (flat_map awt_of (regs (pq e'))) (nawt e') ->
  get (objs e') s = Some o' -> (forall k, k <> s -> get (objs e') k = get (objs e) k) ->
  get (m_subs m') s = Some r' -> (forall k, k <> s -> get (m_subs m') k = get (m_subs m) k) ->
  (forall k, k <> s_h o' -> rget (regs (pq e')) k = rget (regs (pq e)) k) ->
  (forall k o, live_obj e k = Some o -> (s_h o = s_h o' <-> k = s)) ->
  s_live o' = m_live r' ->
  (if s_live o'
   then sub_ok (npub m) (zlen (qd (pq e))) (closed (pq e)) (maxl (pq e)) s o' (rget (regs (pq e')) (s_h o')) r'
   else r_used (rget (regs (pq e')) (s_h o')) = false) ->
  Inv e' m'.
Proof.
  intros I EQ EM FL AW GO GO' GM GM' RO OWN LV SO.
  injection EQ as Q1 Q2 Q3 Q4 Q5. injection EM as M1 M2 M3 M4.
  assert (LO : forall k, k <> s -> live_obj e' k = live_obj e k) by (intros k N; apply live_obj_eq, GO', N).
  assert (LS : forall o, live_obj e' s = Some o -> o = o' /\ s_live o' = true).
  { intros o X. apply live_obj_get in X as (X1 & X2). rewrite GO in X1. injection X1 as <-. split; [reflexivity|exact X2]. }
  constructor.
  - rewrite M1. eapply Gq_same; [apply (i_g _ _ I)|assumption..].
  - rewrite M3, M4, Q4, Q5. apply (i_mm _ _ I).
  - rewrite Q3, M2. apply (i_cl _ _ I).
  - exact FL.
  - exact AW.
  - intros k. destruct (Nat.eq_dec k s) as [->|N].
    + rewrite GO, GM. split; discriminate.
    + rewrite GO', GM' by exact N. apply (i_none _ _ I).
  - intros k o r G1 G2. destruct (Nat.eq_dec k s) as [->|N].
    + rewrite GO in G1. rewrite GM in G2. injection G1 as <-. injection G2 as <-. exact LV.
    + rewrite GO' in G1 by exact N. rewrite GM' in G2 by exact N. apply (i_live _ _ I k); assumption.
  - intros k o r L G2. unfold npub. rewrite M1, Q1, Q3, Q5. fold (npub m). destruct (Nat.eq_dec k s) as [->|N].
    + destruct (LS o L) as (-> & SL). rewrite GM in G2. injection G2 as <-. rewrite SL in SO. exact SO.
    + rewrite LO in L by exact N. rewrite GM' in G2 by exact N.
      rewrite RO by (intros E; apply N, (OWN k o L), E). apply (i_sub _ _ I k); assumption.
  - intros s1 s2 o1 o2 L1 L2 E.
    destruct (Nat.eq_dec s1 s) as [->|N1], (Nat.eq_dec s2 s) as [->|N2]; try reflexivity.
    + destruct (LS o1 L1) as (-> & _). rewrite LO in L2 by exact N2. symmetry. apply (OWN s2 o2 L2). congruence.
    + destruct (LS o2 L2) as (-> & _). rewrite LO in L1 by exact N1. apply (OWN s1 o1 L1). exact E.
    + rewrite LO in L1 by exact N1. rewrite LO in L2 by exact N2. apply (i_inj _ _ I s1 s2 o1 o2); assumption.
  - intros h U. destruct (Nat.eq_dec h (s_h o')) as [->|N].
    + destruct (s_live o') eqn:SL; [|congruence]. exists s, o'. split; [apply live_obj_intro; assumption|reflexivity].
    + rewrite RO in U by exact N. destruct (i_own _ _ I h U) as (k & o & L & E). exists k, o. split; [|exact E].
      rewrite LO; [exact L|]. intros ->. apply N. rewrite <- E. apply (OWN s o L). reflexivity.
Qed.

(* an operation of subscriber s that writes only its own registration and its own record *)
Lemma local_R e m s o r l' r' na :
  good_b m = true -> Inv e m -> live_obj e s = Some o -> get (m_subs m) s = Some r -> m_live r' = true ->
  rec_good_b (m_log m) (Some r') = true ->
  sub_ok (npub m) (zlen (qd (pq e))) (closed (pq e)) (maxl (pq e)) s o l' r' ->
  once [] (flat_map awt_of (set_nth (regs (pq e)) (s_h o) l')) na ->
  R (mkT (set_reg (pq e) (s_h o) l') (objs e) na (palive e)) (set_sub m s r').
Proof.
  intros GD I L G LV GR SO AW. split; [apply good_set_sub; assumption|right].
  destruct (inv_sub _ _ _ _ I L) as (_ & _ & _ & HL & (U & _)).
  pose proof (live_obj_get _ _ _ L) as (GO & SL).
  apply Inv_update with (e := e) (m := m) (s := s) (o' := o) (r' := r');
    cbn [pq objs nawt set_reg with_regs regs next_free set_sub m_subs]; try reflexivity; try assumption.
  - destruct (i_fl _ _ I) as (fl & F). exists fl. apply freelist_set_other; [exact F|].
    intros K. pose proof (freelist_unused _ _ _ F _ K). congruence.
  - apply get_put_same.
  - intros k N. apply get_put_other. congruence.
  - intros k N. apply rget_set_other. congruence.
  - apply (own_slot e m); assumption.
  - congruence.
  - rewrite SL, rget_set_same by exact HL. exact SO.
Qed.

Lemma same_R e m s o r r' :
  good_b m = true -> Inv e m -> live_obj e s = Some o -> get (m_subs m) s = Some r -> m_live r' = true ->
  rec_good_b (m_log m) (Some r') = true ->
  sub_ok (npub m) (zlen (qd (pq e))) (closed (pq e)) (maxl (pq e)) s o (rget (regs (pq e)) (s_h o)) r' ->
  R e (set_sub m s r').
Proof.
  intros GD I L G LV GR SO. destruct (inv_sub _ _ _ _ I L) as (_ & _ & _ & HL & _).
  replace e with (mkT (set_reg (pq e) (s_h o) (rget (regs (pq e)) (s_h o))) (objs e) (nawt e) (palive e)) at 1
    by (rewrite set_reg_same by exact HL; destruct e; reflexivity).
  apply (local_R e m s o r); try assumption.
  apply once_set; [apply (i_awt _ _ I)|right; reflexivity].
Qed.

Lemma reg_eta x : mkReg (r_pos x) (r_sub x) (r_awt x) (r_used x) (r_kicked x) = x.
Proof. destruct x; reflexivity. Qed.

Lemma set_reg_pos_same q h : (h < length (regs q))%nat -> set_reg q h (with_pos (rget (regs q) h) (r_pos (rget (regs q) h))) = q.
Proof. intros H. unfold with_pos. rewrite reg_eta. apply set_reg_same. exact H. Qed.

Lemma pos_of_set_reg q h x : (h < length (regs q))%nat -> pos_of (set_reg q h x) h = r_pos x.
Proof. intros H. unfold pos_of, set_reg, with_regs. cbn [regs]. rewrite rget_set_same by exact H. reflexivity. Qed.

(* what advance_lk and get_value_lk can write, whatever the positions *)
Definition moved (q : pubq) (h : nat) (q' : pubq) : Prop :=
  q' = q \/ exists np, q' = set_reg q h (with_pos (rget (regs q) h) np).

Lemma advance_lk_moved q h t : moved q h (fst (advance_lk q h t)).
Proof.
  unfold advance_lk. cbv zeta. destruct (r_kicked _); [left; reflexivity|].
  destruct (_ && _); [left; reflexivity|]. right. eexists. reflexivity.
Qed.

Lemma get_value_lk_moved q h t : moved q h (fst (get_value_lk q h t)).
Proof.
  assert (X : forall i np, moved q h (fst match qidx (qd q) i with
                                          | GVal v => (set_reg q h (with_pos (rget (regs q) h) np), GVal v)
                                          | g => (q, g)
                                          end)).
  { intros i np. destruct (qidx (qd q) i); [right; eexists; reflexivity|left; reflexivity..]. }
  unfold get_value_lk. cbv zeta. destruct (_ || _); [left; reflexivity|].
  destruct (t =? 1); [destruct (_ <=? _); [apply X|left; reflexivity]|].
  destruct (t =? 2); [apply X|]. destruct (_ <=? _); left; reflexivity.
Qed.

Lemma moved_frame q h q' k : moved q h q' -> k <> h -> rget (regs q') k = rget (regs q) k.
Proof. intros [->|(np & ->)] N; [reflexivity|]. apply rget_set_other. congruence. Qed.

Lemma moved_once woken q h q' b : moved q h q' -> once woken (flat_map awt_of (regs q)) b -> once woken (flat_map awt_of (regs q')) b.
Proof. intros [->|(np & ->)] H; [exact H|]. apply once_set; [exact H|right; reflexivity]. Qed.

Lemma advance_suspend_writes q h a :
  fst (advance_suspend_lk q h a) = q \/
  exists x, fst (advance_suspend_lk q h a) = set_reg q h x /\ (awt_of x = awt_of (rget (regs q) h) \/ awt_of x = [a]).
Proof.
  unfold advance_suspend_lk. cbv zeta. destruct (r_kicked _); [left; reflexivity|right].
  destruct (closed q); [eexists; split; [reflexivity|left; reflexivity]|].
  destruct (_ =? _); eexists; (split; [reflexivity|]); [right|left]; reflexivity.
Qed.

(* the specifications of the three locked steps of next() are for positions below 2^62, where no size_t expression wraps *)
Lemma advance_lk_spec q h t (l := rget (regs q) h) :
  (h < length (regs q))%nat -> 0 <= r_pos l < HALF -> zlen (qd q) < qpos q < HALF ->
  exists np b, advance_lk q h t = (set_reg q h (with_pos l np), b) /\
    if b then r_kicked l = false /\ ~ (r_pos l + 1 = qpos q /\ closed q = false) /\
              np = (if t =? 1 then Z.max (r_pos l + 1) (qpos q - zlen (qd q))
                    else if t =? 2 then Z.max (r_pos l + 1) (qpos q - 1) else r_pos l + 1)
    else np = r_pos l.
Proof.
  intros H RG Q. assert (HW : HALF < W) by reflexivity. pose proof (zlen_nonneg (qd q)) as QN.
  unfold advance_lk. fold l.
  rewrite (wrap_small (r_pos l + 1)), (wrap_small (qpos q - zlen (qd q))), (wrap_small (qpos q - 1)) by lia.
  destruct (r_kicked l) eqn:K; [|destruct ((r_pos l + 1 =? qpos q) && negb (closed q)) eqn:E].
  - exists (r_pos l), false. unfold l. rewrite set_reg_pos_same by exact H. split; reflexivity.
  - exists (r_pos l), false. unfold l. rewrite set_reg_pos_same by exact H. split; reflexivity.
  - eexists _, true. split; [reflexivity|]. split; [reflexivity|]. split; [|reflexivity].
    intros [A B]. rewrite B in E. cbn in E. lia.
Qed.

Lemma step_ready e m s : good_b m = true -> m_viol m = false -> Inv e m ->
  R (fst (step e (OReady s))) (mon_step m (OReady s) (snd (step e (OReady s)))).
Proof.
  intros G V I. unfold step, step_gen.
  destruct (free_obj e s) as [o|] eqn:F; [|apply R_rejected; assumption].
  pose proof (free_live _ _ _ F) as L.
  destruct (inv_sub _ _ _ _ I L) as (r & Gr & LV & HL & SO).
  pose proof SO as (U & SB & MD & VM & KK & CU & RG & AW & PO).
  pose proof (good_rec _ _ _ G Gr) as GR.
  pose proof (i_g _ _ I) as [G1 G2 G3 G4 G5 G6]. pose proof (win_len _ _ G5) as WL. fold (npub m) in *.
  pose proof (zlen_nonneg (qd (pq e))) as QN.
  destruct (advance_lk_spec (pq e) (s_h o) (s_mode o) HL RG ltac:(lia)) as (np & b & E & SP).
  set (l := rget (regs (pq e)) (s_h o)) in *.
  rewrite E. cbn [fst snd]. rewrite (pos_of_set_reg _ _ _ HL). unfold with_pq. cbn [pq objs nawt palive r_pos with_pos].
  unfold mon_step. rewrite V. cbn [o_st ok3 Z.eqb negb o_a o_b]. rewrite Gr, LV. cbn [negb orb].
  destruct (idle_pc (m_pc r)) eqn:IP; cbn [negb orb]; [|apply R_viol; exact G].
  destruct (HALF <=? np) eqn:HB; [apply R_viol; exact G|].
  assert (NP : if b then r_pos l + 1 <= np /\ (s_mode o = 0 -> np = r_pos l + 1) /\
                         (r_pos l <= npub m -> np <= npub m + 1) /\
                         (np = npub m + 1 -> r_pos l <= npub m -> closed (pq e) = true)
               else np = r_pos l).
  { destruct b; [|exact SP]. destruct SP as (_ & C & ->). rewrite G3 in C |- *.
    destruct (closed (pq e)), (s_mode o =? 1) eqn:T1, (s_mode o =? 2) eqn:T2; cbv iota; lia. }
  apply local_R with (r := r); [exact G|exact I|exact L|exact Gr|reflexivity|exact GR| |].
  - unfold sub_ok. splits; simp_rec; try assumption; try lia.
    + destruct b; lia.
    + rewrite AW. destruct (m_pc r); try discriminate; destruct b; reflexivity.
    + intros EO. specialize (PO EO). rewrite <- MD in NP. destruct b; cbn [b2z Z.eqb].
      * destruct NP as (N1 & N2 & N3 & N4).
        apply (pos_ok_advance _ _ _ _ l r); cbn [r_pos with_pos]; try assumption; try reflexivity; try lia.
        intros _. exact N4.
      * apply (pos_ok_idle _ _ _ _ l r); try assumption; try reflexivity.
  - apply once_set; [apply (i_awt _ _ I)|right; reflexivity].
Qed.

Lemma advance_suspend_spec q h a (l := rget (regs q) h) :
  (h < length (regs q))%nat -> 0 <= r_pos l < HALF ->
  let park := negb (r_kicked l) && negb (closed q) && (r_pos l + 1 =? qpos q) in
  advance_suspend_lk q h a =
    (set_reg q h (mkReg (if r_kicked l then r_pos l else r_pos l + 1) (r_sub l) (if park then Some a else r_awt l)
                        (r_used l) (r_kicked l)), park).
Proof.
  intros H RG. cbv zeta. assert (HW : HALF < W) by reflexivity.
  unfold advance_suspend_lk. fold l. cbn [r_pos with_pos]. rewrite (wrap_small (r_pos l + 1)) by lia.
  destruct (r_kicked l) eqn:K; cbn [negb andb].
  - rewrite <- K, reg_eta. unfold l. rewrite set_reg_same by exact H. reflexivity.
  - unfold with_awt, with_pos. cbn [r_pos r_sub r_awt r_used r_kicked]. rewrite K.
    destruct (closed q); cbn [negb andb]; [reflexivity|]. destruct (r_pos l + 1 =? qpos q); reflexivity.
Qed.

Lemma step_suspend e m s : good_b m = true -> m_viol m = false -> Inv e m ->
  R (fst (step e (OSuspend s))) (mon_step m (OSuspend s) (snd (step e (OSuspend s)))).
Proof.
  intros G V I. unfold step, step_gen.
  destruct (free_obj e s) as [o|] eqn:F; [|apply R_rejected; assumption].
  pose proof (free_live _ _ _ F) as L.
  destruct (inv_sub _ _ _ _ I L) as (r & Gr & LV & HL & SO).
  pose proof SO as (U & SB & MD & VM & KK & CU & RG & AW & PO).
  pose proof (good_rec _ _ _ G Gr) as GR.
  pose proof (g_pos _ _ (i_g _ _ I)) as G3. fold (npub m) in G3.
  rewrite (advance_suspend_spec _ _ (nawt e) HL RG).
  set (l := rget (regs (pq e)) (s_h o)) in *.
  set (park := negb _ && _ && _). set (l' := mkReg _ _ _ _ _).
  cbn [fst snd]. rewrite (pos_of_set_reg _ _ _ HL).
  unfold mon_step. rewrite V. cbn [o_st ok3 Z.eqb negb o_a o_b o_c]. rewrite Gr.
  destruct (m_pc r) eqn:PC; try (apply R_viol; exact G). rewrite LV. cbn [negb orb].
  destruct (HALF <=? r_pos l') eqn:HB; [apply R_viol; exact G|].
  cbn [awt_pc] in AW.
  apply local_R with (r := r); [exact G|exact I|exact L|exact Gr|reflexivity|exact GR| |].
  - unfold sub_ok. subst l'. splits; simp_rec; try assumption; try lia.
    + destruct (r_kicked l); lia.
    + destruct park; [reflexivity|exact AW].
    + intros EO. specialize (PO EO). subst park. rewrite G3.
      destruct (r_kicked l) eqn:K; cbn [negb andb b2z Z.eqb].
      * rewrite <- KK. apply (pos_ok_kicked _ _ _ _ l r); [exact PO|discriminate|reflexivity].
      * apply (pos_ok_advance _ _ _ _ l r); cbn [r_pos]; try assumption; try lia.
        -- rewrite PC. reflexivity.
        -- destruct (negb (closed (pq e)) && (r_pos l + 1 =? npub m + 1)); reflexivity.
        -- (* it parks exactly when it has read everything and the stream is open *)
           destruct (closed (pq e)); [reflexivity|]. cbn [negb andb]. intros PA E1.
           rewrite (proj2 (Z.eqb_eq _ _) E1) in PA. discriminate.
  - subst l'. destruct park.
    + apply once_set_fresh; [exact HL|apply (i_awt _ _ I)|reflexivity].
    + apply once_mono with (b := nawt e); [|lia]. apply once_set; [apply (i_awt _ _ I)|right; reflexivity].
Qed.

Lemma qidx_val lg qd i v : win lg qd -> qidx qd i = GVal v -> 0 <= i < zlen qd /\ v = nthz lg (zlen lg - 1 - i).
Proof.
  intros WN. unfold qidx. destruct ((0 <=? i) && (i <? zlen qd)) eqn:E; [|discriminate].
  assert (RR : 0 <= i < zlen qd) by lia. rewrite (win_nth _ _ _ WN RR). intros H. injection H as <-. split; [exact RR|reflexivity].
Qed.

Lemma qidx_not_eos qd i : qidx qd i <> GEos.
Proof. unfold qidx. destruct ((0 <=? i) && (i <? zlen qd)); [|discriminate]. destruct (nth_error qd (Z.to_nat i)); discriminate. Qed.

Lemma contig_b_cons start lg p v k d :
  contig_b start lg ((p, v, k) :: d) =
  ((p =? start + zlen ((p, v, k) :: d)) && (1 <=? p) && (p <=? zlen lg) && (v =? nthz lg (p - 1)) && contig_b start lg d).
Proof. reflexivity. Qed.

Lemma incr_b_cons start p v k d : incr_b start ((p, v, k) :: d) = ((last_pos start d <? p) && incr_b start d).
Proof. reflexivity. Qed.

(* what get_value_lk does, for a registration whose position is in range *)
Inductive gv_spec (q : pubq) (h : nat) (t : Z) : pubq * gres -> Prop :=
| gv_eos : r_kicked (rget (regs q) h) = true \/ qpos q <= r_pos (rget (regs q) h) \/
           (t = 0 /\ zlen (qd q) <= qpos q - r_pos (rget (regs q) h) - 1) -> gv_spec q h t (q, GEos)
| gv_ub : gv_spec q h t (q, GUb)
| gv_val v np : r_kicked (rget (regs q) h) = false -> r_pos (rget (regs q) h) <= np < qpos q ->
           (t = 0 -> np = r_pos (rget (regs q) h)) -> (t = 2 -> np = qpos q - 1) ->
           qidx (qd q) (qpos q - np - 1) = GVal v ->
           gv_spec q h t (set_reg q h (with_pos (rget (regs q) h) np), GVal v).

Lemma get_value_spec q h t : (h < length (regs q))%nat -> (t = 0 \/ t = 1 \/ t = 2) ->
  0 <= r_pos (rget (regs q) h) < HALF -> 1 <= qpos q < HALF -> zlen (qd q) < HALF -> gv_spec q h t (get_value_lk q h t).
Proof.
  intros H T RG QP QL. unfold get_value_lk. set (l := rget (regs q) h) in *.
  assert (HW : HALF < W) by reflexivity. pose proof (zlen_nonneg (qd q)) as QN.
  destruct (r_kicked l || (qpos q <=? r_pos l)) eqn:GD.
  { apply gv_eos. fold l. apply orb_prop in GD as [K|K]; [left; exact K|right; left; lia]. }
  apply orb_false_elim in GD as (K & PE).
  rewrite (wrap_small (qpos q - r_pos l - 1)) by lia.
  assert (OWN : t <> 2 -> gv_spec q h t (q, qidx (qd q) (qpos q - r_pos l - 1))).
  { intros T2. destruct (qidx (qd q) (qpos q - r_pos l - 1)) eqn:QI.
    - rewrite <- (set_reg_pos_same q h H) at 2. apply gv_val; fold l; try assumption; try lia.
    - exfalso. eapply qidx_not_eos. exact QI.
    - apply gv_ub. }
  destruct T as [ -> | [ -> | -> ] ]; cbn [Z.eqb].
  - destruct (zlen (qd q) <=? qpos q - r_pos l - 1) eqn:C; [|apply OWN; lia].
    apply gv_eos. fold l. right; right. split; [reflexivity|lia].
  - destruct (zlen (qd q) <=? qpos q - r_pos l - 1) eqn:C; [|apply OWN; lia].
    destruct (qidx (qd q) (wrap (zlen (qd q) - 1))) eqn:QI.
    + assert (Z1 : 1 <= zlen (qd q)).
      { unfold qidx in QI. destruct ((0 <=? wrap (zlen (qd q) - 1)) && (wrap (zlen (qd q) - 1) <? zlen (qd q))) eqn:RR; [|discriminate].
        destruct (Z_lt_ge_dec (zlen (qd q) - 1) 0) as [N|N]; [|lia]. rewrite wrap_neg in RR by lia. lia. }
      rewrite (wrap_small (zlen (qd q) - 1)) in * by lia.
      rewrite (wrap_small (qpos q - (zlen (qd q) - 1) - 1)) by lia.
      apply gv_val; fold l; try assumption; try lia.
      replace (qpos q - (qpos q - (zlen (qd q) - 1) - 1) - 1) with (zlen (qd q) - 1) by lia. exact QI.
    + exfalso. eapply qidx_not_eos. exact QI.
    + apply gv_ub.
  - destruct (qidx (qd q) 0) eqn:QI.
    + rewrite (wrap_small (qpos q - 1)) by lia.
      apply gv_val; fold l; try assumption; try lia.
      replace (qpos q - (qpos q - 1) - 1) with 0 by lia. exact QI.
    + exfalso. eapply qidx_not_eos. exact QI.
    + apply gv_ub.
Qed.

Lemma step_get e m s : good_b m = true -> m_viol m = false -> Inv e m ->
  R (fst (step e (OGet s))) (mon_step m (OGet s) (snd (step e (OGet s)))).
Proof.
  intros G V I. unfold step, step_gen.
  destruct (free_obj e s) as [o|] eqn:F; [|apply R_rejected; assumption].
  pose proof (free_live _ _ _ F) as L.
  destruct (inv_sub _ _ _ _ I L) as (r & Gr & LV & HL & SO).
  pose proof SO as (U & SB & MD & VM & KK & CU & RG & AW & PO).
  pose proof (good_rec _ _ _ G Gr) as GR. unfold rec_good_b in GR.
  pose proof (i_g _ _ I) as [G1 G2 G3 G4 G5 G6]. fold (npub m) in *.
  pose proof (win_len _ _ G5) as WL. fold (npub m) in WL.
  pose proof (zlen_nonneg (m_deliv r)) as DN. pose proof (zlen_nonneg (m_log m)) as LN. fold (npub m) in LN.
  pose proof (get_value_spec (pq e) (s_h o) (s_mode o) HL (valid_mode_cases _ VM) RG ltac:(lia) ltac:(lia)) as SP.
  destruct SP as [HE | | v np K NP T0 T2 QI]; set (l := rget (regs (pq e)) (s_h o)) in *; cbn [fst snd];
    rewrite ?with_pq_same; unfold mon_step; rewrite V;
    cbn [o_st ok3 ub_obs Z.eqb negb o_a o_b o_c]; try (apply R_viol; exact G);
    rewrite Gr; destruct (m_pc r) eqn:PC; try (apply R_viol; exact G); rewrite LV; cbn [negb]; cbn [awt_pc] in AW.
  - (* end of stream: nothing is written *)
    destruct (m_eos r) eqn:EO.
    { apply same_R with (o := o) (r := r); [exact G|exact I|exact L|exact Gr|exact LV| |].
      + unfold with_pc, rec_good_b. cbn [m_mode m_start m_deliv m_eos m_eos_ok m_lost]. rewrite EO. exact GR.
      + fold l. unfold sub_ok. splits; simp_rec; try assumption; try reflexivity; try lia. all: intros; try discriminate; try congruence. }
    specialize (PO eq_refl).
    assert (EOK : m_kicked r || m_lost r ||
                  (m_closed m && (if m_mode r =? 0 then consumed r =? npub m else m_cur r =? npub m + 1)) = true).
    { destruct (m_kicked r) eqn:K; [reflexivity|]. destruct (m_lost r) eqn:LS; [reflexivity|]. cbn [orb].
      destruct (pos_ok_drained _ _ _ _ l r PO PC K LS) as (CL & DR).
      { rewrite G3 in HE. destruct HE as [HE|[HE|(HE1 & HE2)]]; [congruence|left; lia|right; split; [congruence|lia]]. }
      rewrite <- (i_cl _ _ I), CL, CU. revert DR. destruct (m_mode r =? 0); intros DR; cbn [andb]; lia. }
    apply same_R with (o := o) (r := r); [exact G|exact I|exact L|exact Gr|reflexivity| |].
    + unfold rec_good_b. cbn [m_mode m_start m_deliv m_eos m_eos_ok m_lost].
      apply andb_prop in GR as (GR1 & GR2). rewrite GR1. cbn [negb orb andb]. exact EOK.
    + fold l. unfold sub_ok. splits; simp_rec; try assumption; try reflexivity; try lia. all: intros; try discriminate; try congruence.
  - (* the value published at position np, where the reader now stands *)
    rewrite (pos_of_set_reg _ _ _ HL). unfold with_pq. cbn [pq objs nawt palive r_pos with_pos].
    destruct (HALF <=? np) eqn:HB; [apply R_viol; exact G|].
    rewrite G3 in *.
    apply (qidx_val _ _ _ _ G5) in QI as (IR & VE). fold (npub m) in VE.
    replace (npub m - 1 - (npub m + 1 - np - 1)) with (np - 1) in VE by lia.
    assert (AK : once [] (flat_map awt_of (set_nth (regs (pq e)) (s_h o) (with_pos l np))) (nawt e))
      by (apply once_set; [apply (i_awt _ _ I)|right; reflexivity]).
    destruct (m_eos r) eqn:EO.
    { apply local_R with (r := r); [exact G|exact I|exact L|exact Gr|reflexivity|exact GR| |exact AK].
      unfold sub_ok. splits; simp_rec; try assumption; try reflexivity; try lia. all: intros; try discriminate; try congruence. }
    specialize (PO eq_refl). assert (KF : m_kicked r = false) by congruence. rewrite KF.
    rewrite <- MD in T0, T2.
    apply R_bad, local_R with (r := r); [exact G|exact I|exact L|exact Gr|reflexivity| | |exact AK].
    + destruct PO as (_ & M0 & M12). rewrite PC in *. simp_rec.
      unfold rec_good_b. cbn [m_mode m_start m_deliv m_eos m_eos_ok negb orb]. rewrite andb_true_r.
      apply andb_prop in GR as (GR1 & _). destruct (m_mode r =? 0) eqn:T.
      * assert (T' : m_mode r = 0) by lia. specialize (T0 T'). subst np.
        destruct (M0 T') as (_ & _ & A3 & _). specialize (A3 eq_refl KF).
        rewrite contig_b_cons, zlen_cons. fold (npub m). rewrite GR1. lia.
      * destruct (M12 ltac:(lia)) as (_ & _ & B3 & _). specialize (B3 eq_refl KF).
        apply andb_prop in GR1 as (GR3 & GR4). rewrite incr_b_cons. cbn [forallb]. rewrite GR3, GR4.
        unfold skipval_b. fold (npub m). destruct (m_mode r =? 2) eqn:M2; [specialize (T2 ltac:(lia))|]; lia.
    + unfold sub_ok. splits; simp_rec; try assumption; try reflexivity; try lia.
      intros _. apply (pos_ok_deliver _ _ _ _ l r); try assumption; try reflexivity; lia.
Qed.

Lemma good_add_bad_f m b : good_b m = true -> b = false -> good_b (add_bad m b) = true.
Proof. intros G ->. apply good_add_bad. exact G. Qed.

Lemma eqlz_refl l : eqlz l l = true.
Proof. induction l as [|x l IH]; cbn; [reflexivity|]. rewrite Z.eqb_refl, IH. reflexivity. Qed.

Lemma with_regs_same q : with_regs q (regs q) = q.
Proof. destruct q; reflexivity. Qed.

Lemma slot_owner e m h : Inv e m -> r_used (rget (regs (pq e)) h) = true ->
  exists s o, live_obj e s = Some o /\ s_h o = h /\ r_sub (rget (regs (pq e)) h) = Z.of_nat s.
Proof.
  intros I U. destruct (i_own _ _ I h U) as (s & o & L & E). exists s, o. split; [exact L|]. split; [exact E|].
  destruct (inv_rec _ _ _ _ I L) as (r & Gr & _). pose proof (i_sub _ _ I s o r L Gr) as (_ & SB & _). rewrite E in SB. exact SB.
Qed.

Lemma sub_slot e m k s : Inv e m -> r_used (rget (regs (pq e)) k) = true -> r_sub (rget (regs (pq e)) k) = Z.of_nat s ->
  exists o, live_obj e s = Some o /\ s_h o = k.
Proof.
  intros I U S. destruct (slot_owner _ _ _ I U) as (s' & o & L & E & SB).
  rewrite SB in S. apply Nat2Z.inj in S. subst s'. exists o. split; assumption.
Qed.

Lemma step_kick e m s : good_b m = true -> m_viol m = false -> Inv e m ->
  R (fst (step e (OKick s))) (mon_step m (OKick s) (snd (step e (OKick s)))).
Proof.
  intros G V I. unfold step, step_gen.
  destruct (get (objs e) s) as [o|] eqn:GO.
  2:{ apply R_rejected; assumption. }
  destruct (palive e || s_live o) eqn:PA.
  2:{ apply R_rejected; assumption. }
  destruct (inv_rec_any _ _ _ _ I GO) as (r & Gr & LV).
  cbn [fst snd]. unfold mon_step. rewrite V. cbn [o_st okw Z.eqb negb o_wk]. rewrite Gr, LV.
  destruct (s_live o) eqn:SL.
  - (* a live subscriber: its registration is marked, its awaiter resumed *)
    pose proof (live_obj_intro _ _ _ GO SL) as L.
    pose proof (i_sub _ _ I s o r L Gr) as (U & SB & MD & VM & KK & CU & RG & AW & PO).
    assert (HL : (s_h o < length (regs (pq e)))%nat) by (apply rget_used_lt; exact U).
    pose proof (good_rec _ _ _ G Gr) as GR. unfold rec_good_b in GR.
    set (l := rget (regs (pq e)) (s_h o)) in *.
    destruct (kick_regs_spec (Z.of_nat s) (regs (pq e))) as [(_ & N)|(h & Lh & Uh & Sh & KR)];
      [exfalso; apply (N (s_h o) HL U SB)|].
    destruct (sub_slot _ _ _ _ I Uh Sh) as (o' & L' & <-). assert (o' = o) by congruence. subst o'. fold l in KR.
    unfold kick_lk. rewrite KR. cbn [fst snd].
    change (with_regs (pq e) (set_nth (regs (pq e)) (s_h o) (mkReg (r_pos l) (r_sub l) None (r_used l) true)))
      with (set_reg (pq e) (s_h o) (mkReg (r_pos l) (r_sub l) None (r_used l) true)).
    assert (EX : eqlz (match m_pc r with PParked a => [a] | _ => [] end) (olist (r_awt l)) = true).
    { rewrite AW. destruct (m_pc r); cbn; try reflexivity. rewrite Z.eqb_refl. reflexivity. }
    rewrite EX. cbn [negb].
    apply R_bad. unfold with_pq. cbn [pq objs nawt palive].
    apply local_R with (r := r); try assumption; try reflexivity.
    + unfold rec_good_b, wake_rec. destruct (m_pc r); cbn [with_pc m_mode m_start m_deliv m_eos m_eos_ok m_lost]; exact GR.
    + unfold sub_ok, wake_rec. destruct (m_pc r) eqn:PC; splits; simp_rec; try assumption; try reflexivity; try lia.
      all: try (rewrite PC; reflexivity).
      all: intros EO; apply (pos_ok_kicked _ _ _ _ l r); [exact (PO EO)|rewrite PC; cbn [idle_pc]; congruence|reflexivity].
    + apply once_set; [apply (i_awt _ _ I)|left; reflexivity].
  - (* an already destroyed subscriber: no registration matches *)
    destruct (kick_regs_spec (Z.of_nat s) (regs (pq e))) as [(KR & _)|(h & Lh & Uh & Sh & _)].
    2:{ destruct (sub_slot _ _ _ _ I Uh Sh) as (o' & L' & _). apply live_obj_get in L' as (L1 & L2). congruence. }
    unfold kick_lk. rewrite KR. cbn [fst snd olist eqlz negb]. rewrite with_regs_same, with_pq_same.
    apply R_bad, R_same; assumption.
Qed.

Lemma step_position e m s : good_b m = true -> m_viol m = false -> Inv e m ->
  R (fst (step e (OPosition s))) (mon_step m (OPosition s) (snd (step e (OPosition s)))).
Proof.
  intros G V I. unfold step, step_gen.
  destruct (live_obj e s) as [o|] eqn:L.
  2:{ apply R_rejected; assumption. }
  destruct (inv_sub _ _ _ _ I L) as (r & Gr & LV & _ & (_ & _ & _ & _ & _ & CU & _)).
  cbn [fst snd]. unfold mon_step. rewrite V. cbn [o_st ok3 Z.eqb negb o_a]. rewrite Gr, LV. cbn [negb].
  unfold pos_of. rewrite CU, Z.eqb_refl. cbn [negb].
  apply R_bad, R_same; assumption.
Qed.

Lemma freelist_map_clear rs nf fl : freelist rs nf fl -> freelist (map clear_reg rs) nf fl.
Proof.
  assert (CU : forall x, r_used (clear_reg x) = r_used x) by (intros x; unfold clear_reg; destruct (r_used x) eqn:E; cbn; congruence).
  assert (CP : forall x, r_pos (clear_reg x) = r_pos x) by (intros x; unfold clear_reg; destruct (r_used x); reflexivity).
  induction 1 as [|h t L U N F IH].
  - replace (zlen rs) with (zlen (map clear_reg rs)) by apply zlen_map. constructor.
  - constructor; [rewrite map_length; exact L|rewrite rget_map_clear, CU; exact U|exact N|].
    rewrite rget_map_clear, CP. exact IH.
Qed.

(* in every state related to the monitor by Inv, the list push_lk resumes is exactly the set of parked awaiters, each once *)
Theorem wake_list_exact e m : Inv e m -> wake_all_ok (m_subs m) (flat_map wake_of (regs (pq e))) = true.
Proof.
  intros I. pose proof (i_awt _ _ I) as (AN & AB).
  unfold wake_all_ok. apply andb_true_intro. split; [apply andb_true_intro; split|].
  - apply nodup_b_NoDup. pose proof (Permutation_NoDup (push_perm _) AN) as N.
    apply NoDup_app_comm, NoDup_app_r in N. exact N.
  - apply forallb_forall. intros a Ia. apply in_flat_map_rget in Ia as (h & Lh & Ia).
    unfold wake_of in Ia. destruct (r_used (rget (regs (pq e)) h)) eqn:U; [|destruct Ia].
    destruct (slot_owner _ _ _ I U) as (s & o & L & E & SB).
    destruct (inv_rec _ _ _ _ I L) as (r & Gr & LV).
    pose proof (i_sub _ _ I s o r L Gr) as (_ & _ & _ & _ & _ & _ & _ & AW & _). rewrite E in AW.
    apply existsb_exists. exists (Some r). split; [apply get_In with (s := s); exact Gr|].
    unfold parked_on. rewrite LV. cbn [andb]. destruct (m_pc r); cbn [awt_pc] in AW; rewrite AW in Ia; cbn in Ia; try tauto.
    destruct Ia as [<-|[]]. apply Z.eqb_refl.
  - apply forallb_forall. intros [r|] Ir; [|reflexivity]. unfold parked_in.
    destruct (m_live r) eqn:LV; [|reflexivity]. destruct (m_pc r) eqn:PC; try reflexivity.
    apply In_get in Ir as (s & Gr).
    destruct (get (objs e) s) as [o|] eqn:GO; [|apply (i_none _ _ I) in GO; congruence].
    pose proof (i_live _ _ I s o r GO Gr) as SL. rewrite LV in SL.
    pose proof (live_obj_intro _ _ _ GO SL) as L.
    pose proof (i_sub _ _ I s o r L Gr) as (U & _ & _ & _ & _ & _ & _ & AW & _). rewrite PC in AW. cbn [awt_pc] in AW.
    apply memz_In. apply in_flat_map_rget. exists (s_h o). split; [apply rget_used_lt; exact U|].
    unfold wake_of. rewrite U, AW. left. reflexivity.
Qed.

Lemma get_map {A B} (f : A -> B) l s : get (map (option_map f) l) s = option_map f (get l s).
Proof.
  unfold get. rewrite nth_error_map. destruct (nth_error l s) as [[x|]|]; reflexivity.
Qed.

Lemma nthz_app lg vs i : 0 <= i < zlen lg -> nthz (lg ++ vs) i = nthz lg i.
Proof. intros H. unfold nthz. apply app_nth1. unfold zlen in H. lia. Qed.

Lemma contig_ext start lg vs d : contig_b start lg d = true -> contig_b start (lg ++ vs) d = true.
Proof.
  induction d as [|[[p v] k] d IH]; [reflexivity|]. rewrite !contig_b_cons. intros H.
  apply andb_prop in H as (H & H5). apply andb_prop in H as (H & H4). apply andb_prop in H as (H & H3).
  apply andb_prop in H as (H1 & H2).
  rewrite IH by exact H5. rewrite H1, H2. rewrite zlen_app. pose proof (zlen_nonneg vs).
  rewrite nthz_app by lia. rewrite H4. cbn. rewrite andb_true_r. lia.
Qed.

Lemma skipval_ext t lg vs x : skipval_b t lg x = true -> skipval_b t (lg ++ vs) x = true.
Proof.
  destruct x as [[p v] k]. unfold skipval_b. intros H. rewrite zlen_app. pose proof (zlen_nonneg vs).
  apply andb_prop in H as (H & H5). apply andb_prop in H as (H & H4). apply andb_prop in H as (H & H3).
  apply andb_prop in H as (H1 & H2).
  rewrite nthz_app by lia. rewrite H1, H2, H4, H5. cbn [andb]. rewrite andb_true_r. lia.
Qed.

Lemma rec_good_ext lg vs r r' : m_mode r' = m_mode r -> m_start r' = m_start r -> m_deliv r' = m_deliv r ->
  m_eos r' = m_eos r -> m_eos_ok r' = m_eos_ok r ->
  rec_good_b lg (Some r) = true -> rec_good_b (lg ++ vs) (Some r') = true.
Proof.
  intros E1 E2 E3 E4 E5. unfold rec_good_b. rewrite E1, E2, E3, E4, E5. intros H.
  apply andb_prop in H as (H1 & H2). rewrite H2, andb_true_r.
  destruct (m_mode r =? 0); [apply contig_ext; exact H1|].
  apply andb_prop in H1 as (H3 & H4). rewrite H3. cbn [andb].
  rewrite forallb_forall in *. intros x Ix. apply skipval_ext. apply H4. exact Ix.
Qed.

Definition wk (n mx : Z) (r : srec) : srec := lag_rec n mx (wake_rec r).

Lemma wk_eq n mx r :
  wk n mx r = mkSr (m_live r) (m_mode r) (match m_pc r with PIdle => PIdle | PRF => PRF | PAdv | PParked _ => PAdv end)
                   (m_start r) (m_cur r) (m_deliv r) (m_eos r) (m_eos_ok r) (m_kicked r)
                   (m_lost r || ((m_mode r =? 0) && (mx <? n - consumed r))).
Proof.
  unfold wk, lag_rec, wake_rec, consumed. destruct r as [lv md p st cu dl eo ek ki lo]. cbn [m_pc].
  destruct p; cbn [with_pc m_mode m_start m_deliv]; destruct ((md =? 0) && (mx <? n - (st + zlen dl)));
    cbn; rewrite ?orb_true_r, ?orb_false_r; reflexivity.
Qed.

Lemma wake_R e m vs cl pa :
  good_b m = true -> Inv e m -> npub m + zlen vs + 1 < HALF ->
  (vs <> [] /\ cl = closed (pq e)) \/ (vs = [] /\ cl = true) ->
  let q0 := mkQ (regs (pq e)) (next_free (pq e)) (rev vs ++ qd (pq e)) (qpos (pq e)) cl (minl (pq e)) (maxl (pq e)) in
  let m' := mon_wake_all m (m_log m ++ vs) cl (snd (push_lk q0 (zlen vs))) in
  R (mkT (fst (push_lk q0 (zlen vs))) (objs e) (nawt e) pa) m'.
Proof.
  intros G I HB CS q0 m'.
  set (qc := mkQ (regs (pq e)) (next_free (pq e)) (qd (pq e)) (qpos (pq e)) cl (minl (pq e)) (maxl (pq e))).
  assert (GC : Gq (m_log m) qc) by (eapply Gq_same; [apply (i_g _ _ I)|reflexivity..]).
  destruct (push_lk_spec (m_log m) qc vs GC HB) as (G' & RE & NF & CE & MN & MX & QL & WE).
  change (mkQ (regs qc) (next_free qc) (rev vs ++ qd qc) (qpos qc) (closed qc) (minl qc) (maxl qc)) with q0 in *.
  cbn [regs next_free closed minl maxl qd qc] in RE, NF, CE, MN, MX, QL, WE.
  set (q' := fst (push_lk q0 (zlen vs))) in *.
  pose proof (i_g _ _ I) as [G1 G2 G3 G4 G5 G6]. fold (npub m) in *.
  pose proof (zlen_nonneg vs) as VN. pose proof (zlen_nonneg (qd (pq e))) as QN.
  assert (HW : HALF < W) by reflexivity.
  assert (VC : vs <> [] -> 1 <= zlen vs).
  { destruct vs; [congruence|]. intros _. rewrite zlen_cons. pose proof (zlen_nonneg vs). lia. }
  pose proof (i_mm _ _ I) as (MM1 & MM2).
  set (n' := npub m + zlen vs) in *.
  assert (NL : zlen (m_log m ++ vs) = n') by (rewrite zlen_app; reflexivity).
  assert (SUBS : m_subs m' = map (option_map (wk n' (m_max m))) (m_subs m)).
  { unfold m', mon_wake_all. cbn [m_subs]. rewrite NL. reflexivity. }
  pose proof (wake_list_exact e m I) as WOK.
  split.
  - (* the judgement *)
    unfold good_b. rewrite SUBS. unfold m', mon_wake_all. cbn [m_bad m_log].
    rewrite WE, WOK. cbn [negb]. rewrite orb_false_r.
    unfold good_b in G. apply andb_prop in G as (GB & GS). rewrite GB. cbn [andb].
    apply forallb_forall. intros x Ix. apply in_map_iff in Ix as ([r|] & <- & Ir); [|reflexivity].
    cbn [option_map]. rewrite forallb_forall in GS. specialize (GS _ Ir).
    rewrite wk_eq. apply (rec_good_ext _ _ r); try reflexivity. exact GS.
  - right. constructor; cbn [pq objs nawt palive]; fold q'.
    + exact G'.
    + unfold m', mon_wake_all. cbn [m_min m_max]. rewrite MN, MX. split; assumption.
    + unfold m', mon_wake_all. cbn [m_closed]. exact CE.
    + destruct (i_fl _ _ I) as (fl & FL). exists fl. rewrite RE, NF. apply freelist_map_clear. exact FL.
    + apply (once_stored _ _ _ (push_once [] q0 (zlen vs) (nawt e) (i_awt _ _ I))).
    + intros s. rewrite SUBS, get_map. destruct (get (m_subs m) s) eqn:E; cbn [option_map].
      * split; [intros X; apply (i_none _ _ I) in X; congruence|discriminate].
      * split; [reflexivity|intros _; apply (i_none _ _ I); exact E].
    + intros s o r GO Gr. rewrite SUBS, get_map in Gr. destruct (get (m_subs m) s) as [r0|] eqn:E; [|discriminate].
      cbn [option_map] in Gr. injection Gr as <-.
      rewrite wk_eq. apply (i_live _ _ I s o r0 GO E).
    + intros s o r L Gr. change (live_obj e s = Some o) in L.
      rewrite SUBS, get_map in Gr. destruct (get (m_subs m) s) as [r0|] eqn:E; [|discriminate].
      cbn [option_map] in Gr. injection Gr as <-.
      pose proof (i_sub _ _ I s o r0 L E) as (U & SB & MD & VM & KK & CU & RG & AW & PO).
      set (l := rget (regs (pq e)) (s_h o)) in *.
      rewrite RE, rget_map_clear. fold l.
      assert (CLR : clear_reg l = with_awt l None) by (unfold clear_reg; rewrite U; reflexivity).
      rewrite CLR. unfold npub. unfold m' at 1, mon_wake_all at 1. cbn [m_log]. rewrite NL. rewrite CE, MX.
      rewrite wk_eq. unfold sub_ok. cbn [with_awt r_used r_sub r_kicked r_pos r_awt m_mode m_cur m_kicked m_pc m_eos].
      splits; try assumption; try lia.
      * destruct (m_pc r0); reflexivity.
      * intros EO. rewrite MM2. apply (pos_ok_wake (npub m) _ (zlen (qd (pq e))) _ (closed (pq e)) _ _ l r0).
        -- exact (PO EO).
        -- reflexivity.
        -- unfold n'. lia.
        -- intros E0. destruct CS as [(VS & CC)|(VS & CC)]; [specialize (VC VS); unfold n' in E0; lia|exact CC].
        -- (* push_lk keeps what the slowest reader needs, up to max *)
           intros d D1 D2 D3. rewrite QL. fold n'. pose proof (need_of_ge (n' + 1) (regs (pq e)) (minl (pq e))) as NG.
           destruct (Z_le_gt_dec (r_pos l) (n' + 1)) as [LE|GT]; [|lia].
           pose proof (need_of_rget (n' + 1) (regs (pq e)) (minl (pq e)) (s_h o) U) as ND. fold l in ND.
           rewrite (wrap_small (n' + 1 - r_pos l)) in ND by lia. lia.
    + intros s1 s2 o1 o2 L1 L2. apply (i_inj _ _ I s1 s2 o1 o2); assumption.
    + intros h U. rewrite RE, rget_map_clear in U.
      assert (U2 : r_used (rget (regs (pq e)) h) = true).
      { unfold clear_reg in U. destruct (r_used (rget (regs (pq e)) h)) eqn:UU; [reflexivity|congruence]. }
      apply (i_own _ _ I h U2).
Qed.

Lemma step_pub_batch e m vs : good_b m = true -> m_viol m = false -> Inv e m ->
  R (fst (step e (OBatch vs))) (mon_step m (OBatch vs) (snd (step e (OBatch vs)))).
Proof.
  intros G V I. unfold step, step_gen. destruct (palive e) eqn:PA.
  2:{ apply R_rejected; assumption. }
  cbn [fst snd]. unfold mon_step. rewrite V. cbn [o_st okw Z.eqb negb o_wk].
  destruct vs as [|v vs].
  - cbn [push_batch fst snd mon_publish eqlz negb]. rewrite with_pq_same.
    apply R_bad, R_same; assumption.
  - unfold mon_publish. destruct (HALF <=? zlen (m_log m) + zlen (v :: vs) + 1) eqn:HB; [apply R_viol; exact G|].
    unfold push_batch. rewrite <- (i_cl _ _ I).
    apply (wake_R e m (v :: vs) (closed (pq e)) (palive e) G I).
    + unfold npub. lia.
    + left. split; [discriminate|reflexivity].
Qed.

(* publish(v) is the batch [v], for the queue and for the monitor *)
Lemma step_pub e m v : good_b m = true -> m_viol m = false -> Inv e m ->
  R (fst (step e (OPub v))) (mon_step m (OPub v) (snd (step e (OPub v)))).
Proof. exact (step_pub_batch e m [v]). Qed.

Lemma close_R e m pa : good_b m = true -> m_viol m = false -> Inv e m ->
  R (mkT (fst (close_q (pq e))) (objs e) (nawt e) pa) (mon_close m (snd (close_q (pq e)))).
Proof.
  intros G V I. unfold close_q, mon_close. rewrite <- (i_cl _ _ I).
  destruct (closed (pq e)) eqn:CL.
  - cbn [fst snd eqlz negb]. split; [apply good_add_bad; exact G|right; apply Inv_bad].
    destruct I as [A B C D E F G0 H I0 J]. constructor; assumption.
  - pose proof (wake_R e m [] true pa G I) as X. cbn [rev app zlen length Z.of_nat] in X. rewrite app_nil_r in X.
    apply X; [pose proof (g_half _ _ (i_g _ _ I)); unfold npub; lia|right; split; reflexivity].
Qed.

Lemma step_close e m : good_b m = true -> m_viol m = false -> Inv e m ->
  R (fst (step e OClose)) (mon_step m OClose (snd (step e OClose))).
Proof.
  intros G V I. unfold step, step_gen. destruct (palive e) eqn:PA.
  2:{ apply R_rejected; assumption. }
  cbn [fst snd]. unfold mon_step. rewrite V. cbn [o_st okw Z.eqb negb o_wk].
  unfold with_pq. apply close_R; assumption.
Qed.

Lemma step_destroy e m : good_b m = true -> m_viol m = false -> Inv e m ->
  R (fst (step e ODestroyPub)) (mon_step m ODestroyPub (snd (step e ODestroyPub))).
Proof.
  intros G V I. unfold step, step_gen. destruct (palive e) eqn:PA.
  2:{ apply R_rejected; assumption. }
  cbn [fst snd]. unfold mon_step. rewrite V. cbn [o_st okw Z.eqb negb o_wk].
  apply close_R; assumption.
Qed.

Lemma subscribe_lk_spec q sub p fl : freelist (regs q) (next_free q) fl ->
  let q' := fst (subscribe_lk q sub p) in
  let h := snd (subscribe_lk q sub p) in
  r_used (rget (regs q) h) = false /\ rget (regs q') h = mkReg p sub None true false /\
  (forall k, k <> h -> rget (regs q') k = rget (regs q) k) /\
  (exists fl', freelist (regs q') (next_free q') fl') /\
  (qd q', qpos q', closed q', minl q', maxl q') = (qd q, qpos q, closed q, minl q, maxl q).
Proof.
  intros FL. unfold subscribe_lk. destruct (zlen (regs q) <=? next_free q) eqn:C; cbn [fst snd regs next_free].
  - (* a new slot *)
    assert (FE : next_free q = zlen (regs q)).
    { destruct (freelist_head _ _ _ FL) as [(_ & X)|(h & t' & _ & E & L)]; [exact X|]. unfold zlen in C. lia. }
    split; [apply (f_equal r_used (rget_beyond _ _ (le_n _)))|]. split; [apply rget_app_new|]. split; [|split; [|reflexivity]].
    + intros k N. destruct (Nat.lt_ge_cases k (length (regs q))) as [L|L].
      * apply rget_app_l. exact L.
      * rewrite !rget_beyond; [reflexivity|exact L|rewrite app_length; cbn; lia].
    + exists []. replace (zlen (regs q) + 1) with (zlen (regs q ++ [mkReg p sub None true false]))
        by (rewrite zlen_app; reflexivity). constructor.
  - (* the head of the free list *)
    destruct (freelist_head _ _ _ FL) as [(_ & X)|(h & t' & -> & E & L)]; [lia|].
    rewrite E, Nat2Z.id. inversion FL as [|h' t'' L' U' N' F' E1 E2]; subst.
    split; [exact U'|]. split; [apply rget_set_same; exact L|]. split; [|split; [|reflexivity]].
    + intros k N. apply rget_set_other. congruence.
    + exists t'. apply freelist_set_other; assumption.
Qed.

Lemma rec_good_new lg t p lost : rec_good_b lg (Some (new_rec t p lost)) = true.
Proof. unfold rec_good_b, new_rec. cbn [m_mode m_start m_deliv m_eos m_eos_ok]. destruct (t =? 0); reflexivity. Qed.

Lemma subscribe_R e m s t p lost :
  good_b m = true -> Inv e m -> get (objs e) s = None -> valid_mode t = true -> 0 <= p < HALF ->
  (lost = false -> if t =? 0 then p <= npub m /\ npub m - p <= zlen (qd (pq e)) /\ npub m - p <= maxl (pq e)
                   else p <= npub m) ->
  R (fst (new_sub e s t (subscribe_lk (pq e) (Z.of_nat s) p))) (add_bad (set_sub m s (new_rec t p lost)) false) /\
  snd (new_sub e s t (subscribe_lk (pq e) (Z.of_nat s) p)) =
    ok3 (Z.of_nat (snd (subscribe_lk (pq e) (Z.of_nat s) p))) p 0.
Proof.
  intros G I GN VM PR WN. destruct (i_fl _ _ I) as (fl & FL).
  destruct (subscribe_lk_spec (pq e) (Z.of_nat s) p fl FL) as (UN & RH & RO & FL' & EQ).
  unfold new_sub. cbn [fst snd]. split; [|unfold pos_of; rewrite RH; reflexivity].
  apply R_bad. split; [apply good_set_sub; [exact G|apply rec_good_new]|right].
  apply Inv_update with (e := e) (m := m) (s := s) (o' := mkSo (snd (subscribe_lk (pq e) (Z.of_nat s) p)) t true false)
                        (r' := new_rec t p lost);
    cbn [pq objs nawt set_sub m_subs s_h s_live]; try reflexivity; try assumption.
  - apply (subscribe_once [] _ _ _ _ (i_awt _ _ I)).
  - apply get_put_same.
  - intros k N. apply get_put_other. congruence.
  - apply get_put_same.
  - intros k N. apply get_put_other. congruence.
  - intros k o L. split.
    + intros E. destruct (inv_sub _ _ _ _ I L) as (_ & _ & _ & _ & (U & _)). congruence.
    + intros ->. apply live_obj_get in L as (L & _). congruence.
  - rewrite RH. unfold sub_ok, new_rec. splits; simp_rec; try reflexivity; try assumption; try lia.
    intros _. unfold pos_ok. simp_rec. cbn [s_mode zlen length Z.of_nat last_pos] in *.
    destruct (t =? 0) eqn:T0; clear - PR WN T0; intuition (try discriminate; try congruence; try lia).
Qed.

Lemma step_subrecent e m s t : good_b m = true -> m_viol m = false -> Inv e m ->
  R (fst (step e (OSubRecent s t))) (mon_step m (OSubRecent s t) (snd (step e (OSubRecent s t)))).
Proof.
  intros G V I. unfold step, step_gen.
  destruct (get (objs e) s) as [o|] eqn:GN.
  { apply R_rejected; assumption. }
  destruct (valid_mode t && palive e) eqn:VP.
  2:{ apply R_rejected; assumption. }
  apply andb_prop in VP as (VM & PA).
  pose proof (i_g _ _ I) as [G1 G2 G3 G4 G5 G6]. fold (npub m) in *.
  pose proof (zlen_nonneg (m_log m)) as LN. fold (npub m) in LN. assert (HW : HALF < W) by reflexivity.
  unfold subscribe_recent_lk. rewrite G3. rewrite wrap_small by lia. replace (npub m + 1 - 1) with (npub m) by lia.
  destruct (subscribe_R e m s t (npub m) false G I GN VM ltac:(lia)) as (R' & OE).
  { intros _. pose proof (zlen_nonneg (qd (pq e))). destruct (t =? 0); lia. }
  rewrite OE. unfold mon_step. rewrite V. cbn [o_st ok3 Z.eqb negb o_b].
  assert (MN : get (m_subs m) s = None) by (apply (i_none _ _ I); exact GN). rewrite MN, VM. cbn [negb orb].
  destruct (HALF <=? npub m) eqn:HB; [lia|]. rewrite Z.eqb_refl. cbn [negb].
  exact R'.
Qed.

Lemma step_subat e m s t p : good_b m = true -> m_viol m = false -> Inv e m ->
  R (fst (step e (OSubAt s t p))) (mon_step m (OSubAt s t p) (snd (step e (OSubAt s t p)))).
Proof.
  intros G V I. unfold step, step_gen.
  destruct (get (objs e) s) as [o|] eqn:GN.
  { apply R_rejected; assumption. }
  destruct (valid_mode t && palive e && (0 <=? p) && (p <? HALF)) eqn:VP.
  2:{ apply R_rejected; assumption. }
  apply andb_prop in VP as (VP & P2). apply andb_prop in VP as (VP & P1). apply andb_prop in VP as (VM & PA).
  pose proof (i_g _ _ I) as [G1 G2 G3 G4 G5 G6]. fold (npub m) in *.
  pose proof (i_mm _ _ I) as (MM1 & MM2).
  destruct (subscribe_R e m s t p (negb (in_window m t p)) G I GN VM ltac:(lia)) as (R' & OE).
  { intros LS. apply negb_false_iff in LS. unfold in_window in LS. rewrite MM1 in LS.
    pose proof (zlen_nonneg (qd (pq e))). destruct (t =? 0); lia. }
  rewrite OE. unfold mon_step. rewrite V. cbn [o_st ok3 Z.eqb negb o_b].
  assert (MN : get (m_subs m) s = None) by (apply (i_none _ _ I); exact GN). rewrite MN, VM. cbn [negb orb].
  destruct (HALF <=? p) eqn:HB; [lia|]. destruct (p <? 0) eqn:PN; [lia|]. cbn [orb]. rewrite Z.eqb_refl. cbn [negb].
  exact R'.
Qed.

Lemma step_subcopy e m s src : good_b m = true -> m_viol m = false -> Inv e m ->
  R (fst (step e (OSubCopy s src))) (mon_step m (OSubCopy s src) (snd (step e (OSubCopy s src)))).
Proof.
  intros G V I. unfold step, step_gen.
  destruct (get (objs e) s) as [o0|] eqn:GN.
  { apply R_rejected; assumption. }
  destruct (live_obj e src) as [o|] eqn:L.
  2:{ apply R_rejected; assumption. }
  destruct (inv_sub _ _ _ _ I L) as (r & Gr & LV & _ & (U & SB & MD & VM & KK & CU & RG & AW & PO)).
  unfold subscribe_copy_lk. set (l := rget (regs (pq e)) (s_h o)) in *.
  set (lost := m_lost r || m_eos r || m_kicked r || negb (idle_pc (m_pc r))).
  destruct (subscribe_R e m s (s_mode o) (r_pos l) lost G I GN VM RG) as (R' & OE).
  { intros LS. unfold lost in LS. apply orb_false_elim in LS as (LS & L4). apply orb_false_elim in LS as (LS & L3).
    apply orb_false_elim in LS as (L1 & L2). apply negb_false_iff in L4.
    specialize (PO L2). destruct PO as (ST & M0 & M12). rewrite MD in *.
    destruct (s_mode o =? 0) eqn:T0.
    - assert (T : s_mode o = 0) by lia. specialize (M0 T). destruct M0 as (A1 & A2 & A3 & A4).
      specialize (A2 L4). specialize (A4 L1). rewrite A2. lia.
    - assert (T : s_mode o <> 0) by lia. specialize (M12 T). destruct M12 as (B1 & B2 & B3 & B4).
      specialize (B4 L1). destruct B4 as (C1 & C2 & C3). apply C2. exact L4. }
  rewrite OE. unfold mon_step. rewrite V. cbn [o_st ok3 Z.eqb negb o_b].
  assert (MN : get (m_subs m) s = None) by (apply (i_none _ _ I); exact GN). rewrite MN, Gr, LV. cbn [negb orb].
  destruct (HALF <=? r_pos l) eqn:HB; [lia|]. rewrite CU, Z.eqb_refl. cbn [negb]. rewrite MD. fold lost.
  exact R'.
Qed.

Lemma step_leave e m s : good_b m = true -> m_viol m = false -> Inv e m ->
  R (fst (step e (OLeave s))) (mon_step m (OLeave s) (snd (step e (OLeave s)))).
Proof.
  intros G V I. unfold step, step_gen.
  destruct (free_obj e s) as [o|] eqn:F; [|apply R_rejected; assumption].
  pose proof (free_live _ _ _ F) as L.
  destruct (inv_sub _ _ _ _ I L) as (r & Gr & LV & HL & (U & _)).
  cbn [fst snd]. unfold mon_step. rewrite V. cbn [o_st ok3 Z.eqb negb]. rewrite Gr, LV. cbn [negb].
  split; [apply good_set_sub; [exact G|exact (good_rec _ _ _ G Gr)]|right].
  set (l := rget (regs (pq e)) (s_h o)) in *.
  set (l' := mkReg (next_free (pq e)) (r_sub l) (r_awt l) false (r_kicked l)).
  unfold leave_lk. fold l. fold l'.
  apply Inv_update with (e := e) (m := m) (s := s) (o' := mkSo (s_h o) (s_mode o) false false)
                        (r' := mkSr false (m_mode r) (m_pc r) (m_start r) (m_cur r) (m_deliv r) (m_eos r) (m_eos_ok r)
                                    (m_kicked r) (m_lost r));
    cbn [pq objs nawt regs next_free qd qpos closed minl maxl set_sub m_subs s_h s_live]; try reflexivity; try assumption.
  - destruct (i_fl _ _ I) as (fl & FL). exists (s_h o :: fl).
    assert (NI : ~ In (s_h o) fl) by (intros K; pose proof (freelist_unused _ _ _ FL _ K) as UF; fold l in UF; congruence).
    constructor; [rewrite set_nth_length; exact HL|rewrite rget_set_same by exact HL; reflexivity|exact NI|].
    rewrite rget_set_same by exact HL. cbn [r_pos l']. apply freelist_set_other; assumption.
  - apply (once_set []); [apply (i_awt _ _ I)|right; reflexivity].
  - apply get_put_same.
  - intros k N. apply get_put_other. congruence.
  - apply get_put_same.
  - intros k N. apply get_put_other. congruence.
  - intros k N. apply rget_set_other. congruence.
  - apply (own_slot e m); assumption.
  - rewrite rget_set_same by exact HL. reflexivity.
Qed.

Theorem step_R e m x : R e m -> R (fst (step e x)) (mon_step m x (snd (step e x))).
Proof.
  intros (G & VI). destruct (m_viol m) eqn:V.
  { unfold mon_step. rewrite V. split; [exact G|left; exact V]. }
  destruct VI as [VI|I]; [congruence|].
  destruct x;
    [apply step_pub|apply step_pub_batch|apply step_subrecent|apply step_subat|apply step_subcopy|apply step_ready
    |apply step_suspend|apply step_get|apply step_kick|apply step_leave|apply step_close|apply step_position
    |apply step_destroy|apply R_rejected..]; assumption.
Qed.

(* composite operations are sequences of locked steps, one observation line each *)
Lemma R_bump e m : R e m -> R (bump e) m.
Proof.
  intros (G & [V|I]); split; try exact G; [left; exact V|right].
  destruct I as [A B C D E F G0 H I0 J]. constructor; try assumption.
  cbn [bump pq nawt]. destruct E as (E1 & E2). split; [exact E1|]. intros a Ia. specialize (E2 a Ia). lia.
Qed.

Lemma R_set_blk e m s o b : R e m -> live_obj e s = Some o -> R (set_blk e s o b) m.
Proof.
  intros (G & [V|I]) L; split; try exact G; [left; exact V|right].
  destruct (inv_sub _ _ _ _ I L) as (r & Gr & LV & _ & SO). pose proof (live_obj_get _ _ _ L) as (GO & SL).
  apply Inv_update with (e := e) (m := m) (s := s) (o' := mkSo (s_h o) (s_mode o) (s_live o) b) (r' := r);
    unfold set_blk; cbn [pq objs nawt s_h s_live]; try reflexivity; try assumption.
  - apply (i_fl _ _ I).
  - apply (i_awt _ _ I).
  - apply get_put_same.
  - intros k N. apply get_put_other. congruence.
  - apply (own_slot e m); assumption.
  - congruence.
  - rewrite SL. exact SO.
Qed.

Lemma step_obs_st e x : o_st (snd (step e x)) = 0 \/ o_st (snd (step e x)) = 1 \/ o_st (snd (step e x)) = -999.
Proof.
  destruct (step_cases e x) as [x|v _|vs _|s t _|s t p _|s src o _ _|s o _|s o _|s o _|s|s o _|_|s o _|_]; cbn zeta;
    try destruct (snd (get_value_lk (pq e) (s_h o) (s_mode o))); cbn [snd o_st okw ok3 rejected ub_obs new_sub]; auto.
Qed.

Lemma ready_obs_ok e s o : free_obj e s = Some o -> o_st (snd (step e (OReady s))) = 0.
Proof. intros F. unfold step, step_gen. rewrite F. reflexivity. Qed.

Lemma step_objs_next e x s : x = OReady s \/ x = OSuspend s \/ x = OGet s -> objs (fst (step e x)) = objs e.
Proof.
  intros [ -> | [ -> | -> ] ]; unfold step, step_gen; destruct (free_obj e s); try reflexivity.
  destruct (snd (get_value_lk (pq e) (s_h s0) (s_mode s0))); reflexivity.
Qed.

Theorem stepx_R e m x os : R e m ->
  R (fst (stepx e x)) (fst (feed m x (snd (stepx e x) ++ os))) /\ snd (feed m x (snd (stepx e x) ++ os)) = os.
Proof.
  intros HR.
  assert (PRIM : R (fst (step e x)) (fst (feed1 m x ([snd (step e x)] ++ os))) /\
                 snd (feed1 m x ([snd (step e x)] ++ os)) = os).
  { cbn [app feed1 fst snd]. split; [apply step_R; exact HR|reflexivity]. }
  destruct x; try exact PRIM; clear PRIM; unfold stepx, stepx_gen;
    change (step_gen advance_suspend_lk get_value_lk) with step.
  - (* OBlock *)
    destruct (free_obj e s) as [o|] eqn:F.
    2:{ cbn [fst snd app feed feed1 is_ok rejected o_st Z.eqb negb]. rewrite mon_step_rejected. split; [exact HR|reflexivity]. }
    pose proof (free_live _ _ _ F) as L.
    pose proof (step_R e m (OReady s) HR) as R1. set (r1 := step e (OReady s)) in *.
    assert (OK1 : o_st (snd r1) = 0) by (apply (ready_obs_ok _ _ _ F)).
    destruct (o_a (snd r1) =? 1) eqn:A1.
    { cbn [fst snd app feed feed1 is_ok ret1]. rewrite OK1, A1. cbn [Z.eqb negb].
      split; [apply R_bump; apply step_R; exact R1|reflexivity]. }
    pose proof (step_R _ _ (OReady s) R1) as R2. set (r2 := step (fst r1) (OReady s)) in *.
    destruct (o_a (snd r2) =? 1) eqn:A2.
    { cbn [fst snd app feed feed1 is_ok ret1]. rewrite OK1, A1, A2. cbn [Z.eqb negb].
      split; [apply R_bump; apply step_R; exact R2|reflexivity]. }
    pose proof (step_R _ _ (OSuspend s) R2) as R3. set (r3 := step (fst r2) (OSuspend s)) in *.
    assert (L3 : live_obj (fst r3) s = Some o).
    { assert (O3 : objs (fst r3) = objs e).
      { unfold r3. rewrite (step_objs_next _ _ s) by auto. unfold r2. rewrite (step_objs_next _ _ s) by auto.
        unfold r1. apply (step_objs_next _ _ s). auto. }
      rewrite (live_obj_eq e (fst r3) s); [exact L|rewrite O3; reflexivity]. }
    destruct (o_a (snd r3) =? 1) eqn:A3.
    { cbn [fst snd app feed feed1 is_ok ret1]. rewrite OK1, A1, A2, A3. cbn [Z.eqb negb].
      split; [apply R_set_blk; assumption|reflexivity]. }
    cbn [fst snd app feed feed1 is_ok ret1]. rewrite OK1, A1, A2, A3. cbn [Z.eqb negb].
    split; [apply step_R; exact R3|reflexivity].
  - (* OBlockFin *)
    destruct (live_obj e s) as [o|] eqn:L.
    2:{ cbn [fst snd app feed feed1]. rewrite mon_step_rejected. split; [exact HR|reflexivity]. }
    destruct (s_blk o && match r_awt (rget (regs (pq e)) (s_h o)) with None => true | Some _ => false end).
    2:{ cbn [fst snd app feed feed1]. rewrite mon_step_rejected. split; [exact HR|reflexivity]. }
    cbn [fst snd app feed feed1].
    split; [apply step_R; apply R_set_blk; assumption|reflexivity].
  - (* OPoll *)
    destruct (free_obj e s) as [o|] eqn:F.
    2:{ cbn [fst snd app feed feed1 is_ok rejected o_st Z.eqb negb]. rewrite mon_step_rejected. split; [exact HR|reflexivity]. }
    pose proof (step_R e m (OReady s) HR) as R1. set (r1 := step e (OReady s)) in *.
    assert (OK1 : o_st (snd r1) = 0) by (apply (ready_obs_ok _ _ _ F)).
    destruct (o_a (snd r1) =? 1) eqn:A1.
    + cbn [fst snd app feed feed1 is_ok ret1]. rewrite OK1, A1. cbn [Z.eqb negb].
      split; [apply step_R; exact R1|reflexivity].
    + cbn [fst snd app feed feed1 is_ok ret1]. rewrite OK1, A1. cbn [Z.eqb negb]. split; [exact R1|reflexivity].
Qed.

Theorem run_R l : forall e m, R e m -> R (snd (run_from e l)) (mon_run m l (fst (run_from e l))).
Proof.
  induction l as [|x l IH]; intros e m HR; [exact HR|].
  unfold run_from in *. cbn [run_gen fst snd mon_run]. fold (stepx e x).
  destruct (stepx_R e m x (fst (run_gen advance_suspend_lk get_value_lk (fst (stepx e x)) l)) HR) as (R1 & E1).
  rewrite E1. apply IH. exact R1.
Qed.

Lemma Inv0 mn mx : cfg_ok_b mn mx = true -> Inv (tst0 mn mx) (mon0 mn mx).
Proof.
  intros C. unfold cfg_ok_b in C.
  assert (GN : forall (A : Type) (s : nat), @get A [] s = None) by (intros A s; unfold get; destruct s; reflexivity).
  assert (LN : forall s, live_obj (tst0 mn mx) s = None) by (intros s; unfold live_obj, tst0; cbn [objs]; rewrite GN; reflexivity).
  constructor; unfold tst0, mon0, pubq0; cbn [pq objs nawt palive regs next_free qd qpos closed minl maxl m_log m_closed m_subs m_min m_max].
  - constructor; cbn [regs next_free qd qpos closed minl maxl]; try (unfold zlen; cbn; lia).
    + unfold HALF, zlen. cbn. lia.
    + unfold win. exists 0%nat. reflexivity.
  - split; reflexivity.
  - reflexivity.
  - exists []. apply (fl_nil []).
  - split; [constructor|]. intros a [].
  - intros s. rewrite !GN. split; reflexivity.
  - intros s o r G0. rewrite GN in G0. discriminate.
  - intros s o r L. fold (pubq0 mn mx) in L. fold (tst0 mn mx) in L. rewrite LN in L. discriminate.
  - intros s1 s2 o1 o2 L. fold (pubq0 mn mx) in L. fold (tst0 mn mx) in L. rewrite LN in L. discriminate.
  - intros h U. unfold rget in U. destruct h; discriminate.
Qed.

Lemma R_init mn mx : cfg_ok_b mn mx = true -> R (tst0 mn mx) (mon0 mn mx).
Proof. intros C. split; [reflexivity|right; apply Inv0; exact C]. Qed.

Lemma cfg_of_ok c mn mx : cfg_of c = Some (mn, mx) -> cfg_ok_b mn mx = true.
Proof.
  unfold cfg_of. destruct c as [|a [|b [|? ?]]]; try discriminate.
  destruct (cfg_ok_b a (if b =? 0 then unlimited else b)) eqn:E; [|discriminate]. intros CF. injection CF as <- <-. exact E.
Qed.

Lemma dec_enc o : dec_obs (encode_obs o) = o.
Proof. destruct o; reflexivity. Qed.

(* the monitor's judgement on the model's own trace is `good`, for every case file *)
Theorem oracle_accepts_model ops : pub_oracle ops (pub_run ops) = true.
Proof.
  unfold pub_oracle, pub_run, pub_run_gen. destruct ops as [|c t]; [reflexivity|].
  destruct (cfg_of c) as [[mn mx]|] eqn:CF.
  - rewrite map_map. rewrite (map_ext _ (fun o => o) dec_enc), map_id.
    apply (run_R (map decode t) _ _ (R_init _ _ (cfg_of_ok _ _ _ CF))).
  - cbn [map length]. rewrite map_length. apply Nat.eqb_refl.
Qed.

(* what the monitor has recorded after the model ran ops from the initial state *)
Definition final_e (mn mx : Z) (ops : list op) : tst := snd (run_from (tst0 mn mx) ops).
Definition final_m (mn mx : Z) (ops : list op) : mon := mon_run (mon0 mn mx) ops (fst (run_from (tst0 mn mx) ops)).

Lemma final_R mn mx ops : cfg_ok_b mn mx = true -> R (final_e mn mx ops) (final_m mn mx ops).
Proof. intros C. apply run_R, R_init, C. Qed.

(* deliveries are stored newest first: the i-th newest of an all_values subscriber is at position start + |d| - i *)
Lemma contig_spec start lg d : contig_b start lg d = true ->
  forall i p v k, nth_error d i = Some (p, v, k) ->
  p = start + zlen d - Z.of_nat i /\ 1 <= p <= zlen lg /\ v = nthz lg (p - 1).
Proof.
  induction d as [|[[p0 v0] k0] d IH]; intros H i p v k E; [destruct i; discriminate|].
  rewrite contig_b_cons in H.
  apply andb_prop in H as (H & H5). apply andb_prop in H as (H & H4). apply andb_prop in H as (H & H3).
  apply andb_prop in H as (H1 & H2).
  destruct i as [|i]; cbn [nth_error] in E.
  - injection E as <- <- <-. lia.
  - destruct (IH H5 i p v k E) as (A & B & C). rewrite zlen_cons. split; [lia|]. split; assumption.
Qed.

(* skip modes: every delivery is at a position above all earlier ones and above the start *)
Lemma incr_spec start d : incr_b start d = true ->
  forall i p v k, nth_error d i = Some (p, v, k) -> last_pos start (skipn (S i) d) < p.
Proof.
  induction d as [|[[p0 v0] k0] d IH]; intros H i p v k E; [destruct i; discriminate|].
  rewrite incr_b_cons in H. apply andb_prop in H as (H1 & H2).
  destruct i as [|i]; cbn [nth_error] in E.
  - injection E as <- <- <-. cbn [skipn]. lia.
  - cbn [skipn]. apply (IH H2 i p v k E).
Qed.

(* of any monitor state the judgement accepts; final_R gives the one after a run *)
Theorem good_contiguous m s r : good_b m = true -> get (m_subs m) s = Some r -> m_mode r = 0 ->
  forall i p v k, nth_error (m_deliv r) i = Some (p, v, k) ->
  p = m_start r + zlen (m_deliv r) - Z.of_nat i /\ 1 <= p <= zlen (m_log m) /\ v = nthz (m_log m) (p - 1).
Proof.
  intros G Gr M. pose proof (good_rec _ _ _ G Gr) as H. unfold rec_good_b in H. rewrite M in H. cbn [Z.eqb] in H.
  apply andb_prop in H as (H & _). apply contig_spec. exact H.
Qed.

Theorem good_skip_forward m s r : good_b m = true -> get (m_subs m) s = Some r -> m_mode r <> 0 ->
  forall i p v k, nth_error (m_deliv r) i = Some (p, v, k) ->
  last_pos (m_start r) (skipn (S i) (m_deliv r)) < p /\ 1 <= p <= k /\ k <= zlen (m_log m) /\
  v = nthz (m_log m) (p - 1) /\ (m_mode r = 2 -> p = k).
Proof.
  intros G Gr M i p v k E. pose proof (good_rec _ _ _ G Gr) as H. unfold rec_good_b in H.
  destruct (m_mode r =? 0) eqn:M0; [lia|]. apply andb_prop in H as (H & _). apply andb_prop in H as (H1 & H2).
  split; [apply (incr_spec _ _ H1 i p v k E)|].
  rewrite forallb_forall in H2. specialize (H2 _ (nth_error_In _ _ E)). unfold skipval_b in H2.
  destruct (m_mode r =? 2) eqn:M2; lia.
Qed.

Theorem good_eos m s r : good_b m = true -> get (m_subs m) s = Some r -> m_eos r = true -> m_eos_ok r = true.
Proof.
  intros G Gr E. pose proof (good_rec _ _ _ G Gr) as H. unfold rec_good_b in H. rewrite E in H.
  apply andb_prop in H as (_ & H). exact H.
Qed.

Theorem good_not_bad m : good_b m = true -> m_bad m = false.
Proof. unfold good_b. intros G. apply andb_prop in G as (G & _). destruct (m_bad m); [discriminate|reflexivity]. Qed.

(* the retained window covers everything a non-lagging all_values subscriber still has to read *)
Theorem Inv_window e m s o r : Inv e m -> live_obj e s = Some o -> get (m_subs m) s = Some r ->
  m_mode r = 0 -> m_eos r = false -> m_lost r = false ->
  consumed r <= npub m /\ npub m - consumed r <= zlen (qd (pq e)) /\ npub m - consumed r <= maxl (pq e).
Proof.
  intros I L G M E LS. pose proof (i_sub _ _ I s o r L G) as (_ & _ & _ & _ & _ & _ & _ & _ & PO).
  destruct (PO E) as (_ & M0 & _). destruct (M0 M) as (_ & _ & _ & A4). destruct (A4 LS) as (D1 & D2 & D3 & _).
  split; [exact D1|split; assumption].
Qed.

(* a next() step of one subscriber never touches another subscriber's registration (copies included) *)
Lemma next_step_frame e x s o k : free_obj e s = Some o -> (x = OReady s \/ x = OSuspend s \/ x = OGet s) ->
  k <> s_h o -> rget (regs (pq (fst (step e x)))) k = rget (regs (pq e)) k.
Proof.
  intros F X N. unfold step, step_gen.
  destruct X as [ -> | [ -> | -> ] ]; rewrite F; cbn [fst].
  - unfold with_pq. cbn [pq]. apply (moved_frame _ (s_h o)); [apply advance_lk_moved|exact N].
  - cbn [pq]. destruct (advance_suspend_writes (pq e) (s_h o) (nawt e)) as [E|(x & E & _)]; rewrite E; [reflexivity|].
    apply rget_set_other. congruence.
  - destruct (snd (get_value_lk (pq e) (s_h o) (s_mode o))); cbn [fst with_pq pq]; try reflexivity;
      (apply (moved_frame _ (s_h o)); [apply get_value_lk_moved|exact N]).
Qed.

