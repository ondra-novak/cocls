(* MutexSched.v — thread-level ("location") invariant of the coroutine-mutex model: where each contender is.
   Every runnable coroutine is in exactly one place (executing on exactly one OS thread, or exactly once in
   exactly one thread's ready queue); parked and finished coroutines are nowhere; plain threads execute their
   own code, or a nested queue while their own code is inside a release.  From it: a contender is never
   resumed concurrently with itself, and deadlock freedom (some OS thread is enabled while a contender is
   unfinished).  The invariant LV and its lemmas are about lists of thread records; LInv ties them to MutexDefs.tstep. *)
From Cocls Require Import Base BaseProofs MutexDefs MutexProofs.
Local Open Scope nat_scope.

Definition kd (v : tview) : kind := fst (fst v).
Definition pf (v : tview) : pc := snd (fst v).
Definition live (p : pc) : bool := match p with PParked | PDone => false | _ => true end.

Definition wrun (c : nat) (r : trun) : nat := match r with TRun c' => if Nat.eqb c' c then 1 else 0 | _ => 0 end.
Definition wt (c : nat) (th : thr) : nat := wrun c (run th) + count_occ Nat.eq_dec (tq th) c.
Fixpoint occ (l : list thr) (c : nat) : nat := match l with [] => 0 | th :: r => wt c th + occ r c end.

Lemma occ_set l t x c : t < length l ->
  occ (set_nth l t x) c + wt c (nth t l dflt_thr) = occ l c + wt c x.
Proof.
  revert t. induction l as [|y l IH]; intros [|t] L; cbn [length] in L; try lia.
  - cbn [set_nth occ nth]. lia.
  - cbn [set_nth occ nth]. specialize (IH t ltac:(lia)). lia.
Qed.

Lemma occ_ge l c : forall t, wt c (nth t l dflt_thr) <= occ l c.
Proof. induction l as [|y l IH]; intros [|t]; cbn [occ nth]; try specialize (IH t); cbn; lia. Qed.

Lemma occ_two l c : forall t t', t <> t' -> wt c (nth t l dflt_thr) + wt c (nth t' l dflt_thr) <= occ l c.
Proof.
  induction l as [|y l IH]; intros [|t] [|t'] N; cbn [occ nth]; try (cbn; lia).
  - pose proof (occ_ge l c t'). lia.
  - pose proof (occ_ge l c t). lia.
  - specialize (IH t t' ltac:(lia)). lia.
Qed.

Lemma count_occ_app_one (l : list nat) x c :
  count_occ Nat.eq_dec (l ++ [x]) c = count_occ Nat.eq_dec l c + (if Nat.eqb x c then 1 else 0).
Proof.
  rewrite count_occ_app. cbn [count_occ]. destruct (Nat.eq_dec x c) as [->|N].
  - rewrite Nat.eqb_refl. reflexivity.
  - apply Nat.eqb_neq in N. rewrite N. reflexivity.
Qed.

(* the thread-level invariant over: thread records, number of declared tasks, per task (kind, pc, flag).
   Task t is what OS thread t starts with (init_thrs); only thread t ever executes a plain task t, hence `yield` looks at task t. *)
Record LV (l : list thr) (n : nat) (f : nat -> tview) : Prop := {
  l_len : length l = n;
  l_occ : forall c, kd (f c) = KCoro -> occ l c = if live (pf (f c)) then 1 else 0;
  l_run : forall t c, run (nth t l dflt_thr) = TRun c -> kd (f c) = KCoro \/ c = t;
  l_q : forall t c, In c (tq (nth t l dflt_thr)) -> kd (f c) = KCoro /\ (pf (f c) = PCs \/ pf (f c) = PStep);
  l_plain : forall t, t < n -> kd (f t) = KPlain ->
      (run (nth t l dflt_thr) = TRun t /\ tq (nth t l dflt_thr) = [] /\ pf (f t) <> PDone) \/
      (exists c, run (nth t l dflt_thr) = TRun c /\ kd (f c) = KCoro /\ pf (f t) = PStep) \/
      (exists c, run (nth t l dflt_thr) = TSusp c /\ pf (f t) = PStep) \/
      (run (nth t l dflt_thr) = TIdle /\ pf (f t) = PDone);
  l_idle : forall t, run (nth t l dflt_thr) = TIdle -> tq (nth t l dflt_thr) = [];
  l_dom : forall c, n <= c -> kd (f c) = KPlain /\ pf (f c) = PDone
}.

(* the alternatives of l_plain, for a record that need not be in the list *)
Definition plain_ok (t : nat) (th : thr) (f : nat -> tview) : Prop :=
  (run th = TRun t /\ tq th = [] /\ pf (f t) <> PDone) \/
  (exists c, run th = TRun c /\ kd (f c) = KCoro /\ pf (f t) = PStep) \/
  (exists c, run th = TSusp c /\ pf (f t) = PStep) \/
  (run th = TIdle /\ pf (f t) = PDone).

Lemma lv_ext l n f f' : (forall x, kd (f' x) = kd (f x)) -> (forall x, pf (f' x) = pf (f x)) -> LV l n f -> LV l n f'.
Proof.
  intros E E2 [A B C D F G H]. constructor; auto.
  - intros c. rewrite E, E2. apply B.
  - intros t c. rewrite E. apply C.
  - intros t c. rewrite E, !E2. apply D.
  - intros t. rewrite E, !E2. intros Lt K. destruct (F t Lt K) as [Q|[(c & Q1 & Q2 & Q3)|[Q|Q]]]; auto.
    right. left. exists c. rewrite E. auto.
  - intros c. rewrite E, E2. apply H.
Qed.

(* a coroutine that is being executed is live, is executed by one thread only and is in no ready queue *)
Lemma lv_running l n f t c : LV l n f -> run (nth t l dflt_thr) = TRun c -> kd (f c) = KCoro ->
  live (pf (f c)) = true /\ count_occ Nat.eq_dec (tq (nth t l dflt_thr)) c = 0 /\
  forall t', t' <> t -> wt c (nth t' l dflt_thr) = 0.
Proof.
  intros I R K. pose proof (l_occ _ _ _ I c K) as O.
  assert (W : wt c (nth t l dflt_thr) = 1 + count_occ Nat.eq_dec (tq (nth t l dflt_thr)) c).
  { unfold wt. rewrite R. cbn [wrun]. rewrite Nat.eqb_refl. reflexivity. }
  pose proof (occ_ge l c t) as G. destruct (live (pf (f c))); [|lia].
  split; [reflexivity|]. split; [lia|]. intros t' N. pose proof (occ_two l c t t' ltac:(auto)). lia.
Qed.

Lemma pc_eq_dec (a b : pc) : {a = b} + {a <> b}.
Proof. repeat decide equality. Qed.

Definition lw (p : pc) : nat := if live p then 1 else 0.

(* master lemma: thread t is replaced by x and some tasks change pc (kinds are fixed) *)
Lemma lv_update l n f f' t x : LV l n f -> t < n ->
  (forall c, kd (f' c) = kd (f c)) ->
  (forall c, kd (f c) = KCoro -> lw (pf (f' c)) + wt c (nth t l dflt_thr) = lw (pf (f c)) + wt c x) ->
  (forall c, run x = TRun c -> kd (f c) = KCoro \/ c = t) ->
  (forall c, In c (tq x) -> kd (f c) = KCoro /\ (pf (f' c) = PCs \/ pf (f' c) = PStep)) ->
  (kd (f t) = KPlain -> plain_ok t x f') ->
  (run x = TIdle -> tq x = []) ->
  (forall c t', pf (f' c) <> pf (f c) -> t' <> t -> ~ In c (tq (nth t' l dflt_thr))) ->
  (forall t', t' <> t -> kd (f t') = KPlain -> pf (f' t') = pf (f t')) ->
  (forall c, n <= c -> kd (f' c) = KPlain /\ pf (f' c) = PDone) ->
  LV (set_nth l t x) n f'.
Proof.
  intros I Lt K Ho Hr Hq Hp Hi Hoq Hop Hd. pose proof (l_len _ _ _ I) as Ln.
  assert (NT : forall t', nth t' (set_nth l t x) dflt_thr = if Nat.eqb t' t then x else nth t' l dflt_thr).
  { intros t'. rewrite nth_set_nth_gen. assert (Q : Nat.ltb t (length l) = true) by (apply Nat.ltb_lt; lia).
    rewrite Q, andb_true_r. reflexivity. }
  constructor.
  - rewrite set_nth_length. exact Ln.
  - intros c Kc. rewrite K in Kc. pose proof (occ_set l t x c ltac:(lia)) as E.
    pose proof (l_occ _ _ _ I c Kc) as O. specialize (Ho c Kc). unfold lw in Ho.
    destruct (live (pf (f' c))), (live (pf (f c))); lia.
  - intros t' c. rewrite NT, K. destruct (Nat.eqb_spec t' t) as [->|N]; [apply Hr|apply (l_run _ _ _ I)].
  - intros t' c. rewrite NT, K. destruct (Nat.eqb_spec t' t) as [->|N]; [apply Hq|].
    intros Q. destruct (l_q _ _ _ I t' c Q) as [A B]. split; [exact A|].
    destruct (pc_eq_dec (pf (f' c)) (pf (f c))) as [E|E]; [rewrite E; exact B|].
    exfalso. eapply Hoq; eassumption.
  - intros t' Lt' Kt. rewrite K in Kt. rewrite NT. destruct (Nat.eqb_spec t' t) as [->|N]; [apply Hp; exact Kt|].
    specialize (Hop t' N Kt).
    destruct (l_plain _ _ _ I t' Lt' Kt) as [(A & B & C)|[(c & A & B & C)|[(c & A & B)|(A & B)]]].
    + left. rewrite Hop. auto.
    + right. left. exists c. rewrite K, Hop. auto.
    + right. right. left. exists c. rewrite Hop. auto.
    + right. right. right. rewrite Hop. auto.
  - intros t'. rewrite NT. destruct (Nat.eqb_spec t' t) as [->|N]; [apply Hi|apply (l_idle _ _ _ I)].
  - exact Hd.
Qed.

Lemma wt_zero_not_in c th : wt c th = 0 -> ~ In c (tq th).
Proof. unfold wt. intros E H. apply (count_occ_In Nat.eq_dec) in H. lia. Qed.

Lemma nowhere l n f w : LV l n f -> kd (f w) = KCoro -> live (pf (f w)) = false ->
  forall t', wt w (nth t' l dflt_thr) = 0.
Proof. intros I K Lv t'. pose proof (l_occ _ _ _ I w K) as O. rewrite Lv in O. pose proof (occ_ge l w t'). lia. Qed.

Lemma running_not_queued l n f t c : LV l n f -> run (nth t l dflt_thr) = TRun c ->
  forall t', ~ In c (tq (nth t' l dflt_thr)).
Proof.
  intros I R t' H. destruct (l_q _ _ _ I t' c H) as [K _].
  destruct (lv_running l n f t c I R K) as (_ & Z & Oth).
  destruct (Nat.eq_dec t' t) as [->|N]; [|exact (wt_zero_not_in c _ (Oth t' N) H)].
  apply (count_occ_In Nat.eq_dec) in H. lia.
Qed.

Lemma running_plain_self l n f t c : LV l n f -> run (nth t l dflt_thr) = TRun c -> kd (f c) = KPlain -> c = t.
Proof. intros I R K. destruct (l_run _ _ _ I t c R) as [Q|Q]; [congruence|exact Q]. Qed.

Lemma kd_upd f c v' x : kd v' = kd (f c) -> kd (upd f c v' x) = kd (f x).
Proof. intros E. unfold upd. destruct (Nat.eqb_spec x c); [subst; exact E|reflexivity]. Qed.

Lemma lv_pc l n f t c v' : LV l n f -> t < n -> run (nth t l dflt_thr) = TRun c ->
  live (pf (f c)) = true -> kd v' = kd (f c) -> live (pf v') = true -> LV l n (upd f c v').
Proof.
  intros I Lt R Lc Kv Lv.
  rewrite <- (set_nth_same_id l t _ (nth_error_nth' l dflt_thr ltac:(rewrite (l_len _ _ _ I); exact Lt))).
  pose proof (running_not_queued l n f t c I R) as NQ.
  apply lv_update with (f := f); try assumption.
  - intros x. apply kd_upd. exact Kv.
  - intros x Kx. upd_case x c; [|reflexivity]. unfold lw. rewrite Lc, Lv. reflexivity.
  - apply (l_run _ _ _ I).
  - intros x Hx. destruct (l_q _ _ _ I t x Hx) as [A B]. split; [exact A|].
    upd_case x c; [exfalso; eapply NQ; exact Hx|exact B].
  - intros Kt. destruct (l_plain _ _ _ I t Lt Kt) as [(A & B & C)|[(c' & A & B & C)|[(c' & A & B)|(A & B)]]];
      try congruence.
    + left. assert (c = t) by congruence. subst c. rewrite upd_same. repeat split; auto.
      intro Z. rewrite Z in Lv. discriminate.
    + right. left. exists c'. assert (c' = c) by congruence. subst c'.
      assert (t <> c) by (intro; subst; congruence).
      rewrite upd_same, upd_other by assumption. rewrite Kv. auto.
  - intros Z. congruence.
  - intros x t' Hx Nt. assert (x = c). { destruct (Nat.eq_dec x c); [assumption|]. rewrite upd_other in Hx by assumption. congruence. }
    subst x. apply NQ.
  - intros t' Nt Kt. rewrite upd_other; [reflexivity|]. intro; subst t'. apply Nt.
    eapply running_plain_self; eassumption.
  - intros x Lx. rewrite upd_other; [apply (l_dom _ _ _ I); exact Lx|]. intro; subst x.
    destruct (l_dom _ _ _ I c Lx) as [_ Z]. rewrite Z in Lc. discriminate.
Qed.

Lemma lw_live p : live p = true -> lw p = 1. Proof. unfold lw. intros ->. reflexivity. Qed.
Lemma lw_dead p : live p = false -> lw p = 0. Proof. unfold lw. intros ->. reflexivity. Qed.

Lemma wt_run_self c q : wt c (mkThr (TRun c) q) = 1 + count_occ Nat.eq_dec q c.
Proof. unfold wt. cbn [run tq wrun]. rewrite Nat.eqb_refl. reflexivity. Qed.
Lemma wt_run_other c c' q : c' <> c -> wt c (mkThr (TRun c') q) = count_occ Nat.eq_dec q c.
Proof. intros N. unfold wt. cbn [run tq wrun]. apply Nat.eqb_neq in N. rewrite N. reflexivity. Qed.
Lemma wt_eta c th : wt c th = wrun c (run th) + count_occ Nat.eq_dec (tq th) c.
Proof. reflexivity. Qed.

Lemma lv_vacate l n f t c v' : LV l n f -> t < n -> run (nth t l dflt_thr) = TRun c ->
  kd (f c) = KCoro -> kd v' = KCoro -> live (pf v') = false ->
  LV (set_nth l t (mkThr (TSusp c) (tq (nth t l dflt_thr)))) n (upd f c v').
Proof.
  intros I Lt R Kc Kv Lv.
  pose proof (running_not_queued l n f t c I R) as NQ.
  destruct (lv_running l n f t c I R Kc) as (Lc & Z & _).
  apply lv_update with (f := f); try assumption.
  - intros x. apply kd_upd. congruence.
  - intros x Kx. rewrite (wt_eta x (nth t l dflt_thr)), R. unfold wt at 1. cbn [run tq wrun].
    upd_case x c.
    + rewrite Nat.eqb_refl, (lw_live _ Lc), (lw_dead _ Lv). lia.
    + assert (Q : Nat.eqb c x = false) by (apply Nat.eqb_neq; auto). rewrite Q. lia.
  - cbn [run]. discriminate.
  - cbn [tq]. intros x Hx. destruct (l_q _ _ _ I t x Hx) as [A B]. split; [exact A|].
    upd_case x c; [exfalso; eapply NQ; exact Hx|exact B].
  - intros Kt. assert (t <> c) by (intro; subst; congruence).
    destruct (l_plain _ _ _ I t Lt Kt) as [(A & B & C)|[(c' & A & B & C)|[(c' & A & B)|(A & B)]]]; try congruence.
    right. right. left. exists c. cbn [run]. rewrite upd_other by assumption. auto.
  - cbn [run]. discriminate.
  - intros x t' Hx Nt. assert (x = c). { destruct (Nat.eq_dec x c); [assumption|]. rewrite upd_other in Hx by assumption. congruence. }
    subst x. apply NQ.
  - intros t' Nt Kt. rewrite upd_other; [reflexivity|]. intro; subst t'. congruence.
  - intros x Lx. rewrite upd_other; [apply (l_dom _ _ _ I); exact Lx|]. intro; subst x.
    destruct (l_dom _ _ _ I c Lx) as [Q _]. congruence.
Qed.

(* flush_queue resumes the next handle; with an empty ready queue a plain thread continues its own code *)
Definition yield_thr (l : list thr) (f : nat -> tview) (t : nat) : thr :=
  match tq (nth t l dflt_thr) with
  | w :: r => mkThr (TRun w) r
  | [] => mkThr (match kd (f t), pf (f t) with KPlain, PDone => TIdle | KPlain, _ => TRun t | KCoro, _ => TIdle end) []
  end.

Lemma lv_yield l n f t c0 : LV l n f -> t < n -> run (nth t l dflt_thr) = TSusp c0 ->
  LV (set_nth l t (yield_thr l f t)) n f.
Proof.
  intros I Lt R. unfold yield_thr. destruct (tq (nth t l dflt_thr)) as [|w r] eqn:Q;
    (apply lv_update with (f := f); try assumption; try (intros; reflexivity)).
  - intros x Kx. rewrite (wt_eta x (nth t l dflt_thr)), R, Q. unfold wt. cbn [run tq wrun count_occ].
    destruct (kd (f t)) eqn:Kt; [reflexivity|]. destruct (pf (f t)); cbn [wrun]; try reflexivity;
      (assert (Z : Nat.eqb t x = false) by (apply Nat.eqb_neq; intro; subst; congruence)); rewrite Z; reflexivity.
  - cbn [run]. intros x. destruct (kd (f t)); [discriminate|]. destruct (pf (f t)); intros E; inversion E; auto.
  - cbn [tq]. contradiction.
  - intros Kt. rewrite Kt. destruct (l_plain _ _ _ I t Lt Kt) as [(A & B & C)|[(c' & A & B & C)|[(c' & A & B)|(A & B)]]]; try congruence.
    rewrite B. left. cbn [run tq]. repeat split. congruence.
  - intros x t' Hx. congruence.
  - apply (l_dom _ _ _ I).
  - intros x Kx. rewrite (wt_eta x (nth t l dflt_thr)), R, Q. unfold wt. cbn [run tq wrun count_occ].
    destruct (Nat.eq_dec w x) as [->|N]; [rewrite Nat.eqb_refl; lia|].
    apply Nat.eqb_neq in N. rewrite N. lia.
  - cbn [run]. intros x E. inversion E; subst. left. apply (l_q _ _ _ I t x). rewrite Q. left. reflexivity.
  - cbn [tq]. intros x Hx. apply (l_q _ _ _ I t x). rewrite Q. right. exact Hx.
  - intros Kt. destruct (l_plain _ _ _ I t Lt Kt) as [(A & B & C)|[(c' & A & B & C)|[(c' & A & B)|(A & B)]]]; try congruence.
    right. left. exists w. cbn [run]. split; [reflexivity|]. split; [|exact B].
    apply (l_q _ _ _ I t w). rewrite Q. left. reflexivity.
  - cbn [run]. discriminate.
  - intros x t' Hx. congruence.
  - apply (l_dom _ _ _ I).
Qed.

Lemma lv_plain_done l n f t v' : LV l n f -> t < n -> run (nth t l dflt_thr) = TRun t ->
  kd (f t) = KPlain -> kd v' = KPlain -> pf v' = PDone ->
  LV (set_nth l t (mkThr TIdle (tq (nth t l dflt_thr)))) n (upd f t v').
Proof.
  intros I Lt R Kt Kv Pv.
  assert (Q : tq (nth t l dflt_thr) = []).
  { destruct (l_plain _ _ _ I t Lt Kt) as [(A & B & C)|[(c' & A & B & C)|[(c' & A & B)|(A & B)]]]; try congruence. }
  pose proof (running_not_queued l n f t t I R) as NQ.
  apply lv_update with (f := f); try assumption.
  - intros x. apply kd_upd. congruence.
  - intros x Kx. assert (x <> t) by (intro; subst; congruence). rewrite upd_other by assumption.
    rewrite (wt_eta x (nth t l dflt_thr)), R, Q. unfold wt. cbn [run tq wrun count_occ].
    assert (Z : Nat.eqb t x = false) by (apply Nat.eqb_neq; auto). rewrite Z. reflexivity.
  - cbn [run]. discriminate.
  - rewrite Q. cbn [tq]. contradiction.
  - intros _. right. right. right. cbn [run]. rewrite upd_same. auto.
  - intros _. cbn [tq]. exact Q.
  - intros x t' Hx Nt. assert (x = t). { destruct (Nat.eq_dec x t); [assumption|]. rewrite upd_other in Hx by assumption. congruence. }
    subst x. apply NQ.
  - intros t' Nt Kt'. rewrite upd_other by exact Nt. reflexivity.
  - intros x Lx. rewrite upd_other by lia. apply (l_dom _ _ _ I). exact Lx.
Qed.

(* the second half of a hand-over: c is at PStep already, w is woken, in the three release flavours *)
Lemma lv_wake l n f t c w vw' x : LV l n f -> t < n -> run (nth t l dflt_thr) = TRun c -> pf (f c) = PStep ->
  kd (f w) = KCoro -> live (pf (f w)) = false -> kd vw' = KCoro -> pf vw' = PCs ->
  (kd (f c) = KPlain /\ x = mkThr (TRun w) (tq (nth t l dflt_thr)) \/
   kd (f c) = KCoro /\ x = mkThr (TRun w) (tq (nth t l dflt_thr) ++ [c]) \/
   kd (f c) = KCoro /\ x = mkThr (TRun c) (tq (nth t l dflt_thr) ++ [w])) ->
  LV (set_nth l t x) n (upd f w vw').
Proof.
  intros I Lt R Pc Kw Pw Kvw Pvw X.
  assert (Nwc : w <> c) by (intros ->; rewrite Pc in Pw; discriminate).
  pose proof (nowhere l n f w I Kw Pw) as NW.
  assert (NWq : forall t', ~ In w (tq (nth t' l dflt_thr))) by (intros t'; apply wt_zero_not_in; apply NW).
  apply lv_update with (f := f); try assumption.
  - intros y. apply kd_upd. congruence.
  - (* w becomes live and is put in one place; c keeps its weight, running or queued *)
    intros y Ky.
    assert (E : lw (pf (upd f w vw' y)) = lw (pf (f y)) + wrun y (TRun w)).
    { cbn [wrun]. upd_case y w; [rewrite Pvw, Nat.eqb_refl, (lw_dead _ Pw); reflexivity|].
      rewrite (proj2 (Nat.eqb_neq w y)) by auto. lia. }
    rewrite E, (wt_eta y (nth t l dflt_thr)), R.
    destruct X as [[Kc ->]|[[Kc ->]|[Kc ->]]]; unfold wt; cbn [run tq]; rewrite ?count_occ_app_one; cbn [wrun]; try lia.
    assert (Z : Nat.eqb c y = false) by (apply Nat.eqb_neq; intros ->; congruence). rewrite Z. lia.
  - intros y. destruct X as [[Kc ->]|[[Kc ->]|[Kc ->]]]; cbn [run]; intros E; inversion E; subst; auto.
  - intros y Hy.
    assert (Old : In y (tq (nth t l dflt_thr)) -> kd (f y) = KCoro /\ (pf (upd f w vw' y) = PCs \/ pf (upd f w vw' y) = PStep)).
    { intros Q. rewrite upd_other by (intros ->; exact (NWq t Q)). apply (l_q _ _ _ I t y Q). }
    destruct X as [[Kc ->]|[[Kc ->]|[Kc ->]]]; cbn [tq] in Hy.
    + apply Old. exact Hy.
    + apply in_app_or in Hy. destruct Hy as [Hy|[<-|[]]]; [apply Old; exact Hy|]. rewrite upd_other by auto. auto.
    + apply in_app_or in Hy. destruct Hy as [Hy|[<-|[]]]; [apply Old; exact Hy|]. rewrite upd_same. auto.
  - intros Kt. assert (Ntw : t <> w) by (intro; subst; congruence). unfold plain_ok. rewrite (upd_other _ _ _ _ Ntw).
    destruct (l_plain _ _ _ I t Lt Kt) as [(A & B & C)|[(c' & A & B & C)|[(c' & A & B)|(A & B)]]]; try congruence.
    + assert (c = t) by congruence. subst c.
      destruct X as [[Kc ->]|[[Kc ->]|[Kc ->]]]; try congruence.
      right. left. exists w. cbn [run]. rewrite upd_same. auto.
    + assert (c' = c) by congruence. subst c'.
      right. left. destruct X as [[Kc ->]|[[Kc ->]|[Kc ->]]]; try congruence.
      * exists w. cbn [run]. rewrite upd_same. auto.
      * exists c. cbn [run]. rewrite upd_other by auto. auto.
  - destruct X as [[Kc ->]|[[Kc ->]|[Kc ->]]]; cbn [run]; discriminate.
  - intros y t' Hy Nt. upd_case y w; [apply NWq|congruence].
  - intros t' Nt Kt'. rewrite upd_other; [reflexivity|]. intros ->. congruence.
  - intros y Ly. destruct (l_dom _ _ _ I y Ly) as [A B]. rewrite upd_other; [auto|]. intros ->. congruence.
Qed.

Definition LInv (s : st) : Prop := LV (thrs s) (length (tasks s)) (tvs s).

(* summary of a result state: its thread list, its task views; the number of tasks is unchanged *)
Definition eff (s s' : st) (l' : list thr) (f' : nat -> tview) : Prop :=
  thrs s' = l' /\ length (tasks s') = length (tasks s) /\ forall x, tvs s' x = f' x.

Lemma linv_eff s s' l' f' : eff s s' l' f' -> LV l' (length (tasks s)) f' -> LInv s'.
Proof.
  intros (A & B & C) I. unfold LInv. rewrite A, B.
  apply lv_ext with (f := f'); [intros x; rewrite C; reflexivity|intros x; rewrite C; reflexivity|exact I].
Qed.

Lemma eff_refl s : eff s s (thrs s) (tvs s).
Proof. repeat split. Qed.

Lemma eff_set_task s s1 l f c y : eff s s1 l f -> c < length (tasks s) ->
  eff s (set_task s1 c y) l (upd f c (tvw y)).
Proof.
  intros (A & B & C) L. split; [exact A|]. split; [rewrite set_task_len; exact B|].
  intros x. rewrite tvs_set_task by (rewrite B; exact L). unfold upd. destruct (Nat.eqb x c); [reflexivity|apply C].
Qed.

Lemma eff_enter s s1 l f w : eff s s1 l f -> eff s (enter s1 w) l f.
Proof.
  intros (A & B & C). destruct (same_enter s1 w) as (V & _ & T). split; [exact A|]. split; [congruence|].
  intros x. rewrite <- C. destruct V as (_ & _ & _ & _ & _ & _ & _ & _ & _ & _ & V). symmetry. apply (V x).
Qed.

Lemma eff_set_run s s1 l f t r : eff s s1 l f ->
  eff s (set_run s1 t r) (set_nth l t (mkThr r (tq (nth t l dflt_thr)))) f.
Proof. intros (A & B & C). unfold set_run, gthr. rewrite A. repeat split; assumption. Qed.

Lemma eff_set_tq s s1 l f t q : eff s s1 l f ->
  eff s (set_tq s1 t q) (set_nth l t (mkThr (run (nth t l dflt_thr)) q)) f.
Proof. intros (A & B & C). unfold set_tq, gthr. rewrite A. repeat split; assumption. Qed.

Lemma eff_yield s s1 l f t : eff s s1 l f -> t < length l -> eff s (yield s1 t) (set_nth l t (yield_thr l f t)) f.
Proof.
  intros E L. pose proof E as (A & B & C). unfold yield, yield_thr, gthr. rewrite A.
  destruct (tq (nth t l dflt_thr)) as [|w r] eqn:Q.
  - assert (K : tk (gtask s1 t) = kd (f t)) by (rewrite <- C; reflexivity).
    assert (P : tpc (gtask s1 t) = pf (f t)) by (rewrite <- C; reflexivity).
    rewrite K, P.
    assert (G : forall r0, eff s (set_run s1 t r0) (set_nth l t (mkThr r0 [])) f).
    { intros r0. pose proof (eff_set_run s s1 l f t r0 E) as G. rewrite Q in G. exact G. }
    destruct (kd (f t)); [apply G|]. destruct (pf (f t)); apply G.
  - assert (G : eff s (set_run (set_tq s1 t r) t (TRun w)) (set_nth l t (mkThr (TRun w) r)) f).
    { pose proof (eff_set_run s _ _ f t (TRun w) (eff_set_tq s s1 l f t r E)) as G.
      rewrite set_nth_twice, nth_set_nth_same in G by exact L. exact G. }
    match goal with |- eff s (match ?p with _ => _ end) _ _ => destruct p end; try exact G.
    apply eff_enter. exact G.
Qed.

Lemma yield_thr_vac l f t c : t < length l ->
  set_nth (set_nth l t (mkThr (TSusp c) (tq (nth t l dflt_thr)))) t
          (yield_thr (set_nth l t (mkThr (TSusp c) (tq (nth t l dflt_thr)))) f t) = set_nth l t (yield_thr l f t).
Proof.
  intros L. rewrite set_nth_twice. unfold yield_thr. rewrite nth_set_nth_same by exact L. reflexivity.
Qed.

Lemma lv_vacate_yield l n f t c v' : LV l n f -> t < n -> run (nth t l dflt_thr) = TRun c ->
  kd (f c) = KCoro -> kd v' = KCoro -> live (pf v') = false ->
  LV (set_nth l t (yield_thr l (upd f c v') t)) n (upd f c v').
Proof.
  intros I Lt R K Kv Lv. pose proof (l_len _ _ _ I) as Ln.
  rewrite <- (yield_thr_vac l (upd f c v') t c) by lia.
  eapply lv_yield; [eapply lv_vacate; eassumption|exact Lt|].
  rewrite nth_set_nth_same by lia. reflexivity.
Qed.

Lemma cwait_coro k p fl : cls (k, p, fl) = CWait -> k = KCoro -> p = PParked.
Proof. intros C ->. destruct p; cbn in C; try discriminate; reflexivity. Qed.

Lemma handover_linv s t c : SInv s -> LInv s -> t < length (tasks s) -> run (gthr s t) = TRun c ->
  tpc (gtask s c) = PUnlock -> queue s <> PNull -> LInv (handover s t c).
Proof.
  intros SI LI Lt R P Q. destruct (handover_target s c SI P Q) as (w & EQ & Ww & Nwc & Lc & Lw).
  rewrite (handover_eq s t c w EQ Nwc Lc). unfold gthr in *.
  set (vc := tvw (t_endround (gtask s c) false)). set (vw' := tvw (woken (gtask s w))).
  assert (E : eff s (handed s c w) (thrs s) (upd (upd (tvs s) c vc) w vw')).
  { apply eff_set_task; [apply eff_set_task; [exact (eff_refl s)|exact Lc]|exact Lw]. }
  assert (Lv : live (pf (tvs s c)) = true) by (unfold tvs, tvw, pf; cbn [fst snd]; rewrite P; reflexivity).
  pose proof (lv_pc (thrs s) _ (tvs s) t c vc LI Lt R Lv eq_refl eq_refl) as LI1.
  unfold vw', woken in *. destruct (tk (gtask s w)) eqn:Kw.
  - assert (Pw : tpc (gtask s w) = PParked) by (eapply cwait_coro; [exact Ww|exact Kw]).
    assert (Hand : forall x,
      (tk (gtask s c) = KPlain /\ x = mkThr (TRun w) (tq (nth t (thrs s) dflt_thr)) \/
       tk (gtask s c) = KCoro /\ x = mkThr (TRun w) (tq (nth t (thrs s) dflt_thr) ++ [c]) \/
       tk (gtask s c) = KCoro /\ x = mkThr (TRun c) (tq (nth t (thrs s) dflt_thr) ++ [w])) ->
      LV (set_nth (thrs s) t x) (length (tasks s)) (upd (upd (tvs s) c vc) w (tvw (t_pc (gtask s w) PCs)))).
    { intros x X. apply (lv_wake (thrs s) _ _ t c w _ x LI1 Lt R); try reflexivity; rewrite ?upd_same, ?upd_other by exact Nwc;
        try assumption; try reflexivity.
      unfold tvs, tvw, pf. cbn [fst snd]. rewrite Pw. reflexivity. }
    pose proof (l_len _ _ _ LI) as Ln.
    destruct (tk (gtask s c)) eqn:Kc; [destruct (crel (gtask s c)) eqn:Rl|].
    + eapply linv_eff; [apply eff_set_tq; exact E|]. rewrite R. apply Hand. right. right. auto.
    + eapply linv_eff; [apply eff_set_tq; exact E|]. rewrite R. apply Hand. right. right. auto.
    + eapply linv_eff; [apply eff_enter; apply eff_set_run; apply eff_set_tq; exact E|].
      rewrite set_nth_twice, nth_set_nth_same by lia. cbn [tq]. apply Hand. right. left. auto.
    + eapply linv_eff; [apply eff_enter; apply eff_set_run; exact E|]. apply Hand. left. auto.
  - eapply linv_eff; [exact E|]. apply lv_ext with (f := upd (tvs s) c vc).
    + intros x. unfold upd at 1. destruct (Nat.eqb_spec x w) as [->|N]; [|reflexivity].
      rewrite upd_other by exact Nwc. reflexivity.
    + intros x. unfold upd at 1. destruct (Nat.eqb_spec x w) as [->|N]; [|reflexivity].
      rewrite upd_other by exact Nwc. reflexivity.
    + exact LI1.
Qed.

Lemma enabled_lt s t : enabled s t = true -> t < length (thrs s).
Proof.
  unfold enabled. intros E. apply andb_true_iff in E. destruct E as [_ E].
  destruct (nth_error (thrs s) t) eqn:N; [|discriminate]. apply nth_error_Some. congruence.
Qed.

(* c, executed by t (R) at the pc given by P, gets a runnable record of its kind; possibly followed by `enter` *)
Ltac pc_case LI Lt R P Lc :=
  eapply linv_eff;
  [ first [ apply eff_enter; apply eff_set_task; [exact (eff_refl _) | exact Lc]
          | apply eff_set_task; [exact (eff_refl _) | exact Lc] ]
  | apply (lv_pc _ _ _ _ _ _ LI Lt R);
    [unfold tvs, tvw, pf; cbn [fst snd]; rewrite P; reflexivity | reflexivity | reflexivity] ].

Lemma step_linv s t : SInv s -> LInv s -> enabled s t = true -> LInv (fst (fst (tstep s t))).
Proof.
  intros SI LI En. pose proof SI as [L I]. pose proof (l_len _ _ _ LI) as Ln.
  assert (Lt : t < length (tasks s)) by (rewrite <- Ln; apply enabled_lt; exact En).
  unfold tstep. destruct (run (gthr s t)) as [|c|c] eqn:R; cbn [fst].
  - exact LI.
  - unfold gthr in R.
    destruct (tpc (gtask s c)) eqn:P; cbn [fst];
      try (assert (Lc : c < length (tasks s)) by (apply task_lt; rewrite P; discriminate)).
    + (* PStep *)
      destruct (prog (gtask s c)) as [|[a r] p]; cbn [fst].
      * destruct (tk (gtask s c)) eqn:K.
        -- eapply linv_eff; [apply eff_yield; [unfold set_pc; apply eff_set_task; [apply eff_refl|exact Lc]|lia]|].
           apply lv_vacate_yield; try assumption; reflexivity.
        -- assert (c = t) by (eapply running_plain_self; eassumption). subst c.
           eapply linv_eff; [apply eff_set_run; unfold set_pc; apply eff_set_task; [apply eff_refl|exact Lc]|].
           apply lv_plain_done; try assumption; reflexivity.
      * pc_case LI Lt R P Lc.
    + (* PTry *)
      destruct (requests s) eqn:Rq; cbn [fst].
      * unfold set_pc. pc_case LI Lt R P Lc.
      * destruct (cacq (gtask s c)); [unfold set_pc|]; pc_case LI Lt R P Lc.
      * destruct (cacq (gtask s c)); [unfold set_pc|]; pc_case LI Lt R P Lc.
    + (* PSub e *)
      cbv zeta. destruct (ptr_eqb (requests s) e); cbn [fst]; [|unfold set_pc; pc_case LI Lt R P Lc].
      destruct e; cbn [fst]; [unfold set_pc; pc_case LI Lt R P Lc|..];
        (destruct (tk (gtask s c)) eqn:K; cbn [fst]; [|pc_case LI Lt R P Lc]);
        (eapply linv_eff; [apply eff_set_run; unfold set_pc; apply eff_set_task; [exact (eff_refl _)|exact Lc]|]);
        apply lv_vacate; try assumption; try reflexivity; exact K.
    + unfold set_pc. pc_case LI Lt R P Lc.
    + unfold set_pc. pc_case LI Lt R P Lc.
    + unfold set_pc, build_queue. destruct (bq_walk _ _ _ _ _ _) as [[nx dn] q]. pc_case LI Lt R P Lc.
    + exact LI.
    + pc_case LI Lt R P Lc.
    + pc_case LI Lt R P Lc.
    + (* PUnlock *)
      destruct (requests s) eqn:Rq; cbn [fst]; [exact LI|..];
        (destruct (queue s) eqn:Q; cbn [fst];
         [unfold set_pc; pc_case LI Lt R P Lc|apply handover_linv; try assumption; rewrite Q; discriminate..]).
    + (* PUnlockCas *)
      destruct (requests s) eqn:Rq; cbn [fst]; [unfold set_pc| |unfold set_pc]; pc_case LI Lt R P Lc.
    + (* PBqU *)
      destruct (step_bqu s t c SI P) as (S1 & P1 & Q1 & ->).
      unfold build_queue in *. destruct (bq_walk _ _ _ _ _ _) as [[nx dn] q].
      apply handover_linv; [exact S1| |unfold set_pc; rewrite set_task_len; exact Lt|exact R|exact P1|exact Q1].
      unfold set_pc. pc_case LI Lt R P Lc.
    + exact LI.
  - (* tail of await_suspend *)
    unfold gthr in R.
    eapply linv_eff; [apply eff_yield; [apply eff_refl|lia]|]. eapply lv_yield; eassumption.
Qed.

Lemma init_thrs_len n from : length (init_thrs n from) = n.
Proof. revert from; induction n as [|n IH]; intros from; cbn; auto. Qed.

Lemma nth_init_thrs n : forall from t, t < n -> nth t (init_thrs n from) dflt_thr = mkThr (TRun (from + t)) [].
Proof.
  induction n as [|n IH]; intros from [|t] L; cbn [init_thrs nth]; try lia.
  - rewrite Nat.add_0_r. reflexivity.
  - rewrite IH by lia. f_equal. f_equal. lia.
Qed.

Lemma occ_init n : forall from c, occ (init_thrs n from) c = if Nat.leb from c && Nat.ltb c (from + n) then 1 else 0.
Proof.
  induction n as [|n IH]; intros from c; cbn [init_thrs occ].
  - destruct (Nat.leb_spec from c), (Nat.ltb_spec c (from + 0)); cbn; try reflexivity; lia.
  - rewrite IH. unfold wt. cbn [run tq wrun count_occ].
    destruct (Nat.eqb_spec from c), (Nat.leb_spec (S from) c), (Nat.ltb_spec c (S from + n)),
      (Nat.leb_spec from c), (Nat.ltb_spec c (from + S n)); cbn; try reflexivity; lia.
Qed.

Lemma init_linv ops : LInv (init ops).
Proof.
  unfold LInv. set (n := length (tasks (init ops))).
  assert (TH : thrs (init ops) = init_thrs n 0) by reflexivity. rewrite TH.
  assert (NT : forall t, nth t (init_thrs n 0) dflt_thr = if Nat.ltb t n then mkThr (TRun t) [] else dflt_thr).
  { intros t. destruct (Nat.ltb_spec t n); [rewrite nth_init_thrs by assumption; reflexivity|].
    apply nth_overflow. rewrite init_thrs_len. assumption. }
  assert (DM : forall c, n <= c -> tvs (init ops) c = dflt_tv).
  { intros c Lc. unfold tvs, gtask. rewrite nth_overflow by exact Lc. reflexivity. }
  constructor.
  - apply init_thrs_len.
  - intros c K. rewrite occ_init. cbn [Nat.leb andb Nat.add].
    destruct (Nat.ltb_spec c n) as [Lc|Lc].
    + unfold tvs, tvw, pf. cbn [fst snd]. rewrite (proj1 (init_task ops c Lc)). reflexivity.
    + rewrite DM in K by exact Lc. discriminate.
  - intros t c. rewrite NT. destruct (Nat.ltb t n); cbn [run dflt_thr]; [|discriminate]. intros E. inversion E. auto.
  - intros t c. rewrite NT. destruct (Nat.ltb t n); cbn [tq dflt_thr]; contradiction.
  - intros t Lt K. left. rewrite NT. assert (Q : Nat.ltb t n = true) by (apply Nat.ltb_lt; exact Lt). rewrite Q.
    cbn [run tq]. repeat split. unfold tvs, tvw, pf. cbn [fst snd]. rewrite (proj1 (init_task ops t Lt)). discriminate.
  - intros t. rewrite NT. destruct (Nat.ltb t n); cbn [run tq dflt_thr]; [discriminate|reflexivity].
  - intros c Lc. rewrite DM by exact Lc. split; reflexivity.
Qed.

Lemma reachable_linv ops s : reachable ops s -> LInv s.
Proof.
  induction 1 as [|s t R IH En]; [apply init_linv|].
  apply step_linv; [eapply reachable_inv; exact R|exact IH|exact En].
Qed.

Lemma gthr_out s t : length (thrs s) <= t -> gthr s t = dflt_thr.
Proof. intros. unfold gthr. apply nth_overflow. assumption. Qed.

Lemma one_place s c : LInv s -> tk (gtask s c) = KCoro ->
  occ (thrs s) c = (if live (tpc (gtask s c)) then 1 else 0) /\
  (forall t t', run (gthr s t) = TRun c -> run (gthr s t') = TRun c -> t = t') /\
  (forall t t', run (gthr s t) = TRun c -> ~ In c (tq (gthr s t'))) /\
  (forall t t', In c (tq (gthr s t)) -> In c (tq (gthr s t')) -> t = t') /\
  (forall t, count_occ Nat.eq_dec (tq (gthr s t)) c <= 1) /\
  (live (tpc (gtask s c)) = false -> forall t, run (gthr s t) <> TRun c /\ ~ In c (tq (gthr s t))).
Proof.
  intros LI K. pose proof (l_occ _ _ _ LI c K) as O.
  unfold tvs, tvw, pf in O. cbn [fst snd] in O. unfold gthr.
  (* executing c, or holding it in the queue, weighs at least 1; the total weight is at most 1 *)
  assert (W1 : forall t, run (nth t (thrs s) dflt_thr) = TRun c -> 1 <= wrun c (run (nth t (thrs s) dflt_thr)))
    by (intros t ->; cbn; rewrite Nat.eqb_refl; lia).
  assert (W2 : forall t, In c (tq (nth t (thrs s) dflt_thr)) -> 1 <= count_occ Nat.eq_dec (tq (nth t (thrs s) dflt_thr)) c)
    by (intros t E; apply (count_occ_In Nat.eq_dec) in E; lia).
  assert (LE : occ (thrs s) c <= 1) by (rewrite O; destruct (live _); lia).
  pose proof (occ_ge (thrs s) c) as GE. pose proof (occ_two (thrs s) c) as TWO. unfold wt in GE, TWO.
  split; [exact O|]. split; [|split; [|split; [|split]]].
  - intros t t' A B. destruct (Nat.eq_dec t t') as [|N]; [assumption|].
    pose proof (TWO t t' N). pose proof (W1 t A). pose proof (W1 t' B). lia.
  - intros t t' A B. pose proof (W1 t A). pose proof (W2 t' B). destruct (Nat.eq_dec t t') as [<-|N].
    + pose proof (GE t). lia.
    + pose proof (TWO t t' N). lia.
  - intros t t' A B. destruct (Nat.eq_dec t t') as [|N]; [assumption|].
    pose proof (TWO t t' N). pose proof (W2 t A). pose proof (W2 t' B). lia.
  - intros t. pose proof (GE t). lia.
  - intros D t. rewrite D in O. pose proof (GE t). split; intros A; [pose proof (W1 t A)|pose proof (W2 t A)]; lia.
Qed.

Lemma occ_pos_ex l c : 0 < occ l c -> exists t, t < length l /\ 0 < wt c (nth t l dflt_thr).
Proof.
  induction l as [|th l IH]; cbn [occ]; [lia|]. intros H.
  destruct (Nat.eq_dec (wt c th) 0) as [Z|Z].
  - destruct IH as (t & A & B); [lia|]. exists (S t). cbn [length nth]. split; [lia|exact B].
  - exists 0. cbn [length nth]. split; lia.
Qed.

Lemma enabled_intro s t : err s = false -> t < length (thrs s) ->
  (exists c, run (gthr s t) = TSusp c) \/
  (exists c, run (gthr s t) = TRun c /\ live (tpc (gtask s c)) = true /\ (tpc (gtask s c) = PFlag -> flag (gtask s c) = true)) ->
  enabled s t = true.
Proof.
  intros E L H. unfold enabled. rewrite E. cbn [negb andb].
  destruct (nth_error (thrs s) t) as [th|] eqn:N; [|apply nth_error_None in N; lia].
  unfold gthr in H. rewrite (nth_error_nth _ _ dflt_thr N) in H. destruct th as [r q]. cbn [run] in H.
  destruct H as [(c & ->)|(c & -> & Lv & Fl)]; [reflexivity|].
  destruct (tpc (gtask s c)); try discriminate; try reflexivity. apply Fl. reflexivity.
Qed.

(* a task that could take a step if an OS thread executed it *)
Definition ready (s : st) (o : nat) : Prop :=
  live (tpc (gtask s o)) = true /\ (tpc (gtask s o) = PFlag -> flag (gtask s o) = true).

(* a plain thread inside its blocking wait, nothing nested on it *)
Definition blocked (s : st) (t : nat) : Prop :=
  run (gthr s t) = TRun t /\ tk (gtask s t) = KPlain /\ tq (gthr s t) = [] /\ tpc (gtask s t) = PFlag /\ flag (gtask s t) = false.

Lemma thread_cases ops s t : reachable ops s -> t < length (thrs s) ->
  (run (gthr s t) = TIdle /\ tq (gthr s t) = [] /\ (tk (gtask s t) = KPlain -> tpc (gtask s t) = PDone)) \/
  enabled s t = true \/ blocked s t.
Proof.
  intros R Lt. pose proof (reachable_linv _ _ R) as LI. destruct (reachable_inv _ _ R) as [_ I].
  pose proof (i_err _ I) as Er. cbn [vw v_err] in Er. pose proof (l_len _ _ _ LI) as Ln. rewrite Ln in Lt.
  pose proof (i_bad _ I) as Bad. cbn [vw v_tv] in Bad. unfold tvs, tvw in Bad.
  assert (En : forall c, run (gthr s t) = TRun c -> ready s c -> enabled s t = true).
  { intros c Rn [Lv Fl]. apply enabled_intro; [exact Er|lia|]. right. exists c. auto. }
  unfold blocked. destruct (run (gthr s t)) as [|c|c] eqn:Rn.
  - left. split; [reflexivity|]. split; [apply (l_idle _ _ _ LI t Rn)|]. intros K.
    destruct (l_plain _ _ _ LI t Lt K) as [(A & B & C)|[(c2 & A & B & C)|[(c2 & A & B)|(A & B)]]]; unfold gthr in Rn; try congruence.
    exact B.
  - destruct (tk (gtask s c)) eqn:K.
    + right. left. apply (En c eq_refl). destruct (lv_running _ _ _ t c LI Rn K) as (Lc & _). split; [exact Lc|].
      intros P. destruct (Bad c). rewrite K, P. reflexivity.
    + assert (c = t) by (eapply running_plain_self; eassumption). subst c.
      destruct (l_plain _ _ _ LI t Lt K) as [(A & B & C)|[(c2 & A & B & C)|[(c2 & A & B)|(A & B)]]];
        unfold gthr in Rn; try congruence; [|assert (c2 = t) by congruence; subst c2; unfold tvs, tvw, kd in B; cbn [fst] in B; congruence].
      unfold tvs, tvw, pf in C. cbn [fst snd] in C. specialize (Bad t). rewrite K in Bad.
      (* its own code can step at every pc but the wait with the flag down; a plain task is never parked *)
      assert (Rd : ready s t \/ tpc (gtask s t) = PFlag /\ flag (gtask s t) = false).
      { unfold ready. destruct (tpc (gtask s t)); try (left; split; [reflexivity|discriminate]);
          [destruct Bad; reflexivity| |destruct C; reflexivity].
        destruct (flag (gtask s t)); [left; split; reflexivity|right; split; reflexivity]. }
      destruct Rd as [Rd|[P F]]; [right; left; exact (En t eq_refl Rd)|right; right; auto].
  - right. left. apply enabled_intro; [exact Er|lia|]. left. exists c. exact Rn.
Qed.

Lemma ready_enabled ops s o : reachable ops s -> o < length (tasks s) -> ready s o -> exists t, enabled s t = true.
Proof.
  intros R Lo [Lv Fl]. pose proof (reachable_linv _ _ R) as LI. pose proof (l_len _ _ _ LI) as Ln.
  destruct (tk (gtask s o)) eqn:K.
  - (* a coroutine is somewhere: on a thread that is neither idle nor blocked *)
    pose proof (l_occ _ _ _ LI o K) as O. unfold tvs, tvw, pf in O. cbn [fst snd] in O. rewrite Lv in O.
    destruct (occ_pos_ex (thrs s) o ltac:(lia)) as (t & Lt & W). unfold wt in W. fold (gthr s t) in W.
    destruct (thread_cases ops s t R Lt) as [(A & B & _)|[E|(A & K' & B & _)]]; [|exists t; exact E|]; rewrite A, B in W; cbn in W; [lia|].
    destruct (Nat.eqb_spec t o); [subst; congruence|lia].
  - destruct (thread_cases ops s o R ltac:(lia)) as [(_ & _ & D)|[E|(_ & _ & _ & P & F)]]; [|exists o; exact E|].
    + rewrite (D K) in Lv. discriminate.
    + rewrite (Fl P) in F. discriminate.
Qed.

Lemma no_stuck_state ops s c : reachable ops s -> c < length (tasks s) -> tpc (gtask s c) <> PDone ->
  exists t, enabled s t = true.
Proof.
  intros R Lc ND. destruct (reachable_inv _ _ R) as [_ I].
  assert (Case : waiting s c \/ ready s c).
  { unfold waiting, ready. pose proof (i_bad _ I c) as B. cbn [vw v_tv] in B. unfold tvs, tvw in B.
    destruct (tpc (gtask s c)) eqn:P; try (right; split; [reflexivity|discriminate]); try (left; exact Logic.I); try congruence.
    destruct (flag (gtask s c)); [right; split; [reflexivity|reflexivity]|left; reflexivity]. }
  destruct Case as [W|Rd]; [|eapply ready_enabled; eassumption].
  destruct (direct_handoff s c (reachable_inv _ _ R) W) as (_ & o & Ho & _).
  assert (Lo : o < length (tasks s)).
  { apply task_lt. unfold holds in Ho. intro Z. rewrite Z in Ho. exact Ho. }
  eapply ready_enabled; [exact R|exact Lo|]. unfold holds in Ho. unfold ready.
  destruct (tpc (gtask s o)); try contradiction; split; try reflexivity; try discriminate; intros _; exact Ho.
Qed.

(* terminal states: no thread enabled  =>  every declared contender has finished, the mutex is free again *)
Lemma terminal_all_done ops s : reachable ops s -> (forall t, enabled s t = false) ->
  (forall c, tpc (gtask s c) = PDone) /\ requests s = PNull /\ queue s = PNull /\ alog s = glog s.
Proof.
  intros R T.
  assert (D : forall c, tpc (gtask s c) = PDone).
  { intros c. destruct (le_lt_dec (length (tasks s)) c) as [G|G].
    - unfold gtask. rewrite nth_overflow by exact G. reflexivity.
    - destruct (pc_eq_dec (tpc (gtask s c)) PDone) as [E|E]; [exact E|]. exfalso.
      destruct (no_stuck_state _ _ _ R G E) as (t & En). rewrite T in En. discriminate. }
  split; [exact D|].
  destruct (no_lost_request s (reachable_inv _ _ R)) as (A & B & C & _); [|auto].
  intros c H. unfold holds in H. rewrite D in H. exact H.
Qed.
