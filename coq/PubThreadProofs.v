(* PubThreadProofs.v — the property oracle accepts the model's trace of EVERY threaded case (any programs, any schedule,
   re-entrant subscribers, two publisher threads): every line of a threaded trace is a locked step of PublisherDefs.step
   from the state the previous lines led to, so the simulation relation R of PublisherProofs is carried along the whole
   trace whatever the scheduler does. *)
From Cocls Require Import Base BaseProofs PublisherDefs PublisherProofs PubThreadDefs.
Local Open Scope Z_scope.

Section Trace.
Variable sp : list sthr.
Variable pa pb : list op.

Fixpoint mon_tr (m : mon) (tr : list (nat * tag * obs)) : mon :=
  match tr with
  | [] => m
  | x :: t => mon_tr (mon_step m (op_of_tag sp pa pb (snd (fst x))) (snd x)) t
  end.

Lemma mon_tr_app m a b : mon_tr m (a ++ b) = mon_tr (mon_tr m a) b.
Proof. revert m; induction a as [|x a IH]; intros m; [reflexivity|]. cbn [app mon_tr]. apply IH. Qed.

Definition tag_ok (t : tag) : Prop :=
  match t with
  | TStep c _ => c = 5 \/ c = 6 \/ c = 7
  | TPub k _ | TSkip k _ => (k <= 1)%nat
  | _ => True
  end.

Lemma dec_enc_tag t : tag_ok t ->
  match enc_tag t with [c; a] => dec_tag c a = Some t | _ => False end.
Proof.
  destruct t as [i|k j|k j|c s|i]; cbn [enc_tag tag_ok]; intros H; unfold dec_tag;
    rewrite (proj2 (Z.ltb_ge _ _) (Nat2Z.is_nonneg _)), Nat2Z.id.
  - reflexivity.
  - destruct k as [|[|k]]; [reflexivity|reflexivity|lia].
  - destruct k as [|[|k]]; [reflexivity|reflexivity|lia].
  - destruct H as [ -> | [ -> | -> ] ]; reflexivity.
  - reflexivity.
Qed.

Lemma mon_lines_enc tr : Forall (fun x => tag_ok (snd (fst x))) tr ->
  forall m, mon_lines sp pa pb m (map enc_line tr) = mon_tr m tr.
Proof.
  induction 1 as [|[[t tg] o] tr H F IH]; intros m; [reflexivity|].
  cbn [map mon_tr fst snd]. unfold enc_line at 1. cbn [fst snd].
  pose proof (dec_enc_tag tg H) as D. destruct (enc_tag tg) as [|c [|a [|? ?]]]; try contradiction.
  cbn [app mon_lines]. rewrite D, dec_enc. apply IH.
Qed.

Lemma pub_tag_ok ts prog k j : (k <= 1)%nat -> tag_ok (pub_tag ts prog k j).
Proof.
  intros K. unfold pub_tag. destruct (nth j prog OBad); try exact K;
    repeat match goal with |- context[if ?c then _ else _] => destruct c end; exact K.
Qed.

(* publisher items only ever carry program index 0 or 1 *)
Definition item_ok (x : item) : Prop := match x with IPub k => (k <= 1)%nat | _ => True end.
Definition items_ok (st : list item) : Prop := Forall item_ok st.
Definition stacks_ok (ts : tstate) : Prop := Forall items_ok (ts_stacks ts).

Lemma tstep_spec e ts t : items_ok (stack_of ts t) ->
  match snd (tstep sp pa pb e ts t) with
  | Some (tg, o) => o = snd (step e (op_of_tag sp pa pb tg)) /\
                    fst (fst (tstep sp pa pb e ts t)) = fst (step e (op_of_tag sp pa pb tg)) /\ tag_ok tg
  | None => fst (fst (tstep sp pa pb e ts t)) = e
  end.
Proof.
  intros SO. unfold tstep. destruct (stack_of ts t) as [|[k| |i|w|l] rest]; cbn [fst snd]; try reflexivity.
  - split; [reflexivity|]. split; [reflexivity|]. apply pub_tag_ok. exact (Forall_inv SO).
  - destruct (st_pc (sget (ts_subs ts) i) =? 7); cbn [fst snd].
    { split; [reflexivity|]. split; [reflexivity|exact I]. }
    destruct (sub_code (sget (ts_subs ts) i)) as [c|] eqn:SC; cbn [fst snd]; [|reflexivity].
    split; [reflexivity|]. split; [reflexivity|]. unfold sub_code in SC. cbn [tag_ok].
    repeat match type of SC with (if ?c then _ else _) = _ => destruct c end; try discriminate; injection SC as <-; auto.
Qed.

Lemma items_ok_enqueue cs st : items_ok st -> items_ok (enqueue cs st).
Proof. induction 1 as [|x st X H IH]; [constructor|]. destruct x; cbn [enqueue]; constructor; assumption. Qed.

Lemma items_ok_settle_f fuel : forall subs st, items_ok st -> items_ok (snd (settle_f fuel subs st)).
Proof.
  induction fuel as [|f IH]; intros subs st H; [exact H|]. cbn [settle_f].
  destruct H as [|x st X H']; [constructor|].
  destruct x; try (constructor; assumption).
  - destruct (has_q st); [apply IH, items_ok_enqueue, H'|].
    destruct (wake_prefix subs w) as [[subs1 [i|]] w1]; cbn [snd]; [|apply IH; exact H'].
    repeat constructor. destruct w1; [exact H'|constructor; [exact I|exact H']].
  - destruct l as [|i l]; [apply IH; exact H'|]. cbn [snd]. repeat constructor. exact H'.
Qed.

Lemma items_ok_settle st subs : items_ok st -> items_ok (snd (settle subs st)).
Proof. apply items_ok_settle_f. Qed.

Lemma stack_of_ok ts t : stacks_ok ts -> items_ok (stack_of ts t).
Proof.
  intros H. unfold stack_of. destruct (nth_in_or_default t (ts_stacks ts) []) as [I|E]; [|rewrite E; constructor].
  unfold stacks_ok in H. rewrite Forall_forall in H. apply H. exact I.
Qed.

Lemma tstep_stacks_ok e ts t : stacks_ok ts -> stacks_ok (snd (fst (tstep sp pa pb e ts t))).
Proof.
  intros H. pose proof (stack_of_ok ts t H) as SO. unfold tstep.
  assert (RL : forall x o, items_ok (if relocks e x o then [IRelock] else [])) by (intros x o; destruct (relocks e x o); repeat constructor).
  destruct (stack_of ts t) as [|[k| |i|w|l] rest] eqn:ST; cbn [fst snd]; try exact H.
  - inversion SO as [|? ? K RO]; subst.
    apply Forall_set_nth; [exact H|]. apply items_ok_settle.
    constructor; [exact I|]. apply Forall_app; split; [apply RL|]. apply Forall_app; split; [|exact RO].
    unfold pub_rest. destruct (_ <? _)%nat; [constructor; [exact K|constructor]|constructor].
  - apply Forall_set_nth; [exact H|]. apply items_ok_settle. apply (Forall_inv_tail SO).
  - pose proof (Forall_inv_tail SO) as RO.
    destruct (st_pc (sget (ts_subs ts) i) =? 7); cbn [fst snd].
    { apply Forall_set_nth; [exact H|]. apply items_ok_settle.
      constructor; [exact I|]. apply Forall_app; split; [apply RL|]. destruct (stays _); [exact SO|exact RO]. }
    destruct (sub_code (sget (ts_subs ts) i)); cbn [fst snd]; [|exact H].
    apply Forall_set_nth; [exact H|].
    destruct (stays _); cbn [snd]; [exact SO|apply items_ok_settle; exact RO].
  - apply Forall_set_nth; [exact H|]. apply items_ok_settle. exact SO.
  - apply Forall_set_nth; [exact H|]. apply items_ok_settle. exact SO.
Qed.

Lemma trun_good fuel : forall e ts sched m, stacks_ok ts -> R e m ->
  good_b (mon_tr m (trun fuel sp pa pb e ts sched)) = true /\
  Forall (fun x => tag_ok (snd (fst x))) (trun fuel sp pa pb e ts sched).
Proof.
  induction fuel as [|f IH]; intros e ts sched m SK HR; [split; [apply HR|constructor]|].
  cbn [trun]. destruct (pick ts (hd 0 sched)) as [t|]; [|split; [apply HR|constructor]].
  pose proof (tstep_spec e ts t (stack_of_ok ts t SK)) as SP. pose proof (tstep_stacks_ok e ts t SK) as SK1.
  destruct (tstep sp pa pb e ts t) as [[e1 ts1] [[tg o]|]]; cbn [fst snd] in *.
  - destruct SP as (-> & -> & TG).
    destruct (IH (fst (step e (op_of_tag sp pa pb tg))) ts1 (tl sched)
                 (mon_step m (op_of_tag sp pa pb tg) (snd (step e (op_of_tag sp pa pb tg)))) SK1) as (A & B).
    { apply step_R. exact HR. }
    split; [exact A|constructor; [exact TG|exact B]].
  - subst e1. apply IH; [exact SK1|exact HR].
Qed.
End Trace.

Lemma setup_good sp pa pb n : forall i e m, R e m ->
  R (snd (setup sp e i n)) (mon_tr sp pa pb m (fst (setup sp e i n))) /\
  Forall (fun x => tag_ok (snd (fst x))) (fst (setup sp e i n)).
Proof.
  induction n as [|n IH]; intros i e m HR; [split; [exact HR|constructor]|].
  cbn [setup fst snd mon_tr].
  assert (E : op_of_tag sp pa pb (TSetup i) = op_of_tag sp [] [] (TSetup i)) by reflexivity.
  rewrite E. destruct (IH (S i) _ _ (step_R e m (op_of_tag sp [] [] (TSetup i)) HR)) as (A & B).
  split; [exact A|constructor; [exact I|exact B]].
Qed.

Lemma init_stacks_ok subs pa pb : stacks_ok (init_ts subs pa pb).
Proof.
  unfold stacks_ok, init_ts. cbn [ts_stacks]. apply Forall_app. split; [constructor|].
  - destruct pa; repeat constructor.
  - apply Forall_forall. intros st I. apply in_map_iff in I as (i & <- & _).
    destruct (st_pc (sget subs i) =? 5); [constructor|]. destruct (st_style (sget subs i) =? 1); repeat constructor.
  - destruct pb; repeat constructor.
Qed.

(* parse_case tests the 100 of the second line by pattern matching: every other shape of z falls through to None *)
Lemma parse_case_cfg ops c : parse_case ops = Some c -> cfg_ok_b (tc_mn c) (tc_mx c) = true.
Proof.
  unfold parse_case. destruct ops as [|c0 [|[|z sl] rest]]; try discriminate.
  destruct (Z.eq_dec z 100) as [->|N]; [|destruct z as [|p|p]; try discriminate; do 7 (destruct p; try discriminate); lia].
  destruct (cfg_of c0) as [[mn mx]|] eqn:CF; [|discriminate].
  destruct (parse_subs sl); [|discriminate]. destruct (split_sched rest) as [[p s]|]; [|discriminate].
  destruct (length l <=? 3)%nat; [|discriminate]. intros PC. injection PC as <-. exact (cfg_of_ok _ _ _ CF).
Qed.

Theorem threads_oracle_accepts_model ops : pubt_oracle ops (pubt_run ops) = true.
Proof.
  unfold pubt_oracle, pubt_run. destruct (parse_case ops) as [c|] eqn:PC; [|reflexivity].
  pose proof (parse_case_cfg _ _ PC) as C.
  unfold thr_trace.
  destruct (setup_good (tc_subs c) (tc_pa c) (tc_pb c) (length (tc_subs c)) 0 _ _ (R_init _ _ C)) as (RS & FS).
  destruct (trun_good (tc_subs c) (tc_pa c) (tc_pb c) (fuel_of c) _ (init_ts (tc_subs c) (tc_pa c) (tc_pb c)) (tc_sched c) _
                      (init_stacks_ok _ _ _) RS) as (GT & FT).
  rewrite mon_lines_enc by (apply Forall_app; split; assumption).
  rewrite mon_tr_app. exact GT.
Qed.
