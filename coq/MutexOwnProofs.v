(* MutexOwnProofs.v — the ownership objects of cocls::mutex: for every operation sequence, a mutex is locked
   exactly when exactly one ownership object holds it (or one grant is in flight during a hand-over), every
   way of giving an ownership up (release, destruction, being overwritten by a move assignment) unlocks or
   hands over exactly once, and when no object holds anything every mutex is free and no request is pending. *)
From Cocls Require Import Base BaseProofs MutexOwnDefs.
Local Open Scope nat_scope.

Definition is_m (m : nat) (v : option nat) : nat := match v with Some x => if Nat.eqb x m then 1 else 0 | None => 0 end.
Fixpoint heldl (l : list (option nat)) (m : nat) : nat := match l with [] => 0 | v :: r => is_m m v + heldl r m end.
Definition held (s : wst) (m : nat) : nat := heldl (slots s) m.
Definition b2n (b : bool) : nat := if b then 1 else 0.

Record WI (s : wst) (pend : option nat) : Prop := {
  w_cnt : forall m, held s m + is_m m pend = b2n (locked (gmx s m));
  w_wait : forall m, waitq (gmx s m) <> [] -> locked (gmx s m) = true;
  w_tgt : forall m k, In k (waitq (gmx s m)) -> k < length (wts s) /\ wslot (gwt s k) < length (slots s);
  w_err : werr s = false
}.

Lemma heldl_set l j v m : j < length l ->
  heldl (set_nth l j v) m + is_m m (nth j l None) = heldl l m + is_m m v.
Proof.
  revert j. induction l as [|y l IH]; intros [|j] L; cbn [length] in L; try lia.
  - cbn [set_nth heldl nth]. lia.
  - cbn [set_nth heldl nth]. specialize (IH j ltac:(lia)). lia.
Qed.

Lemma gmx_set_mx s m x m' : m < length (mxs s) -> gmx (set_mx s m x) m' = if Nat.eqb m' m then x else gmx s m'.
Proof.
  intros L. unfold gmx, set_mx. cbn [mxs]. destruct (Nat.eqb_spec m' m) as [->|N].
  - apply nth_set_nth_same. exact L.
  - apply nth_set_nth_other. auto.
Qed.

Lemma locked_lt s m : locked (gmx s m) = true -> m < length (mxs s).
Proof.
  intros H. destruct (le_lt_dec (length (mxs s)) m) as [G|G]; [|exact G].
  unfold gmx in H. rewrite nth_overflow in H by exact G. discriminate.
Qed.

Lemma pending_set l m x : m < length l ->
  fold_right (fun y n => length (waitq y) + n) 0 (set_nth l m x) + length (waitq (nth m l (mkM false []))) =
  fold_right (fun y n => length (waitq y) + n) 0 l + length (waitq x).
Proof.
  revert m. induction l as [|y l IH]; intros [|m] L; cbn [length] in L; try lia.
  - cbn [set_nth fold_right nth]. lia.
  - cbn [set_nth fold_right nth]. specialize (IH m ltac:(lia)). lia.
Qed.

Lemma is_m_le m v : is_m m v <= 1.
Proof. unfold is_m. destruct v as [x|]; [destruct (Nat.eqb x m)|]; lia. Qed.

Definition relf (f : nat) (s' : wst) (a : nat) : wst :=
  match gslot s' a with Some m2 => unlock f (set_slot s' a None) m2 | None => s' end.

Lemma gslot_lt s a m : gslot s a = Some m -> a < length (slots s).
Proof.
  intros E. destruct (le_lt_dec (length (slots s)) a) as [G|G]; [|exact G].
  unfold gslot in E. rewrite nth_overflow in E by exact G. discriminate.
Qed.

(* an ownership object is overwritten: what it held is in flight instead of what is stored *)
Lemma set_slot_wi s j v : WI s v -> j < length (slots s) -> WI (set_slot s j v) (gslot s j).
Proof.
  intros I Lj. constructor.
  - intros m. change (gmx (set_slot s j v) m) with (gmx s m). unfold held. cbn [set_slot slots].
    pose proof (heldl_set (slots s) j v m Lj) as H. pose proof (w_cnt s _ I m) as C. unfold held, gslot in *. lia.
  - apply (w_wait s _ I).
  - intros m k Hk. cbn [set_slot slots wts]. rewrite set_nth_length. apply (w_tgt s _ I m k Hk).
  - apply (w_err s _ I).
Qed.

Lemma set_mx_wi s m x p p' : WI s p -> m < length (mxs s) ->
  held s m + is_m m p' = b2n (locked x) -> (forall m', m' <> m -> is_m m' p' = is_m m' p) ->
  (waitq x <> [] -> locked x = true) -> incl (waitq x) (waitq (gmx s m)) ->
  WI (set_mx s m x) p'.
Proof.
  intros I Lt Hm Ho Hw Hq. constructor.
  - intros m'. rewrite gmx_set_mx by exact Lt. change (held (set_mx s m x) m') with (held s m').
    destruct (Nat.eqb_spec m' m) as [->|N]; [exact Hm|]. rewrite (Ho m' N). apply (w_cnt s _ I).
  - intros m'. rewrite gmx_set_mx by exact Lt. destruct (Nat.eqb m' m); [exact Hw|apply (w_wait s _ I)].
  - intros m' k. rewrite gmx_set_mx by exact Lt. change (wts (set_mx s m x)) with (wts s).
    change (slots (set_mx s m x)) with (slots s). change (gwt (set_mx s m x) k) with (gwt s k).
    destruct (Nat.eqb m' m); [intros Hk; apply (w_tgt s _ I m), Hq, Hk|apply (w_tgt s _ I)].
  - apply (w_err s _ I).
Qed.

Lemma is_m_other m m' : m' <> m -> is_m m' (Some m) = 0.
Proof. intros N. cbn. destruct (Nat.eqb_spec m m'); [congruence|reflexivity]. Qed.

Lemma wi_flight s m : WI s (Some m) -> locked (gmx s m) = true /\ held s m = 0 /\ m < length (mxs s).
Proof.
  intros I. pose proof (w_cnt s _ I m) as C. cbn [is_m] in C. rewrite Nat.eqb_refl in C.
  destruct (locked (gmx s m)) eqn:Lm; cbn [b2n] in C; [|lia].
  split; [reflexivity|]. split; [lia|apply locked_lt; exact Lm].
Qed.

Lemma unlock_free_wi s m : WI s (Some m) -> waitq (gmx s m) = [] ->
  WI (set_mx s m (mkM false [])) None /\ pending (set_mx s m (mkM false [])) <= pending s.
Proof.
  intros I Q. destruct (wi_flight s m I) as (Lm & H0 & Lt). split.
  - apply (set_mx_wi s m _ (Some m)); try assumption.
    + cbn. lia.
    + intros m' N. rewrite is_m_other by exact N. reflexivity.
    + cbn. congruence.
    + intros k [].
  - unfold pending. cbn [set_mx mxs]. pose proof (pending_set (mxs s) m (mkM false []) Lt) as PS.
    fold (gmx s m) in PS. rewrite Q in PS. cbn [length waitq] in PS. lia.
Qed.

(* the callback's own release() calls, given the statement for hand-over chains with this fuel *)
Lemma rel_fold_inv f :
  (forall s m, WI s (Some m) -> pending s <= f -> WI (unlock f s m) None /\ pending (unlock f s m) <= pending s) ->
  forall l s, WI s None -> pending s <= f ->
  WI (fold_left (relf f) l s) None /\ pending (fold_left (relf f) l s) <= pending s.
Proof.
  intros H. induction l as [|a l IHl]; intros s I P; cbn [fold_left]; [split; [exact I|lia]|].
  assert (Q : WI (relf f s a) None /\ pending (relf f s a) <= pending s).
  { unfold relf. destruct (gslot s a) as [m2|] eqn:E; [|split; [exact I|lia]].
    pose proof (set_slot_wi s a None I (gslot_lt s a m2 E)) as I1. rewrite E in I1.
    assert (P' : pending (set_slot s a None) <= f) by exact P.
    destruct (H (set_slot s a None) m2 I1 P') as [A B]. split; [exact A|exact B]. }
  destruct Q as [I1 P1]. destruct (IHl (relf f s a) I1 ltac:(lia)) as [A B]. split; [exact A|lia].
Qed.

(* the hand-over chain: one grant of m is in flight *)
Lemma unlock_inv fuel : forall s m, WI s (Some m) -> pending s <= fuel ->
  WI (unlock fuel s m) None /\ pending (unlock fuel s m) <= pending s.
Proof.
  induction fuel as [|f IH]; intros s m I P; destruct (wi_flight s m I) as (Lm & H0 & Lt);
    cbn [unlock]; destruct (waitq (gmx s m)) as [|k r] eqn:Q; try (apply unlock_free_wi; assumption).
  - (* no fuel, so nothing is pending *)
    exfalso. pose proof (pending_set (mxs s) m (mkM true []) Lt) as PS. fold (gmx s m) in PS.
    rewrite Q in PS. cbn [length waitq] in PS. unfold pending in P. lia.
  - (* waiter k is resumed and stores its ownership *)
    destruct (w_tgt s _ I m k) as [Lk Lj]; [rewrite Q; left; reflexivity|].
    set (s1 := set_mx s m (mkM true r)).
    set (s2 := mkWS (mxs s1) (slots s1) (wts s1) (runlog s1 ++ [k]) (werr s1)).
    set (j := wslot (gwt s2 k)). set (s3 := set_slot s2 j (Some m)).
    assert (P1 : pending s2 + S (length r) = pending s + length r).
    { unfold pending. cbn [s2 s1 set_mx mxs]. pose proof (pending_set (mxs s) m (mkM true r) Lt) as PS.
      fold (gmx s m) in PS. rewrite Q in PS. cbn [length waitq] in PS. lia. }
    assert (I1 : WI s1 (Some m)).
    { apply (set_mx_wi s m _ (Some m)); try assumption; try reflexivity.
      - cbn [is_m locked b2n]. rewrite Nat.eqb_refl. lia.
      - rewrite Q. apply incl_tl, incl_refl. }
    assert (I3 : WI s3 (gslot s2 j)).
    { apply set_slot_wi; [destruct I1; constructor; assumption|exact Lj]. }
    assert (P3 : pending s3 <= f) by (change (pending s3) with (pending s2); lia).
    fold (relf f).
    assert (S4 : WI (match gslot s2 j with Some m' => unlock f s3 m' | None => s3 end) None /\
                 pending (match gslot s2 j with Some m' => unlock f s3 m' | None => s3 end) <= pending s2).
    { destruct (gslot s2 j) as [m'|] eqn:Old.
      - destruct (IH s3 m' I3 P3) as [A B]. split; [exact A|]. change (pending s3) with (pending s2) in B. exact B.
      - split; [exact I3|]. change (pending s3) with (pending s2). lia. }
    destruct S4 as [I4 P4].
    destruct (rel_fold_inv f IH (wrel (gwt s2 k)) _ I4 ltac:(lia)) as [A B]. split; [exact A|lia].
Qed.

(* giving one ownership of v up / putting it in flight *)
Lemma store_inv s j v : WI s v -> j < length (slots s) -> WI (store s j v) None.
Proof.
  intros I Lj. unfold store. pose proof (set_slot_wi s j v I Lj) as I1.
  destruct (gslot s j) as [m'|]; [|exact I1]. apply unlock_inv; [exact I1|lia].
Qed.

Lemma destroy_inv s j : WI s None -> j < length (slots s) -> WI (destroy s j) None.
Proof.
  intros I Lj. unfold destroy. destruct (gslot s j) as [m|] eqn:E; [|exact I].
  pose proof (store_inv s j None I Lj) as H. unfold store in H. rewrite E in H. exact H.
Qed.

Lemma lock_inv s m : WI s None -> locked (gmx s m) = false -> m < length (mxs s) ->
  WI (set_mx s m (mkM true (waitq (gmx s m)))) (Some m).
Proof.
  intros I F Lt. apply (set_mx_wi s m _ None); try assumption; try reflexivity.
  - pose proof (w_cnt s _ I m) as C. rewrite F in C. cbn [is_m locked b2n] in *. rewrite Nat.eqb_refl. lia.
  - intros m' N. apply is_m_other. exact N.
  - apply incl_refl.
Qed.

Definition shape (s : wst) : Prop := length (mxs s) = NM /\ length (slots s) = NS.

Lemma shape_set_slot s j v : shape s -> shape (set_slot s j v).
Proof. intros [A B]. split; cbn [set_slot mxs slots]; rewrite ?set_nth_length; assumption. Qed.
Lemma shape_set_mx s m x : shape s -> shape (set_mx s m x).
Proof. intros [A B]. split; cbn [set_mx mxs slots]; rewrite ?set_nth_length; assumption. Qed.

Lemma relfold_shape f : (forall s m, shape s -> shape (unlock f s m)) ->
  forall l s, shape s -> shape (fold_left (relf f) l s).
Proof.
  intros H. induction l as [|a l IHl]; intros s S; cbn [fold_left]; [exact S|]. apply IHl.
  unfold relf. destruct (gslot s a); [apply H; apply shape_set_slot; exact S|exact S].
Qed.

Lemma unlock_shape fuel : forall s m, shape s -> shape (unlock fuel s m).
Proof.
  induction fuel as [|f IH]; intros s m S; cbn [unlock];
    (destruct (waitq (gmx s m)) as [|k r]; [apply shape_set_mx; exact S|]); [exact S|].
  fold (relf f). apply relfold_shape; [exact IH|].
  match goal with |- shape (match ?o with _ => _ end) => destruct o end; [apply IH|];
    apply shape_set_slot; exact (shape_set_mx s m _ S).
Qed.

Lemma store_shape s j v : shape s -> shape (store s j v).
Proof. intros S. unfold store. destruct (gslot s j); [apply unlock_shape|]; apply shape_set_slot; exact S. Qed.

Lemma destroy_shape s j : shape s -> shape (destroy s j).
Proof. intros S. unfold destroy. destruct (gslot s j); [apply unlock_shape; apply shape_set_slot|]; exact S. Qed.

Lemma okm_lt m : okm m = true -> z2n m < NM.
Proof. unfold okm, z2n, NM. intros H. apply andb_true_iff in H. destruct H as [A B]. apply Z.leb_le in A. apply Z.ltb_lt in B. lia. Qed.
Lemma oks_lt j : oks j = true -> z2n j < NS.
Proof. unfold oks, z2n, NS. intros H. apply andb_true_iff in H. destruct H as [A B]. apply Z.leb_le in A. apply Z.ltb_lt in B. lia. Qed.

Definition OK (s : wst) : Prop := WI s None /\ shape s.

(* a slot that no pending callback targets is not touched by a hand-over chain *)
Definition untargeted (s : wst) (j : nat) : Prop :=
  forall x k, In x (mxs s) -> In k (waitq x) -> wslot (gwt s k) <> j /\ ~ In j (wrel (gwt s k)).

Lemma targeted_false s j : targeted s j = false -> untargeted s j.
Proof.
  unfold targeted, untargeted. intros H x k Hx Hk.
  assert (F : (Nat.eqb (wslot (gwt s k)) j || existsb (Nat.eqb j) (wrel (gwt s k)))%bool = false).
  { destruct (Nat.eqb (wslot (gwt s k)) j || existsb (Nat.eqb j) (wrel (gwt s k)))%bool eqn:E; [|reflexivity]. exfalso.
    assert (T : existsb (fun x => existsb (fun k => Nat.eqb (wslot (gwt s k)) j || existsb (Nat.eqb j) (wrel (gwt s k)))%bool (waitq x)) (mxs s) = true).
    { apply existsb_exists. exists x. split; [exact Hx|]. apply existsb_exists. exists k. split; [exact Hk|exact E]. }
    congruence. }
  apply orb_false_iff in F. destruct F as [F1 F2]. split.
  - apply Nat.eqb_neq. exact F1.
  - intro Q. assert (existsb (Nat.eqb j) (wrel (gwt s k)) = true); [|congruence].
    apply existsb_exists. exists j. split; [exact Q|apply Nat.eqb_refl].
Qed.

Lemma gmx_in s m : m < length (mxs s) -> In (gmx s m) (mxs s).
Proof. intros L. unfold gmx. apply nth_In. exact L. Qed.

Lemma relfold_keep f j :
  (forall s m, untargeted s j -> gslot (unlock f s m) j = gslot s j /\ untargeted (unlock f s m) j) ->
  forall l s, ~ In j l -> untargeted s j ->
  gslot (fold_left (relf f) l s) j = gslot s j /\ untargeted (fold_left (relf f) l s) j.
Proof.
  intros H. induction l as [|a l IHl]; intros s N U; cbn [fold_left]; [split; [reflexivity|exact U]|].
  assert (Na : a <> j) by (intro; subst; apply N; left; reflexivity).
  assert (Q : gslot (relf f s a) j = gslot s j /\ untargeted (relf f s a) j).
  { unfold relf. destruct (gslot s a) as [m2|]; [|split; [reflexivity|exact U]].
    destruct (H (set_slot s a None) m2) as [A B]; [exact U|]. split; [|exact B].
    rewrite A. unfold gslot. cbn [set_slot slots]. apply nth_set_nth_other. exact Na. }
  destruct Q as [Q1 Q2]. destruct (IHl (relf f s a)) as [A B]; [intro; apply N; right; assumption|exact Q2|].
  split; [rewrite A; exact Q1|exact B].
Qed.

Lemma untargeted_set_mx s m x j : untargeted s j ->
  (forall k, In k (waitq x) -> In k (waitq (gmx s m)) /\ m < length (mxs s)) -> untargeted (set_mx s m x) j.
Proof.
  intros U H y k Hy Hk. change (gwt (set_mx s m x) k) with (gwt s k). cbn [set_mx mxs] in Hy.
  apply In_set_nth in Hy. destruct Hy as [->|Hy]; [|exact (U y k Hy Hk)].
  destruct (H k Hk) as [A G]. exact (U (gmx s m) k (gmx_in s m G) A).
Qed.

Lemma unlock_keep fuel : forall s m j, untargeted s j ->
  gslot (unlock fuel s m) j = gslot s j /\ untargeted (unlock fuel s m) j.
Proof.
  induction fuel as [|f IH]; intros s m j U; cbn [unlock];
    (destruct (waitq (gmx s m)) as [|k r] eqn:Q; [split; [reflexivity|apply untargeted_set_mx; [exact U|intros k []]]|]);
    [split; [reflexivity|exact U]|].
  assert (G : m < length (mxs s)).
  { destruct (le_lt_dec (length (mxs s)) m) as [G|G]; [|exact G]. unfold gmx in Q. rewrite nth_overflow in Q by exact G. discriminate. }
  destruct (U (gmx s m) k) as [Nk Nr]; [apply gmx_in; exact G|rewrite Q; left; reflexivity|].
  set (s1 := set_mx s m (mkM true r)).
  set (s2 := mkWS (mxs s1) (slots s1) (wts s1) (runlog s1 ++ [k]) (werr s1)).
  set (s3 := set_slot s2 (wslot (gwt s2 k)) (Some m)).
  assert (U3 : untargeted s3 j).
  { apply (untargeted_set_mx s m (mkM true r) j U). intros k' Hk'. rewrite Q. split; [right; exact Hk'|exact G]. }
  assert (G3 : gslot s3 j = gslot s j).
  { unfold gslot, s3. cbn [set_slot slots]. apply nth_set_nth_other. exact Nk. }
  change (wslot (gwt s2 k)) with (wslot (gwt s k)) in *. change (wrel (gwt s2 k)) with (wrel (gwt s k)).
  fold (relf f).
  assert (S4 : gslot (match gslot s2 (wslot (gwt s k)) with Some m' => unlock f s3 m' | None => s3 end) j = gslot s j /\
               untargeted (match gslot s2 (wslot (gwt s k)) with Some m' => unlock f s3 m' | None => s3 end) j).
  { destruct (gslot s2 (wslot (gwt s k))) as [m'|].
    - destruct (IH s3 m' j U3) as [A B]. split; [rewrite A; exact G3|exact B].
    - split; [exact G3|exact U3]. }
  destruct S4 as [A4 U4].
  destruct (relfold_keep f j (fun s0 m0 => IH s0 m0 j) (wrel (gwt s k)) _ Nr U4) as [A B].
  split; [rewrite A; exact A4|exact B].
Qed.

Definition valid (o : oop) : Prop :=
  match o with
  | OTry m j | OCb m j _ => m < NM /\ j < NS
  | ORel j | ODestroy j | OBool j => j < NS
  | OMove i j | OCtor i j => i < NS /\ j < NS
  | OProbe m => m < NM
  end.

Lemma store_ok s j v : WI s v -> shape s -> j < NS -> OK (store s j v).
Proof. intros I S Lj. split; [apply store_inv; [exact I|destruct S; lia]|apply store_shape; exact S]. Qed.

Lemma acquire_ok s m j : OK s -> locked (gmx s m) = false -> m < NM -> j < NS ->
  OK (store (set_mx s m (mkM true (waitq (gmx s m)))) j (Some m)).
Proof.
  intros [I SH] Lk Lm Lj. apply store_ok; [apply lock_inv; [exact I|exact Lk|destruct SH; lia]|apply shape_set_mx; exact SH|exact Lj].
Qed.

Lemma wop_inv s o : OK s -> valid o -> OK (fst (wop s o)).
Proof.
  intros OKs V. pose proof OKs as [I SH]. pose proof SH as [LM LS].
  destruct o as [m j|m j rl|j|j|i j|i j|j|m]; cbn [valid wop] in *.
  - destruct V as [Vm Vj]. destruct (locked (gmx s m)) eqn:Lk; cbn [fst]; [apply store_ok|apply acquire_ok]; assumption.
  - destruct V as [Vm Vj]. destruct (locked (gmx s m)) eqn:Lk; cbn [fst]; [|apply acquire_ok; assumption].
    split; [|split; cbn [mxs slots]; rewrite ?set_nth_length; assumption].
    set (k := length (wts s)). assert (Lt : m < length (mxs s)) by lia.
    set (s' := mkWS (set_nth (mxs s) m (mkM true (waitq (gmx s m) ++ [k]))) (slots s) (wts s ++ [mkW j m rl]) (runlog s) (werr s)).
    assert (G : forall m', gmx s' m' = if Nat.eqb m' m then mkM true (waitq (gmx s m) ++ [k]) else gmx s m').
    { intros m'. unfold gmx, s'. cbn [mxs]. destruct (Nat.eqb_spec m' m) as [->|N]; [apply nth_set_nth_same; exact Lt|apply nth_set_nth_other; auto]. }
    assert (GW : forall x, x < length (wts s) -> gwt s' x = gwt s x).
    { intros x Lx. unfold gwt, s'. cbn [wts]. apply app_nth1. exact Lx. }
    constructor.
    + intros m'. rewrite G. pose proof (w_cnt s _ I m') as C. change (held s' m') with (held s m').
      destruct (Nat.eqb_spec m' m) as [->|N]; [|exact C]. cbn [locked]. rewrite Lk in C. exact C.
    + intros m'. rewrite G. destruct (Nat.eqb m' m); [reflexivity|apply (w_wait s _ I)].
    + intros m' k'. rewrite G. change (slots s') with (slots s). change (wts s') with (wts s ++ [mkW j m rl]). rewrite app_length. cbn [length].
      assert (Old : forall mm, In k' (waitq (gmx s mm)) -> k' < length (wts s) + 1 /\ wslot (gwt s' k') < length (slots s)).
      { intros mm Hk. destruct (w_tgt s _ I mm k' Hk) as [A B]. rewrite GW by exact A. lia. }
      destruct (Nat.eqb_spec m' m) as [->|N]; [|apply Old].
      cbn [waitq]. intros Hk. apply in_app_or in Hk. destruct Hk as [Hk|[<-|[]]]; [apply (Old m); exact Hk|].
      split; [unfold k; lia|]. unfold gwt, s'. cbn [wts]. unfold k. rewrite app_nth2 by lia. rewrite Nat.sub_diag. cbn [nth wslot]. lia.
    + apply (w_err s _ I).
  - destruct (gslot s j) as [m|] eqn:E; cbn [fst]; [|split; assumption].
    pose proof (store_inv s j None I ltac:(lia)) as H. unfold store in H. rewrite E in H.
    split; [exact H|apply unlock_shape; apply shape_set_slot; exact SH].
  - destruct (targeted s j); cbn [fst]; [exact OKs|].
    split; [apply destroy_inv; [exact I|lia]|apply destroy_shape; exact SH].
  - destruct V as [Vi Vj]. destruct (Nat.eqb i j); cbn [fst]; [exact OKs|].
    apply store_ok; [apply set_slot_wi; [exact I|lia]|apply shape_set_slot; exact SH|exact Vj].
  - destruct V as [Vi Vj]. destruct (Nat.eqb_spec i j) as [->|Nij]; cbn [orb fst]; [exact OKs|].
    destruct (targeted s j) eqn:T; cbn [fst]; [exact OKs|].
    pose proof (destroy_inv s j I ltac:(lia)) as I1. pose proof (destroy_shape s j SH) as SH1. pose proof SH1 as [A1 B1].
    assert (E1 : gslot (destroy s j) j = None).
    { unfold destroy. destruct (gslot s j) as [m|] eqn:E; [|exact E].
      destruct (unlock_keep (pending (set_slot s j None)) (set_slot s j None) m j) as [A _].
      - exact (targeted_false s j T).
      - rewrite A. unfold gslot. cbn [set_slot slots]. apply nth_set_nth_same. lia. }
    set (s1 := destroy s j) in *.
    split; [|apply shape_set_slot; apply shape_set_slot; exact SH1].
    pose proof (set_slot_wi s1 i None I1 ltac:(lia)) as I2.
    pose proof (store_inv (set_slot s1 i None) j (gslot s1 i) I2 ltac:(cbn [set_slot slots]; rewrite set_nth_length; lia)) as I3.
    unfold store in I3.
    assert (E2 : gslot (set_slot s1 i None) j = None).
    { unfold gslot. cbn [set_slot slots]. rewrite nth_set_nth_other by exact Nij. exact E1. }
    rewrite E2 in I3. exact I3.
  - exact OKs.
  - destruct (locked (gmx s m)) eqn:Lk; cbn [fst]; [exact OKs|].
    pose proof (lock_inv s m I Lk ltac:(lia)) as I1.
    split; [apply unlock_inv; [exact I1|lia]|apply unlock_shape; apply shape_set_mx; exact SH].
Qed.

Lemma decode_valid op o : decode op = Some o -> valid o.
Proof.
  unfold decode. intros H.
  repeat match type of H with
  | match ?x with _ => _ end = _ => destruct x eqn:?; try discriminate H
  end.
  all: inversion H; subst; cbn [valid];
    repeat match goal with
    | Q : (_ && _)%bool = true |- _ => apply andb_true_iff in Q; destruct Q
    | Q : okm _ = true |- _ => apply okm_lt in Q
    | Q : oks _ = true |- _ => apply oks_lt in Q
    end; auto.
Qed.

Lemma wstep_inv s op : OK s -> OK (fst (wstep s op)).
Proof.
  intros H. unfold wstep. destruct (decode op) as [o|] eqn:D; [|exact H].
  apply wop_inv; [exact H|eapply decode_valid; exact D].
Qed.

Lemma winit_ok : OK winit.
Proof.
  split; [|split; reflexivity]. constructor.
  - intros m. unfold held, gmx, winit. cbn [slots mxs NS NM repeat heldl is_m].
    destruct m as [|[|m]]; cbn; try reflexivity. destruct m; reflexivity.
  - intros m. unfold gmx, winit. cbn [mxs NM repeat]. destruct m as [|[|m]]; cbn; try congruence. destruct m; cbn; congruence.
  - intros m k. unfold gmx, winit. cbn [mxs NM repeat]. destruct m as [|[|m]]; cbn; try contradiction. destruct m; cbn; contradiction.
  - reflexivity.
Qed.

Inductive wreach : wst -> Prop :=
| wr_init : wreach winit
| wr_step s op : wreach s -> wreach (fst (wstep s op)).

Lemma wreach_ok s : wreach s -> OK s.
Proof. induction 1; [apply winit_ok|apply wstep_inv; assumption]. Qed.

Lemma wrun_reach ops : forall s, wreach s -> wreach (fst (wrun s ops)).
Proof.
  induction ops as [|op r IH]; intros s R; cbn [wrun]; [exact R|].
  destruct (wstep s op) as [s1 res] eqn:E. specialize (IH s1).
  destruct (wrun s1 r) as [s2 l] eqn:E2. cbn [fst] in *. apply IH.
  replace s1 with (fst (wstep s op)) by (rewrite E; reflexivity). apply wr_step. exact R.
Qed.

Lemma heldl_one l m j : nth j l None = Some m -> 1 <= heldl l m.
Proof.
  revert j. induction l as [|v l IH]; intros [|j] E; cbn [nth heldl] in *; try discriminate.
  - subst v. unfold is_m. rewrite Nat.eqb_refl. lia.
  - specialize (IH j E). lia.
Qed.

Lemma heldl_two l m : forall i j, nth i l None = Some m -> nth j l None = Some m -> i <> j -> 2 <= heldl l m.
Proof.
  induction l as [|v l IH]; intros [|i] [|j] A B N; cbn [nth heldl] in *; try discriminate; try lia.
  - subst v. unfold is_m. rewrite Nat.eqb_refl. pose proof (heldl_one l m j B). lia.
  - subst v. unfold is_m. rewrite Nat.eqb_refl. pose proof (heldl_one l m i A). lia.
  - specialize (IH i j A B ltac:(lia)). lia.
Qed.

Lemma heldl_pos l m : 1 <= heldl l m -> exists j, nth j l None = Some m.
Proof.
  induction l as [|v l IH]; cbn [heldl]; [lia|]. intros H.
  destruct v as [x|]; cbn [is_m] in H.
  - destruct (Nat.eqb_spec x m) as [->|N]; [exists 0; reflexivity|]. destruct IH as (j & E); [lia|]. exists (S j). exact E.
  - destruct IH as (j & E); [lia|]. exists (S j). exact E.
Qed.

Lemma heldl_zero l m : (forall j, nth j l None <> Some m) -> heldl l m = 0.
Proof.
  intros H. destruct (heldl l m) eqn:E; [reflexivity|]. exfalso.
  destruct (heldl_pos l m ltac:(lia)) as (j & Q). exact (H j Q).
Qed.

Lemma own_unique s i j m : wreach s -> gslot s i = Some m -> gslot s j = Some m -> i = j.
Proof.
  intros R A B. destruct (wreach_ok s R) as [I _]. destruct (Nat.eq_dec i j) as [|N]; [assumption|]. exfalso.
  pose proof (heldl_two (slots s) m i j A B N) as H. pose proof (w_cnt s _ I m) as C. unfold held in C. cbn [is_m] in C.
  destruct (locked (gmx s m)); cbn in C; lia.
Qed.

Lemma own_locked_iff s m : wreach s -> (locked (gmx s m) = true <-> exists j, gslot s j = Some m).
Proof.
  intros R. destruct (wreach_ok s R) as [I _]. pose proof (w_cnt s _ I m) as C. unfold held in C. cbn [is_m] in C. split.
  - intros L. rewrite L in C. cbn in C. apply heldl_pos. lia.
  - intros (j & E). destruct (locked (gmx s m)); [reflexivity|]. cbn in C.
    pose proof (heldl_one (slots s) m j E). lia.
Qed.

(* when every ownership was given up, every mutex is free and no request is pending; the model never ran out of fuel *)
Lemma own_released_free s : wreach s -> (forall j, gslot s j = None) ->
  forall m, locked (gmx s m) = false /\ waitq (gmx s m) = [].
Proof.
  intros R H m. destruct (wreach_ok s R) as [I _]. pose proof (w_cnt s _ I m) as C. unfold held in C. cbn [is_m] in C.
  rewrite heldl_zero in C by (intros j; unfold gslot in H; rewrite H; discriminate).
  assert (L : locked (gmx s m) = false) by (destruct (locked (gmx s m)); [cbn in C; lia|reflexivity]).
  split; [exact L|]. destruct (waitq (gmx s m)) eqn:Q; [reflexivity|]. exfalso.
  assert (locked (gmx s m) = true) by (apply (w_wait s _ I); rewrite Q; discriminate). congruence.
Qed.

Lemma own_no_error s : wreach s -> werr s = false.
Proof. intros R. destruct (wreach_ok s R) as [I _]. apply (w_err s _ I). Qed.
