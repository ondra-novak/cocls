(* Cell2Proofs.v — C02: no lost, early or duplicate wake-up of a future's waiters.
   Invariant Inv2 over the cell model of CellDefs.v, for any number of waiters of any kind, any resolvers,
   every schedule (induction over reachability, on top of Inv1 of CellProofs.v).
   Inv2 has two halves.  [lists_ok] speaks of the shared lists and logs alone and is proved over plain lists;
   [thr_ok] ties every waiter thread to its position in them.  A step of the model is cut into moves of one waiter
   (subscribe, detach from the walk list, answer, log an event), each of which preserves both halves. *)
From Cocls Require Import Base BaseProofs CellDefs CellProofs.
Local Open Scope Z_scope.

Definition rel (s : st) : list nat := map fst (wlog s).           (* waiters released so far, in order *)
Definition pend (s : st) : list nat := chain s ++ walk s ++ acc s. (* subscribed, not yet released *)

Definition parks (k : wkind) : bool := match k with WCoro | WCallback | WCoroHas => true | _ => false end.
Definition parked_pc (k : wkind) : wpc := if parks k then WParked else WFlag.
Definition presub (pc : wpc) : bool := match pc with WPre | WReady | WSub _ _ | WStart => true | _ => false end.

(* the waiter view of thread j *)
Definition waiter (s : st) (j : nat) : option (wkind * wpc * bool) :=
  match T s j with Some (TW k pc f) => Some (k, pc, f) | _ => None end.

(* the access log is well formed when every event is legal after the events before it *)
Definition ok_after (l : list ev) (e : ev) : Prop :=
  match e with
  | ENext w | EClear w | EResume w => ~ In (EResume w) l /\ ~ In (EFree w) l
  | EFree w => In (EResume w) l /\ ~ In (EFree w) l
  | EFrame _ => True
  end.
Inductive wf_log : list ev -> Prop :=
| wf_nil : wf_log []
| wf_snoc l e : wf_log l -> ok_after l e -> wf_log (l ++ [e]).

Lemma wf_log_app1 l e : wf_log l -> ok_after l e -> wf_log (l ++ [e]).
Proof. apply wf_snoc. Qed.

Lemma in_snoc {A} (l : list A) x y : In y (l ++ [x]) <-> In y l \/ x = y.
Proof. rewrite in_app_iff. cbn [In]. tauto. Qed.

Lemma perm_in {A} (a b : list A) x : Permutation a b -> (In x a <-> In x b).
Proof. intros P. split; apply Permutation_in; [exact P|apply Permutation_sym; exact P]. Qed.

Lemma nodup_disj (a b : list nat) x : NoDup (a ++ b) -> In x a -> In x b -> False.
Proof.
  induction a as [|y a IH]; cbn [app In]; intros N A B; [contradiction|].
  inversion N; subst. destruct A as [->|A]; [apply H1; apply in_or_app; auto|eauto].
Qed.
(* r: the slot holds the ready marker, p: the payload, ch / wk / ac: chain, walk list, collected handles *)
Set Implicit Arguments.
Record lists_ok (r : bool) (p : outcome) (ch wk ac sb : list nat) (wl : list (nat * outcome)) (el : list ev) : Prop := {
  l_nodup : NoDup (ch ++ wk ++ ac ++ map fst wl);
  l_sub : forall w, In w sb <-> In w (ch ++ wk ++ ac ++ map fst wl);
  l_wlog : forall w o, In (w, o) wl -> r = true /\ o = p;
  l_busy : wk <> [] \/ ac <> [] -> r = true;
  l_eres : forall w, In (EResume w) el <-> In w (ac ++ map fst wl);
  l_frame : forall b, In (EFrame b) el -> b = true /\ r = true;
  l_log : wf_log el;
}.
Unset Implicit Arguments.

Lemma held_perm (sb a b : list nat) : Permutation a b ->
  NoDup a -> (forall w, In w sb <-> In w a) -> NoDup b /\ (forall w, In w sb <-> In w b).
Proof. intros P N S. split; [exact (Permutation_NoDup P N)|]. intros w. rewrite S. apply perm_in, P. Qed.

Lemma lists_init : lists_ok false ONone [] [] [] [] [] [].
Proof.
  constructor; cbn [app map In]; try tauto; constructor.
Qed.

Lemma lists_subscribe {r p ch wk ac sb wl el} i :
  lists_ok r p ch wk ac sb wl el -> ~ In i sb -> lists_ok r p (i :: ch) wk ac (sb ++ [i]) wl el.
Proof.
  intros [N S WL B E F L] NI. constructor; try assumption.
  - cbn [app] in *. constructor; [rewrite <- S; exact NI|exact N].
  - intros w. rewrite in_snoc, S. cbn [app In]. tauto.
Qed.

(* before the exchange nobody has been released, so the payload may still change *)
Lemma lists_claim {r p} p' {ch wk ac sb wl el} : r = false -> lists_ok r p ch wk ac sb wl el -> lists_ok r p' ch wk ac sb wl el.
Proof. intros -> [N S WL B E F L]. constructor; try assumption. intros w o H. destruct (WL w o H); discriminate. Qed.

Lemma lists_exchange {r p ch ac sb wl el} : lists_ok r p ch [] ac sb wl el -> lists_ok true p [] ch ac sb wl el.
Proof.
  intros [N S WL B E F L]. constructor; try assumption.
  - intros w o H. split; [reflexivity|apply (WL w o H)].
  - reflexivity.
  - intros b H. split; [apply (F b H)|reflexivity].
Qed.

Lemma wf_walk l w : wf_log l -> ~ In (EResume w) l -> ~ In (EFree w) l -> wf_log (l ++ [ENext w; EClear w; EResume w]).
Proof.
  intros WF NR NF.
  change (l ++ [ENext w; EClear w; EResume w]) with (l ++ [ENext w] ++ [EClear w] ++ [EResume w]).
  rewrite !app_assoc. repeat apply wf_snoc; try exact WF; cbn [ok_after]; rewrite ?in_app_iff; cbn [In];
    split; intuition discriminate.
Qed.

(* ENext, EClear, EResume of the head w of the walk list: its handle is collected *)
Lemma lists_detach {r p ch w t ac sb wl el} :
  lists_ok r p ch (w :: t) ac sb wl el -> ~ In (EFree w) el ->
  lists_ok r p ch t (ac ++ [w]) sb wl (el ++ [ENext w; EClear w; EResume w]).
Proof.
  intros [N S WL B E F L] NF.
  assert (NR : ~ In (EResume w) el).
  { rewrite E. intros Q. apply (NoDup_remove_2 ch (t ++ ac ++ map fst wl) w N). rewrite !in_app_iff in *. tauto. }
  assert (PM : Permutation (ch ++ (w :: t) ++ ac ++ map fst wl) (ch ++ t ++ (ac ++ [w]) ++ map fst wl)).
  { apply Permutation_app_head. rewrite <- (app_assoc ac). cbn [app]. rewrite !(app_assoc t ac). apply Permutation_middle. }
  destruct (held_perm sb _ _ PM N S) as [N' S'].
  constructor; try assumption.
  - intros _. apply B. left. discriminate.
  - intros x. rewrite in_app_iff, E, !in_app_iff. cbn [In]. split.
    + intros [[Q|Q]|[Q|[Q|[Q|[]]]]]; try discriminate; auto. inversion Q; auto.
    + intros [[Q|[<-|[]]]|Q]; auto 6.
  - intros b Q. apply F. apply in_app_iff in Q. cbn [In] in Q. intuition discriminate.
  - apply wf_walk; assumption.
Qed.

(* a collected handle c is answered: it counts as released, with the payload visible now *)
Lemma lists_answer {r p ch wk ac a' sb wl el c} :
  lists_ok r p ch wk ac sb wl el -> Permutation ac (c :: a') -> lists_ok r p ch wk a' sb (wl ++ [(c, p)]) el.
Proof.
  intros [N S WL B E F L] P.
  assert (R : r = true).
  { apply B. right. intros Q. rewrite Q in P. apply Permutation_nil in P. discriminate. }
  assert (PA : Permutation (ac ++ map fst wl) (a' ++ map fst (wl ++ [(c, p)]))).
  { rewrite map_app, app_assoc. eapply Permutation_trans; [apply Permutation_app_tail; exact P|].
    apply Permutation_cons_append. }
  destruct (held_perm sb _ _ (Permutation_app_head ch (Permutation_app_head wk PA)) N S) as [N' S'].
  constructor; try assumption.
  - intros w o Q. apply in_snoc in Q. destruct Q as [Q|Q]; [exact (WL w o Q)|]. inversion Q; subst. auto.
  - intros _. exact R.
  - intros x. rewrite E. apply perm_in, PA.
Qed.

Lemma lists_perm_acc {r p ch wk ac a sb wl el} :
  lists_ok r p ch wk ac sb wl el -> Permutation a ac -> lists_ok r p ch wk a sb wl el.
Proof.
  intros [N S WL B E F L] P.
  pose proof (Permutation_app_tail (map fst wl) (Permutation_sym P)) as PA.
  destruct (held_perm sb _ _ (Permutation_app_head ch (Permutation_app_head wk PA)) N S) as [N' S'].
  constructor; try assumption.
  - intros [Q|Q]; apply B; [left; exact Q|right]. intros Z. apply Q. rewrite Z in P. apply Permutation_nil, Permutation_sym, P.
  - intros x. rewrite E. apply perm_in, PA.
Qed.

(* the two events that move no waiter: EFree, and EFrame while ready *)
Lemma lists_log {r p ch wk ac sb wl el e} :
  lists_ok r p ch wk ac sb wl el -> ok_after el e ->
  match e with EFree _ => True | EFrame b => b = true /\ r = true | _ => False end ->
  lists_ok r p ch wk ac sb wl (el ++ [e]).
Proof.
  intros [N S WL B E F L] OK K. constructor; try assumption.
  - intros w. rewrite in_snoc, <- E. destruct e; try contradiction; (split; [intros [Q|Q]; [exact Q|discriminate]|auto]).
  - intros b Q. apply in_snoc in Q. destruct Q as [Q| ->]; [exact (F b Q)|exact K].
  - apply wf_snoc; assumption.
Qed.

(* what the pc and flag of waiter w claim about w's position: pd = pend, rl = rel *)
Definition wok (r : bool) (p : outcome) (pd rl sb : list nat) (el : list ev) (w : nat) (pc : wpc) (f : bool) : Prop :=
  match pc with
  | WParked => In w pd
  | WFlag => if f then In w rl /\ ~ In (EFree w) el else In w pd
  | WDone o => r = true /\ o = p /\ (In w sb -> In w rl)
  | _ => ~ In w sb /\ f = false
  end.

Set Implicit Arguments.
Record thr_ok (wv : nat -> option (wkind * wpc * bool)) (r : bool) (p : outcome) (pd rl sb : list nat) (el : list ev) : Prop := {
  t_held : forall w, In w pd -> exists k f, wv w = Some (k, parked_pc k, f) /\ (parks k = false -> f = false);
  t_at : forall w k pc f, wv w = Some (k, pc, f) -> wok r p pd rl sb el w pc f;
  t_freed : forall w, In (EFree w) el -> exists k o f, wv w = Some (k, WDone o, f);
}.
Unset Implicit Arguments.

(* wok only asks where w itself is; readiness and the payload are settled once the slot is ready *)
Lemma wok_frame {r p pd rl sb el r' p' pd' rl' sb' el' w pc f} :
  (r = true -> r' = true /\ p' = p) ->
  (In w pd' <-> In w pd) -> (In w rl -> In w rl') -> (In w sb' -> In w sb) -> (In (EFree w) el' -> In (EFree w) el) ->
  wok r p pd rl sb el w pc f -> wok r' p' pd' rl' sb' el' w pc f.
Proof.
  intros RP P R S E. destruct pc; cbn [wok]; try tauto.
  - destruct f; tauto.
  - intros (Q1 & Q2 & Q3). destruct (RP Q1) as [-> ->]. tauto.
Qed.

Lemma thr_frame {wv wv' r p r' p' pd pd' rl sb el el'} :
  thr_ok wv r p pd rl sb el -> (forall j, wv' j = wv j) -> (r = true -> r' = true /\ p' = p) ->
  (forall w, In w pd' <-> In w pd) -> (forall w, In (EFree w) el' -> In (EFree w) el) ->
  thr_ok wv' r' p' pd' rl sb el'.
Proof.
  intros [H A F] EQ RP P E. constructor.
  - intros w Q. rewrite EQ. apply H, P, Q.
  - intros w k pc f Q. rewrite EQ in Q. exact (wok_frame RP (P w) (fun x => x) (fun x => x) (E w) (A w k pc f Q)).
  - intros w Q. rewrite EQ. apply F, E, Q.
Qed.

(* waiter i goes from (pc, f) to (pc', f'); for every other waiter the lists say what they said before *)
Lemma thr_upd {wv wv' i k pc f} pc' f' {r p r' p' pd pd' rl rl' sb sb' el el'} :
  thr_ok wv r p pd rl sb el -> wv i = Some (k, pc, f) ->
  (forall j, wv' j = if Nat.eqb i j then Some (k, pc', f') else wv j) ->
  (r = true -> r' = true /\ p' = p) ->
  (forall w, w <> i -> (In w pd' <-> In w pd) /\ (In w rl -> In w rl') /\ (In w sb' -> In w sb) /\
                       (In (EFree w) el' -> In (EFree w) el)) ->
  wok r' p' pd' rl' sb' el' i pc' f' ->
  (In i pd' -> pc' = parked_pc k /\ (parks k = false -> f' = false)) ->
  (In (EFree i) el' -> exists o, pc' = WDone o) ->
  thr_ok wv' r' p' pd' rl' sb' el'.
Proof.
  intros [H A F] Hi EQ RP O Ai Pi Fi. constructor.
  - intros w Q. rewrite EQ. destruct (Nat.eqb_spec i w) as [<-|N].
    + destruct (Pi Q) as (-> & Z). eauto.
    + apply H. apply (O w); [congruence|exact Q].
  - intros w k1 pc1 f1. rewrite EQ. destruct (Nat.eqb_spec i w) as [<-|N]; intros Q.
    + inversion Q; subst. exact Ai.
    + destruct (O w) as (O1 & O2 & O3 & O4); [congruence|]. exact (wok_frame RP O1 O2 O3 O4 (A w k1 pc1 f1 Q)).
  - intros w Q. rewrite EQ. destruct (Nat.eqb_spec i w) as [<-|N].
    + destruct (Fi Q) as (o & ->). eauto.
    + apply F. apply (O w); [congruence|exact Q].
Qed.

Lemma held_not_freed {wv r p pd rl sb el w} : thr_ok wv r p pd rl sb el -> In w pd -> ~ In (EFree w) el.
Proof.
  intros [H A F] P Q. destruct (H w P) as (k & f & B & _). destruct (F w Q) as (k' & o & f' & C).
  rewrite B in C. unfold parked_pc in C. destruct (parks k); discriminate.
Qed.

Lemma released_not_held {r p ch wk ac sb wl el w} :
  lists_ok r p ch wk ac sb wl el -> In w (map fst wl) -> ~ In w (ch ++ wk ++ ac).
Proof.
  intros L R Q. apply (nodup_disj (ch ++ wk ++ ac) (map fst wl) w); auto.
  rewrite <- !app_assoc. apply L.
Qed.

Record Inv2 (s : st) : Prop := {
  j_lists : lists_ok (slot_ready s) (payload s) (chain s) (walk s) (acc s) (sublog s) (wlog s) (elog s);
  j_thr : thr_ok (waiter s) (slot_ready s) (payload s) (pend s) (rel s) (sublog s) (elog s);
}.

Lemma ready_slot s : slot_ready s = true <-> slot s = SReady.
Proof. unfold slot_ready. destruct (slot s); split; intros H; try discriminate; reflexivity. Qed.

Lemma waiter_set_r s i k pc k0 pc0 j : T s i = Some (TR k0 pc0) -> waiter (set_thr s i (TR k pc)) j = waiter s j.
Proof.
  intros H. unfold waiter. rewrite T_set_thr by (eapply T_some_lt; eassumption).
  destruct (Nat.eqb_spec i j) as [->|N]; [rewrite H|]; reflexivity.
Qed.

Lemma waiter_T s j k pc f : waiter s j = Some (k, pc, f) <-> T s j = Some (TW k pc f).
Proof.
  unfold waiter. destruct (T s j) as [[k0 pc0|k0 pc0 f0]|]; split; intros H; inversion H; subst; reflexivity.
Qed.

Lemma waiter_upd s s' i x k pc f : waiter s i = Some x -> thrs s' = set_nth (thrs s) i (TW k pc f) ->
  forall j, waiter s' j = if Nat.eqb i j then Some (k, pc, f) else waiter s j.
Proof.
  unfold waiter, T. intros H E j. rewrite E, nth_error_set_nth.
  destruct (Nat.eqb i j); [|reflexivity]. destruct (nth_error (thrs s) i); [reflexivity|discriminate].
Qed.

Lemma waiter_upd_same s s' i x k pc f : waiter s i = Some x -> thrs s' = set_nth (thrs s) i (TW k pc f) -> waiter s' i = Some (k, pc, f).
Proof. intros H E. rewrite (waiter_upd s s' i x k pc f H E), Nat.eqb_refl. reflexivity. Qed.

Lemma init_waiter ops w k pc f : waiter (init ops) w = Some (k, pc, f) -> presub pc = true /\ f = false.
Proof.
  intros H. apply waiter_T in H. apply init_thrs in H.
  destruct H as [(k' & E)|[E|(k' & pc' & E & Q)]]; inversion E; subst; split; try reflexivity.
  destruct Q as [->|[->| ->]]; reflexivity.
Qed.

Lemma inv2_init ops : Inv2 (init ops).
Proof.
  split; [exact lists_init|]. constructor; cbn.
  - intros w [].
  - intros w k pc f H. apply init_waiter in H. destruct H as (P & ->). destruct pc; try discriminate; cbn; tauto.
  - intros w [].
Qed.

Lemma inv2_set_tr s i k pc k0 pc0 : Inv2 s -> T s i = Some (TR k0 pc0) -> Inv2 (set_thr s i (TR k pc)).
Proof.
  intros [L H] Hi. split; [exact L|].
  apply (thr_frame H); auto; try reflexivity. intros j. eapply waiter_set_r, Hi.
Qed.

(* claim: owner, winner and payload change while the future is not ready: nobody has read or been released yet *)
Lemma inv2_claim s o' p' wn' :
  Inv2 s -> slot s <> SReady ->
  Inv2 (mkSt o' (slot s) p' (walk s) (acc s) (thrs s) wn' (sublog s) (wlog s) (elog s)).
Proof.
  intros [L H] NS.
  assert (NR : slot_ready s = false) by (destruct (slot_ready s) eqn:R; [apply ready_slot in R; contradiction|reflexivity]).
  split; [exact (lists_claim p' NR L)|].
  apply (thr_frame H); auto; try reflexivity. intros R. congruence.
Qed.

Lemma inv2_exchange s :
  Inv2 s -> walk s = [] ->
  Inv2 (mkSt (owner s) SReady (payload s) (chain s) (acc s) (thrs s) (winner s) (sublog s) (wlog s) (elog s)).
Proof.
  intros [L H] KW. split; [rewrite KW in L; exact (lists_exchange L)|].
  apply (thr_frame H); auto.
  intros w. unfold pend. rewrite KW. reflexivity.
Qed.

Lemma inv2_detach s w t :
  Inv2 s -> walk s = w :: t ->
  Inv2 (mkSt (owner s) (slot s) (payload s) t (acc s ++ [w]) (thrs s) (winner s) (sublog s) (wlog s)
             (elog s ++ [ENext w; EClear w; EResume w])).
Proof.
  intros [L H] KW.
  assert (NF : ~ In (EFree w) (elog s)).
  { apply (held_not_freed H). unfold pend. rewrite KW, !in_app_iff. cbn [In]. auto. }
  split; [rewrite KW in L; exact (lists_detach L NF)|].
  apply (thr_frame H); auto.
  - intros x. unfold pend. rewrite KW. cbn [chain slot walk acc]. rewrite !in_app_iff. cbn [In]. tauto.
  - intros x Q. apply in_app_iff in Q. cbn [In] in Q. intuition discriminate.
Qed.

Lemma inv2_perm_acc s a : Inv2 s -> Permutation a (acc s) ->
  Inv2 (mkSt (owner s) (slot s) (payload s) (walk s) a (thrs s) (winner s) (sublog s) (wlog s) (elog s)).
Proof.
  intros [L H] P. split; [exact (lists_perm_acc L P)|].
  apply (thr_frame H); auto.
  intros x. unfold pend. cbn [chain slot walk acc]. rewrite !in_app_iff, (perm_in _ _ x P). reflexivity.
Qed.

(* me.destroy() of an async resolver, after the exchange *)
Lemma inv2_async_destroyed s : Inv2 s -> slot_ready s = true ->
  Inv2 (mkSt (owner s) (slot s) (payload s) (walk s) (acc s) (thrs s) (winner s) (sublog s) (wlog s) (elog s ++ [EFrame true])).
Proof.
  intros [L H] R. split; [apply lists_log; [exact L|exact Logic.I|auto]|].
  apply (thr_frame H); auto; try reflexivity.
  intros w Q. apply in_snoc in Q. destruct Q as [Q|Q]; [exact Q|discriminate].
Qed.

Lemma inv2_thread s i k pc f pc' f' :
  Inv2 s -> waiter s i = Some (k, pc, f) ->
  wok (slot_ready s) (payload s) (pend s) (rel s) (sublog s) (elog s) i pc' f' ->
  (In i (pend s) -> pc' = parked_pc k /\ (parks k = false -> f' = false)) ->
  (In (EFree i) (elog s) -> exists o, pc' = WDone o) ->
  Inv2 (set_thr s i (TW k pc' f')).
Proof.
  intros [L H] Hi A P F. split; [exact L|].
  apply (thr_upd pc' f' H Hi); auto.
  - apply (waiter_upd s _ i _ k pc' f' Hi). reflexivity.
  - tauto.
Qed.

Lemma presub_fresh s i k pc f : Inv2 s -> waiter s i = Some (k, pc, f) -> presub pc = true ->
  ~ In i (sublog s) /\ f = false /\ ~ In i (pend s) /\ ~ In (EFree i) (elog s).
Proof.
  intros [L H] Hi P. pose proof (t_at H _ Hi) as A.
  assert (NS : ~ In i (sublog s) /\ f = false) by (destruct pc; try discriminate; exact A).
  destruct NS as [NS ->]. repeat split; try assumption.
  - intros Q. apply NS. apply (l_sub L). unfold pend in Q. rewrite !in_app_iff in *. tauto.
  - intros Q. destruct (t_freed H _ Q) as (k' & o & f' & B). rewrite Hi in B. inversion B; subst. discriminate.
Qed.

(* a not yet subscribed waiter moves between its private pcs *)
Lemma inv2_w_presub s i k pc f pc' :
  Inv2 s -> waiter s i = Some (k, pc, f) -> presub pc = true -> presub pc' = true -> Inv2 (set_thr s i (TW k pc' f)).
Proof.
  intros J Hi P P'. destruct (presub_fresh s i k pc f J Hi P) as (NS & -> & NP & NF).
  apply (inv2_thread s i k pc false pc' false J Hi); try contradiction.
  destruct pc'; try discriminate; split; auto.
Qed.

(* a not yet subscribed waiter finds the slot Ready (await_ready, or the CAS refused) and reads the result *)
Lemma inv2_w_refused s i k pc f :
  Inv2 s -> waiter s i = Some (k, pc, f) -> presub pc = true -> slot s = SReady ->
  Inv2 (set_thr s i (TW k (WDone (payload s)) f)).
Proof.
  intros J Hi P SR. destruct (presub_fresh s i k pc f J Hi P) as (NS & _ & NP & NF).
  apply (inv2_thread s i k pc f _ _ J Hi); try contradiction.
  cbn [wok]. repeat split; [apply ready_slot, SR|contradiction].
Qed.

(* the CAS succeeds: the waiter pushes itself on the chain *)
Lemma inv2_w_subscribe s i k pc f l :
  Inv2 s -> waiter s i = Some (k, pc, f) -> presub pc = true -> slot s = SChain l ->
  Inv2 (set_thr (mkSt (owner s) (SChain (i :: l)) (payload s) (walk s) (acc s) (thrs s) (winner s)
                      (sublog s ++ [i]) (wlog s) (elog s)) i (TW k (parked_pc k) f)).
Proof.
  intros J Hi P SL. destruct (presub_fresh s i k pc f J Hi P) as (NS & -> & NP & NF). destruct J as [L H].
  assert (NR : slot_ready s = false) by (unfold slot_ready; rewrite SL; reflexivity).
  assert (CH : chain s = l) by (unfold chain; rewrite SL; reflexivity).
  split.
  - rewrite NR, CH in L. exact (lists_subscribe i L NS).
  - apply (thr_upd (parked_pc k) false H Hi).
    + apply (waiter_upd s _ i _ k _ false Hi). reflexivity.
    + intros R. congruence.
    + intros w N. unfold pend. cbn [chain slot walk acc sublog set_thr]. rewrite CH. cbn [app In]. rewrite in_snoc.
      repeat split; auto; intros [Q|Q]; auto; congruence.
    + assert (Q : In i (pend (mkSt (owner s) (SChain (i :: l)) (payload s) (walk s) (acc s) (thrs s) (winner s)
                                   (sublog s ++ [i]) (wlog s) (elog s)))) by (left; reflexivity).
      unfold parked_pc. destruct (parks k); exact Q.
    + intros _. split; reflexivity.
    + contradiction.
Qed.

Lemma inv2_free s c k o f :
  Inv2 s -> waiter s c = Some (k, WDone o, f) -> In c (rel s) -> ~ In (EFree c) (elog s) ->
  Inv2 (mkSt (owner s) (slot s) (payload s) (walk s) (acc s) (thrs s) (winner s) (sublog s) (wlog s) (elog s ++ [EFree c])).
Proof.
  intros [L H] Hc R NF. split.
  - apply lists_log; [exact L| |exact Logic.I]. split; [|exact NF].
    apply (l_eres L). apply in_or_app. right. exact R.
  - apply (thr_upd (WDone o) f H Hc); auto.
    + intros j. destruct (Nat.eqb_spec c j) as [<-|N]; [exact Hc|reflexivity].
    + intros w N. repeat split; auto. intros Q. apply in_snoc in Q. destruct Q as [Q|Q]; [exact Q|congruence].
    + exact (t_at H _ Hc).
    + intros Q. exfalso. exact (released_not_held L R Q).
    + eauto.
Qed.

(* the blocked thread sees the flag, returns from sync() (its stack sync_awaiter dies) and reads the result *)
Lemma inv2_w_flag s i k :
  Inv2 s -> waiter s i = Some (k, WFlag, true) ->
  Inv2 (set_thr (mkSt (owner s) (slot s) (payload s) (walk s) (acc s) (thrs s) (winner s) (sublog s) (wlog s)
                      (elog s ++ [EFree i])) i (TW k (WDone (payload s)) true)).
Proof.
  intros J Hi. destruct (t_at (j_thr s J) _ Hi) as (IR & NF).
  assert (R : slot_ready s = true).
  { pose proof IR as Q. apply in_map_iff in Q. destruct Q as ((w & o) & _ & Q). apply (l_wlog (j_lists s J) _ _ Q). }
  assert (J1 : Inv2 (set_thr s i (TW k (WDone (payload s)) true))).
  { apply (inv2_thread s i k WFlag true _ _ J Hi); [cbn [wok]; auto| |contradiction].
    intros Q. exfalso. exact (released_not_held (j_lists s J) IR Q). }
  apply (inv2_free _ i k (payload s) true J1); [|exact IR|exact NF].
  apply (waiter_upd_same s _ i _ _ _ _ Hi). reflexivity.
Qed.

(* the answered waiter either runs to its end or has its flag set *)
Lemma inv2_answer s c a' k pc f pc' f' :
  Inv2 s -> Permutation (acc s) (c :: a') -> waiter s c = Some (k, pc, f) ->
  pc' = WDone (payload s) \/ (pc' = WFlag /\ f' = true) ->
  Inv2 (mkSt (owner s) (slot s) (payload s) (walk s) a' (set_nth (thrs s) c (TW k pc' f')) (winner s) (sublog s)
             (wlog s ++ [(c, payload s)]) (elog s)).
Proof.
  intros [L H] P Hc K.
  assert (IA : In c (acc s)) by (apply (Permutation_in _ (Permutation_sym P)); left; reflexivity).
  assert (NF : ~ In (EFree c) (elog s)).
  { apply (held_not_freed H). unfold pend. rewrite !in_app_iff. auto. }
  pose proof (lists_answer L P) as L1.
  assert (IR : In c (map fst (wlog s ++ [(c, payload s)]))) by (rewrite map_app; apply in_or_app; right; left; reflexivity).
  split; [exact L1|].
  apply (thr_upd pc' f' H Hc); auto.
  - apply (waiter_upd s _ c _ k pc' f' Hc). reflexivity.
  - intros w N. unfold pend, rel. cbn [chain slot walk acc wlog]. rewrite map_app, !in_app_iff.
    pose proof (perm_in _ _ w P) as Q. cbn [In] in Q. repeat split; auto; rewrite Q; intuition congruence.
  - destruct K as [-> |[-> ->]]; cbn [wok]; auto. repeat split; auto.
    apply (l_busy L). right. intros Z. rewrite Z in IA. destruct IA.
  - intros Q. exfalso. exact (released_not_held L1 IR Q).
  - contradiction.
Qed.

Lemma inv2_run s c a' k pc f :
  Inv2 s -> Permutation (acc s) (c :: a') -> waiter s c = Some (k, pc, f) ->
  Inv2 (mkSt (owner s) (slot s) (payload s) (walk s) a' (set_nth (thrs s) c (TW k (WDone (payload s)) f)) (winner s) (sublog s)
             (wlog s ++ [(c, payload s)]) (elog s ++ [EFree c])).
Proof.
  intros J P Hc. pose proof (inv2_answer s c a' k pc f _ f J P Hc (or_introl eq_refl)) as J1.
  apply (inv2_free _ c k (payload s) f J1).
  - apply (waiter_upd_same s _ c _ _ _ _ Hc). reflexivity.
  - unfold rel. cbn [wlog]. rewrite map_app. apply in_or_app. right. left. reflexivity.
  - apply (held_not_freed (j_thr s J)). unfold pend. rewrite !in_app_iff. right. right.
    apply (Permutation_in _ (Permutation_sym P)). left. reflexivity.
Qed.

(* one walk step = release of the head of the detached list: coroutine handles stay collected in the suspend point,
   a callback runs now and frees its context, a sync_awaiter has its flag set *)
Lemma inv2_release s w t :
  Inv2 s -> walk s = w :: t ->
  Inv2 (release_node (mkSt (owner s) (slot s) (payload s) t (acc s) (thrs s) (winner s) (sublog s) (wlog s) (elog s)) w).
Proof.
  (* every node is first collected like a coroutine handle; a callback or sync_awaiter node is then answered at once *)
  intros J KW. pose proof (inv2_detach s w t J KW) as J1.
  destruct (t_held (j_thr s J) w) as (k & f & HW & FF).
  { unfold pend. rewrite KW, !in_app_iff. cbn [In]. auto. }
  pose proof HW as HT. apply waiter_T in HT. unfold T in HT.
  unfold release_node. cbn [thrs owner slot payload walk acc winner sublog wlog elog]. rewrite HT.
  assert (PA : Permutation (acc s ++ [w]) (w :: acc s)) by apply Permutation_sym, Permutation_cons_append.
  unfold parked_pc in *. destruct k; cbn [parks] in *; try exact J1.
  - rewrite (FF eq_refl) in *. exact (inv2_answer _ w (acc s) _ _ _ WFlag true J1 PA HW (or_intror (conj eq_refl eq_refl))).
  - exact (inv2_run _ w (acc s) _ _ _ J1 PA HW).
  - rewrite (FF eq_refl) in *. exact (inv2_answer _ w (acc s) _ _ _ WFlag true J1 PA HW (or_intror (conj eq_refl eq_refl))).
Qed.

Definition set_acc (s : st) (a : list nat) : st :=
  mkSt (owner s) (slot s) (payload s) (walk s) a (thrs s) (winner s) (sublog s) (wlog s) (elog s).

Lemma inv2_resume_all l : forall s, Inv2 (set_acc s l) -> Inv2 (set_acc (resume_all s l) []).
Proof.
  induction l as [|c t IH]; intros s J; cbn [resume_all]; [exact J|].
  destruct (t_held (j_thr _ J) c) as (k & f & HW & _).
  { unfold pend. cbn [set_acc acc]. rewrite !in_app_iff. cbn [In]. auto. }
  pose proof HW as HT. apply waiter_T in HT. unfold T in HT. cbn [set_acc thrs] in HT. rewrite HT.
  apply IH. exact (inv2_run (set_acc s (c :: t)) c t k _ f J (Permutation_refl _) HW).
Qed.

Lemma rot_last_perm l : Permutation (rot_last l) l.
Proof.
  unfold rot_last. destruct (rev l) as [|x r] eqn:E; [|].
  - apply (f_equal (@rev nat)) in E. rewrite rev_involutive in E. subst. constructor.
  - apply (f_equal (@rev nat)) in E. rewrite rev_involutive in E. subst. cbn [rev].
    apply Permutation_cons_append.
Qed.

Lemma inv2_finish s i k k0 pc0 :
  Inv2 s -> slot s = SReady -> T s i = Some (TR k0 pc0) -> Inv2 (finish s i k).
Proof.
  intros J SR HT. unfold finish.
  set (s0 := if is_async k then _ else s).
  assert (J0 : Inv2 s0 /\ acc s0 = acc s /\ same_TR s s0).
  { subst s0. destruct (is_async k); [|split; [exact J|split; [reflexivity|apply same_TR_refl]]].
    split; [|split; [reflexivity|apply same_TR_fields; reflexivity]].
    apply ready_slot in SR. rewrite SR. apply inv2_async_destroyed; assumption. }
  destruct J0 as (J0 & A0 & TR0).
  set (l := if pops k then rot_last (acc s) else acc s).
  assert (PL : Permutation l (acc s0)).
  { rewrite A0. subst l. destruct (pops k); [apply rot_last_perm|apply Permutation_refl]. }
  pose proof (inv2_resume_all l s0 (inv2_perm_acc s0 l J0 PL)) as J2.
  eapply (inv2_set_tr _ i k (RDone true) k0 pc0); [exact J2|].
  destruct (resume_all_frame l s0) as ((_ & _ & _ & _ & _ & _ & F8 & _) & _).
  unfold T. cbn [set_acc thrs]. apply F8. apply TR0. exact HT.
Qed.

Lemma inv2_step s i : Inv1 s -> Inv2 s -> enabled s i = true -> Inv2 (fst (tstep s i)).
Proof.
  intros I J E. destruct (enabled_T s i E) as (t & Ht). unfold tstep. fold (T s i). rewrite Ht.
  destruct t as [k pc|k pc f].
  - destruct pc as [| |[b|]| | |r].
    + (* claim *)
      destruct (owner s) eqn:O; cbn [fst].
      * assert (NR : slot s <> SReady) by apply (i_none s I (owner_no_winner s I O)).
        eapply (inv2_set_tr _ i _ _ k RClaim); [apply inv2_claim; assumption|exact Ht].
      * eapply inv2_set_tr; eassumption.
    + cbn [fst]. eapply inv2_set_tr; eassumption.
    + cbn [fst]. eapply inv2_set_tr; eassumption.
    + destruct (owner s) eqn:O; cbn [fst].
      * assert (NR : slot s <> SReady) by apply (i_none s I (owner_no_winner s I O)).
        eapply (inv2_set_tr _ i _ _ k (RDtor None)); [apply inv2_claim; assumption|exact Ht].
      * eapply inv2_set_tr; eassumption.
    + (* resolve *)
      pose proof (i_win_pc s I _ _ _ Ht eq_refl) as WI.
      destruct (inv1_winner s i k RResolve I WI Ht) as (_ & _ & _ & _ & KW). apply proj1 in KW; [|discriminate].
      pose proof (inv2_exchange s J KW) as J1.
      change (match slot s with SChain l => l | SReady => [] end) with (chain s).
      cbn [fst]. destruct (chain s) as [|w0 l0] eqn:EC.
      * eapply inv2_finish; [exact J1|reflexivity|exact Ht].
      * eapply (inv2_set_tr _ i _ _ k RResolve); [exact J1|exact Ht].
    + (* walk *)
      pose proof (i_win_pc s I _ _ _ Ht eq_refl) as WI.
      destruct (inv1_winner s i k RWalk I WI Ht) as (_ & _ & _ & SR & _). apply proj2 in SR. specialize (SR eq_refl).
      destruct (walk s) as [|w t] eqn:EW; cbn [fst].
      * eapply inv2_finish; eassumption.
      * pose proof (inv2_release s w t J EW) as J1.
        set (s0 := mkSt (owner s) (slot s) (payload s) t (acc s) (thrs s) (winner s) (sublog s) (wlog s) (elog s)) in *.
        destruct (release_node_frame s0 w) as (R1 & R2 & R3 & R4 & R5 & R6 & R7 & R8).
        destruct t as [|w2 t2]; [|exact J1].
        eapply inv2_finish; [exact J1|rewrite R4; exact SR|].
        apply R7. exact Ht.
    + unfold enabled in E. fold (T s i) in E. rewrite Ht in E. discriminate.
  - pose proof Ht as HW. apply waiter_T in HW.
    destruct pc as [| |r e| | |o|]; cbn [fst].
    7:{ eapply inv2_w_presub; [exact J|exact HW|reflexivity|destruct k; reflexivity]. }
    + destruct (slot s) eqn:SL.
      * eapply inv2_w_presub; [exact J|exact HW|reflexivity|reflexivity].
      * eapply inv2_w_refused; [exact J|exact HW|reflexivity|exact SL].
    + destruct (slot s) eqn:SL.
      * eapply inv2_w_presub; [exact J|exact HW|reflexivity|reflexivity].
      * eapply inv2_w_refused; [exact J|exact HW|reflexivity|exact SL].
    + destruct (slot s) as [l|] eqn:SL.
      * destruct (onat_eqb (head l) e).
        -- replace (match k with WCoro | WCallback | WCoroHas => WParked | _ => WFlag end) with (parked_pc k)
             by (destruct k; reflexivity).
           eapply inv2_w_subscribe; [exact J|exact HW|reflexivity|exact SL].
        -- eapply inv2_w_presub; [exact J|exact HW|reflexivity|reflexivity].
      * eapply inv2_w_refused; [exact J|exact HW|reflexivity|exact SL].
    + unfold enabled in E. fold (T s i) in E. rewrite Ht in E. discriminate.
    + unfold enabled in E. fold (T s i) in E. rewrite Ht in E. subst f.
      eapply inv2_w_flag; [exact J|exact HW].
    + unfold enabled in E. fold (T s i) in E. rewrite Ht in E. discriminate.
Qed.

Theorem inv2_reachable ops s : reachable ops s -> Inv2 s.
Proof.
  induction 1 as [|s i R IH E]; [apply inv2_init|].
  apply inv2_step; [eapply inv1_reachable; eassumption|exact IH|exact E].
Qed.

Lemma nodup_count (l : list nat) x : NoDup l -> (count_occ Nat.eq_dec l x <= 1)%nat.
Proof. intros N. apply (proj1 (NoDup_count_occ Nat.eq_dec l) N). Qed.

(* at most once: a waiter id occurs at most once in slot ∪ walk list ∪ suspend point ∪ released *)
Theorem at_most_once s :
  Inv2 s ->
  NoDup (chain s ++ walk s ++ acc s ++ rel s) /\
  forall w, (count_occ Nat.eq_dec (rel s) w <= 1)%nat /\
            (In w (rel s) -> ~ In w (chain s ++ walk s ++ acc s)).
Proof.
  intros [L _]. pose proof (l_nodup L) as N. split; [exact N|].
  intros w. split.
  - apply nodup_count. rewrite !app_assoc in N. apply NoDup_app_r in N. exact N.
  - apply (released_not_held L).
Qed.

(* whoever went on — released, refused by the CAS, or found the future ready — observed Ready and read the final payload;
   a waiter that went on without having subscribed was never released *)
Theorem done_sees_result s w k o f :
  Inv1 s -> Inv2 s -> T s w = Some (TW k (WDone o) f) ->
  slot s = SReady /\ o = payload s /\
  (exists i kr pc, winner s = Some i /\ T s i = Some (TR kr pc) /\ o = payload_of kr ONone) /\
  (In w (sublog s) -> In w (rel s)) /\ (~ In w (sublog s) -> ~ In w (rel s)).
Proof.
  intros I [L HT] H. apply waiter_T in H.
  destruct (t_at HT _ H) as (SR & E & S1). apply ready_slot in SR.
  refine (conj SR (conj E (conj _ (conj S1 _)))).
  - destruct (result_is_winners s I SR) as (i & kr & pc & A & B & C). exists i, kr, pc. rewrite E. auto.
  - intros NS Q. apply NS. apply (l_sub L). rewrite !in_app_iff. auto.
Qed.

(* a waiter about to be refused: it is at its CAS and the slot is Ready; its next step reads the final payload *)
Theorem refused_sees_result s w k r e f :
  Inv1 s -> Inv2 s -> T s w = Some (TW k (WSub r e) f) -> slot s = SReady ->
  T (fst (tstep s w)) w = Some (TW k (WDone (payload s)) f) /\ ~ In w (sublog (fst (tstep s w))) /\
  exists i kr pc, winner s = Some i /\ T s i = Some (TR kr pc) /\ payload s = payload_of kr ONone.
Proof.
  intros I [_ HT] H SR.
  unfold tstep. fold (T s w). rewrite H, SR. cbn [fst]. split; [|split].
  - rewrite T_set_thr by (eapply T_some_lt; eassumption). rewrite Nat.eqb_refl. reflexivity.
  - cbn [set_thr sublog]. apply waiter_T in H. apply (t_at HT _ H).
  - apply (result_is_winners s I SR).
Qed.

Lemma wf_log_prefix l : wf_log l -> forall l1 e l2, l = l1 ++ e :: l2 -> wf_log l1 /\ ok_after l1 e.
Proof.
  induction 1 as [|l e' WF IH OK]; intros l1 e l2 E.
  - destruct l1; discriminate.
  - destruct (exists_last (l := e :: l2) ltac:(discriminate)) as (m & x & Em).
    rewrite Em in E. rewrite app_assoc in E. apply app_inj_tail in E. destruct E as (E1 & E2). subst x.
    destruct l2 as [|y l2].
    + destruct m; [|destruct m; discriminate]. rewrite app_nil_r in E1. inversion Em; subst. auto.
    + destruct m as [|z m]; [discriminate|]. inversion Em; subst z.
      eapply IH. exact E1.
Qed.

(* an event e2 logged after e was legal after a piece of the log that already held e *)
Lemma wf_log_later l l1 e l2 e2 :
  wf_log l -> l = l1 ++ e :: l2 -> In e2 l2 -> exists before, In e before /\ ok_after before e2.
Proof.
  intros WF E H. apply in_split in H. destruct H as (m1 & m2 & ->).
  exists (l1 ++ e :: m1). split; [apply in_or_app; right; left; reflexivity|].
  assert (E' : l = (l1 ++ e :: m1) ++ e2 :: m2) by (rewrite E, <- app_assoc; reflexivity).
  apply (wf_log_prefix l WF _ _ _ E').
Qed.

(* resume() has been called on w exactly when w's handle is collected or w has been released *)
Theorem resumed_iff_logged ops s w :
  reachable ops s -> (In (EResume w) (elog s) <-> In w (acc s ++ rel s)).
Proof. intros R. apply (l_eres (j_lists s (inv2_reachable _ _ R))). Qed.

Lemma enabled_list_nil s n : forall from, enabled_list s n from = [] ->
  forall i, (from <= i < from + n)%nat -> enabled s i = false.
Proof.
  induction n as [|n IH]; intros from H i L; [lia|].
  cbn [enabled_list] in H. apply app_eq_nil in H. destruct H as (H1 & H2).
  destruct (Nat.eq_dec i from) as [->|N].
  - destruct (enabled s from); [discriminate|reflexivity].
  - apply (IH (S from) H2). lia.
Qed.

Lemma terminal_none_enabled s i : all_enabled s = [] -> enabled s i = false.
Proof.
  intros H. destruct (Nat.lt_ge_cases i (length (thrs s))) as [L|L].
  - apply (enabled_list_nil s _ 0 H). lia.
  - unfold enabled. apply nth_error_None in L. rewrite L. reflexivity.
Qed.

Lemma others_done_false l i : forall n, others_done l i n = false ->
  exists j t, nth_error l j = Some t /\ (n + j)%nat <> i /\ is_rdone t = false.
Proof.
  induction l as [|t l IH]; intros n H; cbn [others_done] in H; [discriminate|].
  apply andb_false_iff in H. destruct H as [H|H].
  - apply orb_false_iff in H. destruct H as (H1 & H2). exists 0%nat, t. split; [reflexivity|]. split; [|exact H2].
    apply Nat.eqb_neq in H1. lia.
  - destruct (IH _ H) as (j & t' & A & B & C). exists (S j), t'. split; [exact A|]. split; [lia|exact C].
Qed.

(* in a terminal state every resolver call has returned *)
Lemma terminal_resolvers_done s :
  Inv1 s -> all_enabled s = [] -> forall j k pc, T s j = Some (TR k pc) -> exists r, pc = RDone r.
Proof.
  intros I TE.
  assert (NX : forall j k pc, T s j = Some (TR k pc) -> pc <> RXWait -> exists r, pc = RDone r).
  { intros j k pc H N. pose proof (terminal_none_enabled s j TE) as E. unfold enabled in E. fold (T s j) in E.
    rewrite H in E. destruct pc; try discriminate; try contradiction; eauto. }
  intros j k pc H. destruct pc; try (eapply NX; [exact H|discriminate]). exfalso.
  pose proof (terminal_none_enabled s j TE) as E. unfold enabled in E. fold (T s j) in E. rewrite H in E.
  destruct (others_done_false _ _ _ E) as (j' & t & A & B & C). cbn [plus] in B.
  destruct t as [k' pc'|]; [|discriminate].
  assert (NR : pc' <> RXWait).
  { intros ->. fold (T s j') in A. rewrite (i_xwait s I _ _ A) in A. rewrite (i_xwait s I _ _ H) in H.
    apply B. exact (i_dtor1 s I _ _ _ _ A H). }
  destruct (NX _ _ _ A NR) as (r & ->). discriminate.
Qed.

Lemma terminal_winner s : Inv1 s -> all_enabled s = [] ->
  exists i k, winner s = Some i /\ T s i = Some (TR k (RDone true)) /\ payload s = payload_of k ONone /\
              slot s = SReady /\ walk s = [] /\ acc s = [].
Proof.
  intros I TE. pose proof (terminal_resolvers_done s I TE) as RD.
  (* the destructor thread has returned, so it won or found the owner pointer taken: there is a winner *)
  destruct (i_dtor s I) as (d & pcd & HD). destruct (RD _ _ _ HD) as (rd & ->).
  assert (WN : exists i, winner s = Some i).
  { destruct rd; [exists d; exact (i_win_pc s I _ _ _ HD eq_refl)|].
    destruct (winner s) as [i|] eqn:Wn; [eauto|]. destruct (i_none s I Wn) as (O & _).
    rewrite (i_lost s I _ _ _ HD eq_refl) in O. discriminate. }
  destruct WN as (i & WI). destruct (i_some s I i WI) as (_ & k & pc & HI & WP & PL & SR & KW).
  destruct (RD _ _ _ HI) as (r & ->). destruct r; [|discriminate].
  destruct KW as (KW & KA); [discriminate|]. exists i, k. repeat split; auto. apply SR. reflexivity.
Qed.

(* no lost wake-up: when nothing can run any more, the future is ready, the chain, the walk list and the suspend
   point are empty, and every waiter has gone on with the final payload: released exactly once if it had
   subscribed, never released otherwise *)
Theorem no_lost_wakeup s :
  Inv1 s -> Inv2 s -> all_enabled s = [] ->
  slot s = SReady /\ chain s = [] /\ walk s = [] /\ acc s = [] /\
  (exists i k, winner s = Some i /\ T s i = Some (TR k (RDone true)) /\ payload s = payload_of k ONone) /\
  forall w k pc f, T s w = Some (TW k pc f) ->
    pc = WDone (payload s) /\
    count_occ Nat.eq_dec (rel s) w = (if in_dec Nat.eq_dec w (sublog s) then 1 else 0)%nat.
Proof.
  intros I [L HT] TE. destruct (terminal_winner s I TE) as (i & k & WI & HI & PL & SR & KW & KA).
  assert (CH : chain s = []) by (unfold chain; rewrite SR; reflexivity).
  refine (conj SR (conj CH (conj KW (conj KA (conj _ _))))); [exists i, k; auto|].
  intros w kw pc f H. pose proof H as HW. apply waiter_T in HW.
  pose proof (terminal_none_enabled s w TE) as E. unfold enabled in E. fold (T s w) in E. rewrite H in E.
  assert (PD : exists o, pc = WDone o).
  { destruct pc; try discriminate; eauto.
    - pose proof (t_at HT _ HW) as Q. unfold pend in Q. rewrite CH, KW, KA in Q. destruct Q.
    - subst f. pose proof (t_at HT _ HW) as Q. unfold pend in Q. rewrite CH, KW, KA in Q. destruct Q. }
  destruct PD as (o & ->). destruct (t_at HT _ HW) as (_ & -> & SI). split; [reflexivity|].
  pose proof (l_nodup L) as ND. rewrite CH, KW, KA in ND. cbn [app] in ND. fold (rel s) in ND.
  pose proof (l_sub L w) as JS. rewrite CH, KW, KA in JS. cbn [app] in JS. fold (rel s) in JS.
  destruct (in_dec Nat.eq_dec w (sublog s)) as [IN|NI].
  - apply JS in IN. pose proof (nodup_count _ w ND). apply (count_occ_In Nat.eq_dec) in IN. lia.
  - apply count_occ_not_In. intro Q. apply NI. apply JS. exact Q.
Qed.
