(* AdaptersOracle.v — the decidable form of C18 used on the implementation's traces (adapt_oracle) accepts every
   trace the model produces: forall ops, adapt_oracle (adapt_run ops) = true.  So the oracle is not stricter than the
   proved property, and whatever it rejects on the implementation is a behaviour no schedule of the model has. *)
From Cocls Require Import Base BaseProofs AdaptersDefs AdaptersInv AdaptersLog AdaptersProofs.
Require Import ZifyBool.
Local Open Scope nat_scope.

Lemma exec_log c s i ins :
  exists l, log (fst (exec c s i ins)) = log s ++ map (fun e => (clk s, e)) l /\ clk (fst (exec c s i ins)) = clk s.
Proof.
  assert (P : forall X l, log (push X i l) = log X /\ clk (push X i l) = clk X) by (intros; destruct i as [|[|[|i]]]; split; reflexivity).
  destruct ins; unfold exec, fire, fire2, deliver; cbn [fst]; dflags s; cbn [fst];
    try match goal with |- context[push ?X i ?l] => destruct (P X l) as [-> ->] end; red1;
    first [exists []; cbn [map]; rewrite app_nil_r; split; reflexivity | eexists; split; reflexivity].
Qed.

Lemma step_log c s i : enabled s i = true ->
  exists l, log (fst (tstep c s i)) = log s ++ map (fun e => (S (clk s), e)) l /\ clk (fst (tstep c s i)) = S (clk s).
Proof.
  intros E. unfold tstep, enabled in *. destruct (thr s i) as [|ins rest]; [discriminate|].
  destruct (exec_log c (set_thr (tick s) i rest) i ins) as (l & A & B). exists l. rewrite A, B.
  destruct i as [|[|[|i]]]; split; reflexivity.
Qed.

Fixpoint mono (p : nat) (l : list (nat * ev)) : Prop :=
  match l with [] => True | e :: r => p <= fst e /\ mono (fst e) r end.

Lemma mono_app_new p a t b :
  mono p a -> Forall (fun e => fst e <= t) a -> p <= t -> mono p (a ++ map (fun e => (t, e)) b).
Proof.
  revert p. induction a as [|x a IH]; intros p M F P; cbn [app].
  - clear M F. revert p P. induction b as [|y b IHb]; intros p P; cbn [map mono]; [exact I|].
    split; [exact P|]. apply IHb. cbn [fst]. lia.
  - cbn [mono] in *. destruct M as [M1 M2]. inversion F; subst. split; [exact M1|]. apply IH; assumption.
Qed.

(* time stamps: the step numbers in the log never decrease, and none is ahead of the clock *)
Definition TInv (s : st) : Prop := mono 0 (log s) /\ Forall (fun e => fst e <= clk s) (log s).

Lemma tinv_step c s i : TInv s -> enabled s i = true -> TInv (fst (tstep c s i)).
Proof.
  intros [M F] E. destruct (step_log c s i E) as (l & L & K). unfold TInv. rewrite L, K. split.
  - apply mono_app_new; [exact M| |lia]. eapply Forall_impl; [|exact F]. cbn. intros; lia.
  - apply Forall_app. split.
    + eapply Forall_impl; [|exact F]. cbn. intros; lia.
    + apply Forall_forall. intros x H. apply in_map_iff in H. destruct H as (e & <- & _). cbn [fst]. lia.
Qed.

Lemma tinv_reachable c s : reachable c s -> TInv s.
Proof.
  induction 1; [|apply tinv_step; assumption].
  unfold TInv, init. cbn [log clk mono]. split; [exact I|constructor].
Qed.


Lemma all_enabled_lt3 s i : In i (all_enabled s) -> i < 3.
Proof.
  unfold all_enabled. intros H.
  repeat (apply in_app_or in H; destruct H as [H|H]);
    match type of H with In _ (if ?b then _ else _) => destruct b end; cbn [In] in H; try contradiction;
    destruct H as [<-|[]]; lia.
Qed.

Lemma run_sched_trace c fuel : forall s sched tr,
  Forall (fun p => fst p < 3) tr -> Forall (fun p => fst p < 3) (snd (run_sched c fuel s sched tr)).
Proof.
  induction fuel as [|f IH]; intros s sched tr F; cbn [run_sched]; [exact F|].
  destruct (all_enabled s) as [|e en] eqn:EN; [exact F|].
  set (i := nth _ (e :: en) 0).
  assert (L : i < 3) by (apply (all_enabled_lt3 s); rewrite EN; apply nth_mod_In; discriminate).
  destruct (tstep c s i) as [s1 p] eqn:TS.
  apply IH. apply Forall_app. split; [exact F|]. constructor; [exact L|constructor].
Qed.

Definition trace_line (p : nat * Z) : list Z := [Z.of_nat (fst p); snd p].

Lemma trace_line_class p : fst p < 3 ->
  is_event_line (trace_line p) = false /\ is_final_line (trace_line p) = false /\
  Z.eqb (headz (trace_line p)) 44 = false /\ Z.eqb (headz (trace_line p)) 777 = false.
Proof.
  intros L. unfold trace_line, is_event_line, is_final_line, headz.
  destruct (fst p) as [|[|[|n]]]; [| | |lia]; cbn; repeat split; reflexivity.
Qed.

Lemma ev_line_class c seq e :
  is_event_line (ev_line c seq e) = true /\ is_final_line (ev_line c seq e) = false /\
  Z.eqb (headz (ev_line c seq e)) 44 = false /\ Z.eqb (headz (ev_line c seq e)) 777 = false.
Proof. unfold ev_line. destruct (snd e); cbn; repeat split; reflexivity. Qed.

Lemma filter_none {A} (f : A -> bool) l : Forall (fun x => f x = false) l -> filter f l = [].
Proof. induction 1 as [|x l H _ IH]; cbn [filter]; [reflexivity|rewrite H; exact IH]. Qed.
Lemma filter_all {A} (f : A -> bool) l : Forall (fun x => f x = true) l -> filter f l = l.
Proof. induction 1 as [|x l H _ IH]; cbn [filter]; [reflexivity|rewrite H, IH; reflexivity]. Qed.

Lemma existsb_none {A} (f : A -> bool) l : Forall (fun x => f x = false) l -> existsb f l = false.
Proof. induction 1 as [|x l H _ IH]; cbn [existsb]; [reflexivity|rewrite H; exact IH]. Qed.

Lemma find_line_skip h l r : Forall (fun x => Z.eqb (headz x) h = false) l -> find_line h (l ++ r) = find_line h r.
Proof. induction 1 as [|x l H _ IH]; cbn [app find_line]; [reflexivity|rewrite H; exact IH]. Qed.

Lemma list_eqb_refl a : list_eqb a a = true.
Proof.
  unfold list_eqb. rewrite Nat.eqb_refl. cbn [andb].
  induction a as [|x a IH]; cbn [combine forallb fst snd]; [reflexivity|]. rewrite Z.eqb_refl. exact IH.
Qed.
Lemma lists_eqb_refl a : lists_eqb a a = true.
Proof. induction a as [|x a IH]; cbn [lists_eqb]; [reflexivity|]. rewrite list_eqb_refl. exact IH. Qed.

(* steps of the event lines *)
Lemma steps_mono_seq c l : steps_mono 0 (map (ev_line c true) l) = true.
Proof.
  induction l as [|e l IH]; cbn [map steps_mono]; [reflexivity|].
  unfold ev_line at 1. destruct (snd e); cbn [app okind]; try (destruct o); try (destruct r); cbn; exact IH.
Qed.

Lemma steps_mono_ctl c l : forall p, mono p l -> steps_mono (Z.of_nat p) (map (ev_line c false) l) = true.
Proof.
  induction l as [|e l IH]; intros p M; cbn [map steps_mono]; [reflexivity|].
  cbn [mono] in M. destruct M as [M1 M2]. specialize (IH _ M2).
  unfold ev_line at 1. destruct (snd e); cbn [app okind]; try (destruct o); try (destruct r); cbn [app];
    (replace (Z.of_nat p <=? Z.of_nat (fst e))%Z with true by (symmetry; apply Z.leb_le; lia)); cbn [andb]; exact IH.
Qed.


Lemma final_events c s seq : valid c = true -> reachable c s -> terminal s ->
  map strip (map (ev_line c seq) (log s)) = expected_events c (payload s).
Proof.
  intros V R T. pose proof (terminal_final c s V R T) as FF.
  pose proof (f_fired c s FF) as F. pose proof (f_ndeliv c s FF) as ND. pose proof (f_nconv c s FF) as NC.
  pose proof (f_fired2 c s FF) as F2. pose proof (f_payload2 c s FF) as P2.
  pose proof (j_cfg (inv_k (inv_n (inv_reachable c s V R)))) as Hcfg. cbn beta in *.
  destruct (loginv_reachable c s V R) as (t1 & t2 & t3 & t4 & L).
  rewrite L, F, ND, NC, F2, P2. unfold atomic_cb, cv, is_conv, expected, expected_events, cb_log, cb2_log, conv_log, hb, hbn, re, kind_re in *.
  destruct (c_ad c) eqn:AD; destruct (c_re c) as [kr|] eqn:RE;
    try (specialize (Hcfg eq_refl); discriminate Hcfg);
    cbn [has_cb has_helper has_functor b2n andb Nat.eqb app map];
    rewrite ?app_nil_r;
    try (destruct (payload s); cbn [isv Nat.eqb app map ev_line snd fst strip okind conv_result]; reflexivity);
    try (rewrite !map_app; cbn [map ev_line snd fst strip app]; destruct (has_sd (c_stor c)); cbn [map ev_line snd fst strip app]; reflexivity).
  all: destruct (isv (payload s)); cbn [Nat.eqb app]; try (destruct (has_sd (c_stor c))); cbn [map ev_line snd fst strip app]; reflexivity.
Qed.

(* ... and so are the summary lines *)
Lemma final_summary c s : valid c = true -> reachable c s -> terminal s ->
  final_lines c s = expected_final c (payload s) (retz (ret1 s)) (retz (ret2 s)).
Proof.
  intros V R T. pose proof (terminal_final c s V R T) as [_ _ _ _ F FR AL NR ND NC O _].
  pose proof (fires_exactly_once c s V R T) as NCB. unfold ncb, re in NCB.
  pose proof (i_nores (inv_c (inv_n (inv_reachable c s V R)))) as Hnores. cbn beta in *.
  unfold final_lines, expected_final, zlen. rewrite NCB, FR, AL. unfold hb, hbn, expected in *.
  replace (Z.of_nat (b2n (has_helper (c_ad c))) - Z.of_nat (b2n (has_helper (c_ad c))))%Z with 0%Z by lia.
  assert (X : (match oslot s with SReady => 42%Z :: 1%Z :: okind (opayload s) | _ => [42; 0; 0; 0]%Z end) =
              (if is_conv c then 42%Z :: 1%Z :: okind (conv_result c (payload s)) else [42; 0; 0; 0]%Z)).
  { destruct (is_conv c) eqn:C.
    - destruct (O eq_refl) as [O1 O2]. rewrite O1, O2. reflexivity.
    - unfold cv in NR. rewrite C in NR. cbn [b2n] in NR. rewrite NR in Hnores. destruct (oslot s); cbn [rdy] in Hnores; try reflexivity; discriminate. }
  rewrite X.
  destruct (has_helper (c_ad c)), (has_cb (c_ad c)), (c_re c); cbn [b2n Z.of_nat Nat.add]; reflexivity.
Qed.


(* what the calls returned identifies the winner, and exactly one call that was made returned true *)
Lemma final_rets c s : valid c = true -> reachable c s -> terminal s ->
  rets_ok c (retz (ret1 s)) (retz (ret2 s)) = true /\
  out_of (kind_of c (if Z.eqb (retz (ret2 s)) 1 then 2 else 1)) = payload s.
Proof.
  intros V R T. destruct (terminal_done c s V R T) as (A & B & C).
  pose proof (terminal_final c s V R T) as [_ O P W _ _ _ _ _ _ _ _].
  pose proof (inv_reachable c s V R) as I.
  pose proof (i_ret2 (inv_r (inv_n I))) as Hret2. pose proof (i_t1 (inv_r (inv_n I))) as Ht1. pose proof (i_t2 (inv_r (inv_n I))) as Ht2. cbn beta in *.
  pose proof (i_pw (inv_r (inv_n I))) as Hpw. cbn beta in *.
  destruct (winner_facts c s V R) as (How1 & W2 & W3 & W4 & W5).
  unfold N in *. rewrite A, B, C in *. cbn [cnt Nat.add] in *.
  split.
  - unfold rets_ok, has_k2 in *. destruct (c_k2 c) as [k2|] eqn:K2.
    + cbn [b2n] in Ht2.
      assert (PC : prim_calls c = true).
      { unfold prim_calls. unfold valid in V. rewrite K2 in *. apply andb_prop in V. destruct V as [V _]. apply andb_prop in V. destruct V as [V _].
        apply andb_prop in V. destruct V as [_ V]. apply andb_prop in V. destruct V as [V _]. rewrite V.
        cbn [orb andb]. destruct (c_k c); reflexivity. }
      rewrite PC in Ht1. cbn [b2n] in Ht1.
      destruct (W5 ltac:(discriminate) O) as [[X Y]|[X Y]].
      * rewrite X. destruct (ret2 s) as [[|]|]; cbn [rn] in Ht2; try lia; [congruence|reflexivity].
      * rewrite X. destruct (ret1 s) as [[|]|]; cbn [rn] in Ht1; try lia; [congruence|reflexivity].
    + destruct (W4 eq_refl) as [_ R2]. rewrite R2. cbn [retz Z.eqb andb].
      destruct (prim_calls c) eqn:PC; cbn [b2n] in Ht1.
      * destruct (Hpw eq_refl) as [X|[X|X]]; [congruence| |rewrite X; reflexivity].
        apply Hret2 in X. congruence.
      * destruct (ret1 s); cbn [rn] in Ht1; [lia|reflexivity].
  - rewrite P. unfold wout.
    destruct (ret2 s) as [[|]|] eqn:R2; cbn [retz b2z Z.eqb].
    + assert (won s = 2) as -> by (apply Hret2; reflexivity). reflexivity.
    + destruct W as [->| W]; [reflexivity|]. apply Hret2 in W. discriminate.
    + destruct W as [->| W]; [reflexivity|]. apply Hret2 in W. discriminate.
Qed.

Theorem oracle_accepts_model : forall seq isvoid ops,
  adapt_oracle seq isvoid ops (adapt_run seq isvoid ops) = true.
Proof.
  intros seq isvoid ops. unfold adapt_oracle, adapt_run.
  destruct (decode_valid isvoid ops) as [c|] eqn:D; [|reflexivity].
  assert (V : valid c = true).
  { unfold decode_valid in D. destruct (decode isvoid ops) as [c'|]; [|discriminate].
    destruct (valid c' && flag_ok ops) eqn:Q; [|discriminate]. inversion D; subst. apply andb_prop in Q. tauto. }
  set (sched := if seq then [] else flat_map decode_sched ops).
  destruct (run_sched c (length sched + 200) (init c) sched []) as [s tr] eqn:RS.
  assert (R : reachable c s).
  { replace s with (fst (run_sched c (length sched + 200) (init c) sched [])) by (rewrite RS; reflexivity).
    apply run_sched_reachable. apply r_init. }
  assert (T : terminal s).
  { replace s with (fst (run_sched c (length sched + 200) (init c) sched [])) by (rewrite RS; reflexivity).
    apply every_schedule_terminates; [exact V|lia]. }
  assert (TR : Forall (fun p => fst p < 3) tr).
  { replace tr with (snd (run_sched c (length sched + 200) (init c) sched [])) by (rewrite RS; reflexivity).
    apply run_sched_trace. constructor. }
  destruct (terminal_done c s V R T) as (A & B & C).
  unfold stuck_list. rewrite A, B, C. cbn [app].
  set (TL := if seq then [] else map (fun p => [Z.of_nat (fst p); snd p]) tr).
  assert (TC : Forall (fun x => is_event_line x = false /\ is_final_line x = false /\
                               Z.eqb (headz x) 44 = false /\ Z.eqb (headz x) 777 = false) TL).
  { unfold TL. destruct seq; [constructor|]. apply Forall_forall. intros x H. apply in_map_iff in H.
    destruct H as (p & <- & H). apply (trace_line_class p). rewrite Forall_forall in TR. apply TR. exact H. }
  set (EL := map (ev_line c seq) (log s)).
  assert (EC : Forall (fun x => is_event_line x = true /\ is_final_line x = false /\
                               Z.eqb (headz x) 44 = false /\ Z.eqb (headz x) 777 = false) EL).
  { unfold EL. apply Forall_forall. intros x H. apply in_map_iff in H. destruct H as (e & <- & _). apply ev_line_class. }
  rewrite (final_summary c s V R T).
  destruct (final_rets c s V R T) as [RO WO].
  set (r1 := retz (ret1 s)) in *. set (r2 := retz (ret2 s)) in *.
  set (FL := expected_final c (payload s) r1 r2).
  (* line 44 *)
  assert (F44 : find_line 44 (TL ++ EL ++ FL) = Some [44%Z; r1; r2]).
  { rewrite find_line_skip by (eapply Forall_impl; [|exact TC]; cbn; tauto).
    rewrite find_line_skip by (eapply Forall_impl; [|exact EC]; cbn; tauto).
    unfold FL, expected_final. cbn [find_line]. unfold headz at 1. cbn [Z.eqb]. 
    destruct (c_stor c) as [|[|[|[|n]]]]; unfold headz at 1; cbn [Z.eqb];
      (destruct (is_conv c); unfold headz at 1; cbn [Z.eqb]; unfold headz at 1; cbn [Z.eqb]; reflexivity). }
  rewrite F44. rewrite WO. rewrite RO. cbn [andb].
  (* event lines *)
  rewrite !filter_app.
  rewrite (filter_none is_event_line TL) by (eapply Forall_impl; [|exact TC]; cbn; tauto).
  rewrite (filter_all is_event_line EL) by (eapply Forall_impl; [|exact EC]; cbn; tauto).
  assert (FE : filter is_event_line FL = []).
  { unfold FL, expected_final. cbn [filter]. unfold is_event_line, headz.
    destruct (c_stor c) as [|[|[|[|n]]]]; cbn; destruct (is_conv c); reflexivity. }
  rewrite FE. cbn [app]. rewrite app_nil_r.
  unfold EL at 1. rewrite (final_events c s seq V R T). rewrite lists_eqb_refl. cbn [andb].
  (* step numbers *)
  assert (SM : steps_mono 0 EL = true).
  { unfold EL. destruct seq; [apply steps_mono_seq|]. apply (steps_mono_ctl c (log s) 0). apply (tinv_reachable c s R). }
  rewrite SM. cbn [andb].
  (* summary lines *)
  rewrite (filter_none is_final_line TL) by (eapply Forall_impl; [|exact TC]; cbn; tauto).
  rewrite (filter_none is_final_line EL) by (eapply Forall_impl; [|exact EC]; cbn; tauto).
  assert (FF : filter is_final_line FL = FL).
  { unfold FL, expected_final. cbn [filter]. unfold is_final_line, headz.
    destruct (c_stor c) as [|[|[|[|n]]]]; cbn; destruct (is_conv c); reflexivity. }
  cbn [app]. rewrite FF, lists_eqb_refl. cbn [andb].
  (* no deadlock line *)
  rewrite !existsb_app.
  rewrite (existsb_none _ TL) by (eapply Forall_impl; [|exact TC]; cbn; tauto).
  rewrite (existsb_none _ EL) by (eapply Forall_impl; [|exact EC]; cbn; tauto).
  unfold FL, expected_final. cbn [existsb]. unfold headz.
  destruct (c_stor c) as [|[|[|[|n]]]]; cbn; destruct (is_conv c); reflexivity.
Qed.
