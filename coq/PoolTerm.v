(* PoolTerm.v — finiteness of the runs of the thread-pool model: a measure (remaining client programs + job bodies
   + queued closures + pending wake-ups + join lists) strictly decreases with every step, so every schedule ends
   after at most mu (init ops) steps; with PoolLive: it ends in a terminal state, in the client-program deadlock
   `user_stuck`, or with a thread waiting for the outcome of a submission. *)
From Cocls Require Import Base BaseProofs PoolDefs PoolProofs PoolLive.
Require Import Lia.
Local Open Scope nat_scope.

Lemma pcw_job_next K i r : pcw K i (job_next r) = 2 + bw K r.
Proof. destruct r as [|[] r]; cbn [job_next pcw bw actw]; lia. Qed.
Lemma pcw_next_client K i prog : pcw K i (next_client i prog) = ncw K i prog.
Proof. unfold next_client, ncw. destruct prog; [destruct (Nat.eqb i 0)|]; reflexivity. Qed.
Lemma pcw_pc_after K i a : pcw K i (pc_after i a) = aw K i a.
Proof. destruct a as [r| |[|] r]; cbn [pc_after aw]; try reflexivity; [apply pcw_next_client|apply pcw_job_next]. Qed.
Lemma ncw_le K i prog : ncw K i prog <= 1 + progw K prog + endw K i.
Proof. unfold ncw, endw. destruct prog; [destruct (Nat.eqb i 0); cbn; lia|lia]. Qed.

Lemma sumw_set_nth f l : forall i from p old, nth_error l i = Some old ->
  sumw f (set_nth l i p) from + f (from + i) old = sumw f l from + f (from + i) p.
Proof.
  induction l as [|x l IH]; intros [|i] from p old H; cbn [nth_error] in H; try discriminate.
  - inversion H; subst. cbn [set_nth sumw]. rewrite Nat.add_0_r. lia.
  - cbn [set_nth sumw]. specialize (IH i (S from) p old H). replace (from + S i) with (S from + i) by lia. lia.
Qed.

Lemma sumw_change f g l : forall from i x, nth_error l i = Some x ->
  (forall j q, j <> from + i -> f j q = g j q) ->
  sumw f l from + g (from + i) x = sumw g l from + f (from + i) x.
Proof.
  induction l as [|y l IH]; intros from [|i] x H E; cbn [nth_error] in H; try discriminate.
  - inversion H; subst y. cbn [sumw]. rewrite Nat.add_0_r.
    assert (R : forall k, from < k -> sumw f l k = sumw g l k).
    { clear -E. induction l as [|z l IH]; intros k L; [reflexivity|]. cbn [sumw]. rewrite (E k z) by lia. rewrite IH by lia. reflexivity. }
    rewrite (R (S from)) by lia. lia.
  - cbn [sumw]. rewrite (E from y) by lia.
    assert (IH' := IH (S from) i x H). replace (from + S i) with (S from + i) by lia.
    assert (X : forall j q, j <> S from + i -> f j q = g j q) by (intros j q N; apply E; lia).
    specialize (IH' X). lia.
Qed.

Lemma sumw_ext f g l : forall from, (forall j p, f j p = g j p) -> sumw f l from = sumw g l from.
Proof. induction l as [|x l IH]; intros from E; [reflexivity|]. cbn [sumw]. rewrite E, (IH (S from) E). reflexivity. Qed.

Lemma qw_ext s s' l : length (thrs s') = length (thrs s) -> (forall c, In c l -> G cb [] s' c = G cb [] s c) -> qw s' l = qw s l.
Proof.
  intros L E. induction l as [|c r IH]; [reflexivity|]. cbn [qw]. unfold clw. rewrite L, (E c) by (left; reflexivity).
  rewrite IH; [reflexivity|]. intros c0 H. apply E. right. exact H.
Qed.
Lemma qw_app s a b : qw s (a ++ b) = qw s a + qw s b.
Proof. induction a as [|c r IH]; [reflexivity|]. cbn [app qw]. rewrite IH. lia. Qed.

(* the change of mu by a step of thread i, when the other threads' weights are untouched *)
Lemma mu_frame s s' i p old : T s i = Some old -> thrs s' = set_nth (thrs s) i p ->
  (forall j, j <> i -> nth j (cont s') [] = nth j (cont s) []) ->
  mu s' + tw s i old = sumw (tw s) (thrs s) 0 + tw s' i p + qw s' (queue s') + tokens s' + length (woken s').
Proof.
  intros H Et Ec. unfold mu.
  assert (LEN : length (thrs s') = length (thrs s)) by (rewrite Et; apply set_nth_length).
  rewrite Et.
  pose proof (sumw_set_nth (tw s') (thrs s) i 0 p old H) as E1. cbn [Nat.add] in E1.
  pose proof (sumw_change (tw s') (tw s) (thrs s) 0 i old H) as E2. cbn [Nat.add] in E2.
  assert (X : forall j q, j <> i -> tw s' j q = tw s j q).
  { intros j q N. unfold tw. rewrite LEN, (Ec j N). reflexivity. }
  specialize (E2 X). lia.
Qed.

Lemma mu_dec_frame s s' i p old : T s i = Some old -> thrs s' = set_nth (thrs s) i p ->
  (forall j, j <> i -> nth j (cont s') [] = nth j (cont s) []) ->
  tw s' i p + qw s' (queue s') + tokens s' + length (woken s') < tw s i old + qw s (queue s) + tokens s + length (woken s) ->
  mu s' < mu s.
Proof. intros H Et Ec D. pose proof (mu_frame s s' i p old H Et Ec). unfold mu at 2. lia. Qed.

(* same client program to return to, same kind of pc: compare pc weights only *)
Lemma mu_dec_pc s s' i p old : T s i = Some old -> thrs s' = set_nth (thrs s) i p -> cont s' = cont s ->
  is_client p = is_client old ->
  pcw (length (thrs s)) i p + qw s' (queue s') + tokens s' + length (woken s')
    < pcw (length (thrs s)) i old + qw s (queue s) + tokens s + length (woken s) ->
  mu s' < mu s.
Proof.
  intros H Et Ec Cl D. apply (mu_dec_frame s s' i p old H Et); [intros; rewrite Ec; reflexivity|].
  unfold tw. rewrite Et, set_nth_length, Ec, Cl. destruct (is_client old); lia.
Qed.

Lemma mu_move s i p old : T s i = Some old -> is_client p = is_client old ->
  pcw (length (thrs s)) i p < pcw (length (thrs s)) i old -> mu (with_thr s i p) < mu s.
Proof.
  intros H Cl D. apply (mu_dec_pc s (with_thr s i p) i p old H); try reflexivity; [exact Cl|].
  change (queue (with_thr s i p)) with (queue s). change (tokens (with_thr s i p)) with (tokens s).
  change (woken (with_thr s i p)) with (woken s).
  assert (Q : qw (with_thr s i p) (queue s) = qw s (queue s)).
  { apply qw_ext; [unfold with_thr; cbn [thrs]; apply set_nth_length|reflexivity]. }
  rewrite Q. lia.
Qed.

Lemma filter_length_le {A} (f : A -> bool) l : length (filter f l) <= length l.
Proof. induction l as [|x l IH]; [cbn; lia|]. cbn [filter]. destruct (f x); cbn [length]; lia. Qed.

Lemma filter_ne_shorter i l : existsb (Nat.eqb i) l = true -> length (filter (fun j => negb (Nat.eqb j i)) l) < length l.
Proof.
  induction l as [|x l IH]; [discriminate|]. cbn [existsb filter]. destruct (Nat.eqb_spec i x) as [E|E].
  - intros _. subst x. rewrite Nat.eqb_refl. cbn [negb length].
    pose proof (filter_length_le (fun j => negb (Nat.eqb j i)) l). lia.
  - cbn [orb]. intros X. assert (Nat.eqb x i = false) by (apply Nat.eqb_neq; auto). rewrite H. cbn [negb length].
    specialize (IH X). lia.
Qed.

Lemma wake_cost s i : enabled s i = true -> (exists p, T s i = Some p /\ is_sleep p = true) ->
  tokens (wake s i) + length (woken (wake s i)) < tokens s + length (woken s).
Proof.
  intros EN (p & H & S). unfold enabled in EN. unfold T in H. rewrite H in EN.
  assert (E : Nat.ltb 0 (tokens s) || is_woken s i = true) by (destruct p; try discriminate; exact EN).
  unfold wake. destruct (is_woken s i) eqn:W.
  - unfold with_woken. cbn [tokens woken]. pose proof (filter_ne_shorter i (woken s) W). lia.
  - rewrite Bool.orb_false_r in E. apply Nat.ltb_lt in E. unfold with_tokens. cbn [tokens woken]. lia.
Qed.

Lemma sleeper_ids_len s : length (sleeper_ids s) <= length (thrs s).
Proof. unfold sleeper_ids. pose proof (filter_length_le (sleeps s) (seq 0 (length (thrs s)))). rewrite seq_length in H. exact H. Qed.

(* weight bound of the pc a thread has after the first critical section of stop() / after a wake-up in stop() *)
Definition jw (l : list nat) : nat := match l with [] => 2 | _ => 2 * length l + 3 end.
Lemma stop_pc_weight K i l q first a :
  pcw K i (match l with [] => fin_pc i first a | _ => Join l q first a end)
    <= jw l + (if first then K + 3 else 0) + aw K i a.
Proof.
  destruct l as [|w l].
  - destruct first; cbn [fin_pc pcw length jw]; [lia|]. rewrite pcw_pc_after. lia.
  - cbn [pcw jw]. lia.
Qed.
Lemma jw_le l : jw l <= 2 * length l + 3.
Proof. destruct l; cbn [jw length]; lia. Qed.

Lemma mu_enqueue s i l k b p old : InvA s -> T s i = Some old -> is_client p = is_client old ->
  pcw (length (thrs s)) i p + 4 + bw (length (thrs s)) b < pcw (length (thrs s)) i old ->
  mu (with_thr (fst (enqueue s i l k b)) i p) < mu s.
Proof.
  intros I H Cl D.
  destruct (enqueue_shell s i l k b _ eq_refl) as (hq & he & hs & ht & hk & hw & hd & hn & hth & hc & hx & hu & hl & hb & hr & ho).
  set (s1 := fst (enqueue s i l k b)) in *.
  set (s' := with_thr s1 i p).
  assert (L1 : length (thrs s1) = length (thrs s)) by (rewrite hth; reflexivity).
  assert (L' : length (thrs s') = length (thrs s)) by (unfold s', with_thr; cbn [thrs]; rewrite set_nth_length; exact L1).
  assert (QOLD : qw s' (queue s) = qw s (queue s)).
  { apply qw_ext; [exact L'|]. intros c Hin. unfold s', with_thr, G. cbn [clos]. fold (G cb [] s1 c). rewrite hb.
    pose proof (queue_valid s c I Hin). assert (Nat.eqb c (length (clos s)) = false) by (apply Nat.eqb_neq; lia). rewrite H1. reflexivity. }
  apply (mu_dec_pc s s' i p old H); try reflexivity.
  - unfold s', with_thr. cbn [thrs]. rewrite hth. reflexivity.
  - exact hc.
  - exact Cl.
  - change (queue s') with (queue s1). change (tokens s') with (tokens s1). change (woken s') with (woken s1).
    rewrite hq, hk, hw. destruct (exit_ s || throws k).
    + rewrite QOLD. lia.
    + rewrite qw_app, QOLD. cbn [qw]. unfold clw at 1. rewrite L'.
      assert (GB : G cb [] s' (length (clos s)) = b).
      { unfold s', with_thr, G. cbn [clos]. fold (G cb [] s1 (length (clos s))). rewrite hb, Nat.eqb_refl. reflexivity. }
      rewrite GB. destruct (Nat.ltb (tokens s + length (woken s)) (sleepers s)); lia.
Qed.

Lemma mu_after_wait s s0 i l q (first : bool) a old : T s i = Some old ->
  thrs s0 = thrs s -> cont s0 = cont s -> clos s0 = clos s ->
  is_client_after a = is_client old ->
  jw l + (if first then length (thrs s) + 3 else 0) + aw (length (thrs s)) i a
     + qw s (queue s0) + tokens s0 + length (woken s0)
    < pcw (length (thrs s)) i old + qw s (queue s) + tokens s + length (woken s) ->
  mu (fst (after_wait s0 i l q first a)) < mu s.
Proof.
  intros H Et Ec Ecl Cl D.
  destruct (after_wait_shell s0 i l q first a _ eq_refl) as (E & K & Q & Dd & Th).
  set (s' := fst (after_wait s0 i l q first a)) in *.
  destruct E as (e1 & e2 & e3 & e4 & e5 & e6 & e7 & e8 & e9). destruct K as (k1 & k2 & k3 & k4).
  set (p := match l with [] => fin_pc i first a | _ => Join l q first a end) in *.
  assert (PC : is_client p = is_client_after a) by (unfold p; destruct l; [apply fin_pc_class|reflexivity]).
  assert (Et' : thrs s' = set_nth (thrs s) i p) by (rewrite Th, Et; reflexivity).
  assert (L' : length (thrs s') = length (thrs s)) by (rewrite Et'; apply set_nth_length).
  assert (QW : qw s' (queue s') <= qw s (queue s0)).
  { assert (X : qw s' (queue s0) = qw s (queue s0)).
    { apply qw_ext; [exact L'|]. intros c _. rewrite k1. unfold G. rewrite Ecl. reflexivity. }
    rewrite Q. destruct (_ && _ && _); [cbn; lia|rewrite X; lia]. }
  apply (mu_dec_pc s s' i p old H Et'); [congruence|congruence|].
  pose proof (stop_pc_weight (length (thrs s)) i l q first a) as W. fold p in W.
  rewrite e4, e5. lia.
Qed.

Lemma mu_worker_cs s s0 w old : InvA s -> T s w = Some old ->
  thrs s0 = thrs s -> clos s0 = clos s -> queue s0 = queue s ->
  (forall j, j <> w -> nth j (cont s0) [] = nth j (cont s) []) ->
  (* what the thread had before, compared with an idle worker that returns to cont s0 [w] *)
  2 + ncw (length (thrs s)) w (nth w (cont s0) []) + tokens s0 + length (woken s0)
     <= tw s w old + tokens s + length (woken s) ->
  mu (fst (worker_cs s0 w)) < mu s.
Proof.
  intros I H Et Ecl Eq Ec D.
  set (K := length (thrs s)) in *. set (back := ncw K w (nth w (cont s0) [])) in *.
  assert (GEN : forall s2 p, thrs s2 = thrs s0 -> cont s2 = cont s0 -> tokens s2 = tokens s0 -> woken s2 = woken s0 ->
            (forall c, G cb [] s2 c = G cb [] s c) ->
            pcw K w p + (if is_client p then 0 else back) + qw s (queue s2) < 2 + back + qw s (queue s) ->
            mu (with_thr s2 w p) < mu s).
  { intros s2 p E1 E2 E3 E4 E5 L. set (s' := with_thr s2 w p).
    assert (Et' : thrs s' = set_nth (thrs s) w p) by (unfold s', with_thr; cbn [thrs]; rewrite E1, Et; reflexivity).
    apply (mu_dec_frame s s' w p old H Et'); [intros j N; change (cont s') with (cont s2); rewrite E2; apply Ec, N|].
    change (queue s') with (queue s2). change (tokens s') with (tokens s2). change (woken s') with (woken s2).
    assert (QW : qw s' (queue s2) = qw s (queue s2)).
    { apply qw_ext; [rewrite Et'; apply set_nth_length|]. intros c _. apply (E5 c). }
    unfold tw at 1. change (cont s') with (cont s2). rewrite QW, Et', set_nth_length, E2, E3, E4. fold K back. lia. }
  assert (SAME : forall c, G cb [] s0 c = G cb [] s c) by (intros c; unfold G; rewrite Ecl; reflexivity).
  unfold worker_cs, exit_pc. destruct (exit_ s0).
  - destruct (Nat.ltb w (nclients s0)); apply GEN; auto; rewrite Eq.
    + rewrite next_client_client, pcw_next_client. fold back. lia.
    + cbn [is_client pcw]. lia.
  - destruct (queue s0) as [|c0 r] eqn:QQ.
    + apply GEN; auto. rewrite QQ, <- Eq. cbn [is_client pcw qw]. lia.
    + unfold run_job. change (clos (with_queue s0 r)) with (clos s0).
      assert (V : c0 < length (clos s)) by (apply (queue_valid s c0 I); rewrite <- Eq; left; reflexivity).
      destruct (nth_error (clos s0) c0) as [x|] eqn:E; [|apply nth_error_None in E; rewrite Ecl in E; lia].
      apply GEN; try reflexivity.
      * intros c. rewrite (G_run cb [] s0 r c0 x _ c E).
        destruct (Nat.eqb_spec c0 c) as [<-|]; [rewrite <- SAME; unfold G; rewrite E|apply SAME]; reflexivity.
      * assert (Cp : is_client (job_next (cb x)) = false) by (apply job_next_plain).
        rewrite Cp, pcw_job_next, <- Eq. cbn [queue with_clos with_queue qw]. unfold clw at 1. fold K.
        rewrite <- SAME. unfold G at 1. rewrite E. lia.
Qed.

Lemma mu_stop_mark s i a old : InvB s -> T s i = Some old -> is_client_after a = is_client old ->
  4 * length (thrs s) + 7 + aw (length (thrs s)) i a <= pcw (length (thrs s)) i old ->
  (forall d r, a = AWorker d r -> d = false) ->
  mu (fst (stop_mark s i a)) < mu s.
Proof.
  intros B H Cl D DF. destruct (stop_after_same s i a) as (CA & _).
  set (K := length (thrs s)) in *. set (s1 := marked s (sleeper_ids s)).
  assert (AW : aw K i (stop_after s i a) <= aw K i a).
  { destruct a as [r| |d r]; try reflexivity. rewrite (DF d r eq_refl). cbn [stop_after aw]. destruct (existsb (Nat.eqb i) (threads s)); lia. }
  assert (LL : length (stop_list s i) <= K).
  { pose proof (filter_length_le (fun w => negb (Nat.eqb w i)) (threads s)). pose proof (b_thrlen s B). unfold stop_list, K. lia. }
  pose proof (sleeper_ids_len s) as SL. fold K in SL.
  pose proof (jw_le (stop_list s i)) as JL.
  apply stop_mark_cases; intros; fold s1.
  - set (p := SWait _ _ _). apply (mu_dec_pc s (with_thr s1 i p) i p old H); try reflexivity.
    + cbn [is_client p]. congruence.
    + cbn [queue tokens woken with_thr s1 marked qw pcw p]. fold K. lia.
  - apply (mu_after_wait s s1 i _ (queue s) _ _ old H); try reflexivity.
    + congruence.
    + cbn [queue tokens woken s1 marked qw]. fold K. destruct (negb (exit_ s)); lia.
Qed.

Lemma mu_wake s i : enabled s i = true -> (exists p, T s i = Some p /\ is_sleep p = true) -> mu (wake s i) < mu s.
Proof.
  intros EN P. pose proof (wake_cost s i EN P) as C. unfold mu.
  assert (E1 : sumw (tw (wake s i)) (thrs (wake s i)) 0 = sumw (tw s) (thrs s) 0).
  { assert (Q : thrs (wake s i) = thrs s) by (unfold wake; destruct (is_woken s i); reflexivity).
    rewrite Q. apply sumw_ext. intros j q. unfold wake; destruct (is_woken s i); reflexivity. }
  assert (E2 : qw (wake s i) (queue (wake s i)) = qw s (queue s)).
  { assert (Q : queue (wake s i) = queue s) by (unfold wake; destruct (is_woken s i); reflexivity).
    rewrite Q. apply qw_ext; [unfold wake; destruct (is_woken s i); reflexivity|].
    intros c _. unfold wake; destruct (is_woken s i); reflexivity. }
  rewrite E1, E2. lia.
Qed.

Lemma nth_set_nth_cases {A} (l : list A) i x d : nth i (set_nth l i x) d = x \/ (length l <= i /\ nth i (set_nth l i x) d = d).
Proof.
  revert i. induction l as [|y l IH]; intros [|i]; cbn; auto; try (right; split; [lia|reflexivity]).
  destruct (IH i) as [E|[L E]]; [left; exact E|right; split; [lia|exact E]].
Qed.

Theorem mu_core s i : InvA s -> InvB s -> enabled s i = true -> mu (cstep s i) < mu s.
Proof.
  intros I B EN. destruct (cstep_path s i EN) as (old & H & P).
  set (K := length (thrs s)).
  assert (WC : is_sleep old = true -> tokens (wake s i) + length (woken (wake s i)) < tokens s + length (woken s)).
  { intros S. apply wake_cost; [exact EN|]. exists old. auto. }
  destruct P as [old p M|old l k b p E|old a S|old s0 W|l q f a J|l q a ST|l q a ST|a].
  - apply (mu_move s i p old H).
    + destruct (moves_cases s i old p M) as [(_ & G & _)|(w & l & q & f & a & -> & -> & _)]; [apply G|reflexivity].
    + fold K. destruct M as [|l r|X|l r|q r|l r|w0 w1 l q f a W].
      * rewrite pcw_next_client. cbn [ncw pcw progw]. unfold endw. destruct (Nat.eqb i 0); lia.
      * rewrite pcw_next_client. pose proof (ncw_le K i r). cbn [pcw progw opw]. lia.
      * cbn [pcw]. lia.
      * destruct (exit_ s); [rewrite pcw_job_next|]; cbn [pcw]; lia.
      * rewrite pcw_job_next. cbn [pcw]. lia.
      * rewrite pcw_job_next. cbn [pcw]. lia.
      * cbn [pcw length]. lia.
  - apply (mu_enqueue s i l k b p old I H); [apply (enqs_on i old l k b p E)|].
    fold K. destruct E as [l k b r|l k r|l r].
    + rewrite pcw_next_client. pose proof (ncw_le K i r). cbn [pcw progw opw]. lia.
    + rewrite pcw_job_next. cbn [pcw bw]. lia.
    + cbn [pcw]. lia.
  - apply (mu_stop_mark s i a old B H); [symmetry; apply (stops_plain old a S)| |destruct S; congruence].
    fold K. destruct S as [r| |r]; cbn [aw pcw progw opw]; [pose proof (ncw_le K i r)| |]; lia.
  - destruct W as [r| |].
    + apply (mu_worker_cs s (with_ext s i r) i _ I H); try reflexivity.
      * intros j N. unfold with_ext. cbn [cont]. apply nth_set_nth_other. auto.
      * unfold with_ext. cbn [cont tokens woken].
        unfold tw. cbn [is_client pcw progw opw]. fold K.
        destruct (nth_set_nth_cases (cont s) i r []) as [-> | [_ ->]].
        -- pose proof (ncw_le K i r). lia.
        -- unfold ncw, endw. destruct (Nat.eqb i 0); lia.
    + apply (mu_worker_cs s s i _ I H); reflexivity.
    + specialize (WC eq_refl).
      apply (mu_worker_cs s (wake s i) i _ I H); rewrite ?(wake_frame cont) by reflexivity;
        try (apply wake_frame; reflexivity); auto.
      unfold tw. cbn [is_client pcw]. fold K. lia.
  - apply (mu_after_wait s s i [] q f a _ H); try reflexivity. cbn [jw pcw]. fold K. lia.
  - specialize (WC eq_refl).
    apply (mu_after_wait s (wake s i) i l q false a _ H); try (apply wake_frame; reflexivity); [reflexivity|].
    rewrite (wake_frame queue) by reflexivity. cbn [pcw]. pose proof (jw_le l). lia.
  - apply mu_wake; [exact EN|]. exists (SWait l q a). auto.
  - apply (mu_after_wait s (finished s (sleeper_ids s)) i [] [] false a _ H); try reflexivity.
    unfold finished. cbn [queue tokens woken jw pcw]. pose proof (sleeper_ids_len s). fold K in H0 |- *. lia.
Qed.

Theorem mu_step s i : Inv s -> enabled s i = true -> mu (step s i) < mu s.
Proof. intros [I B U] EN. rewrite (step_is_core s i U EN). apply (mu_core s i I B EN). Qed.

Inductive steps : st -> nat -> st -> Prop :=
| steps_0 s : steps s 0 s
| steps_S s i n s' : enabled s i = true -> steps (step s i) n s' -> steps s (S n) s'.

(* every run is finite *)
Theorem runs_are_finite s n s' : Inv s -> steps s n s' -> n + mu s' <= mu s.
Proof.
  intros I St. induction St as [s|s i n s' EN St IH]; [lia|].
  pose proof (mu_step s i I EN). specialize (IH (inv_step s i I EN)). lia.
Qed.

(* with fuel >= mu the scheduler loop stops because nothing is enabled, not because the fuel ran out *)
Lemma run_sched_complete fuel : forall s sched tr, Inv s -> mu s <= fuel ->
  forall i, enabled (fst (run_sched fuel s sched tr)) i = false.
Proof.
  induction fuel as [|f IH]; intros s sched tr I M i.
  - cbn [run_sched fst]. destruct (enabled s i) eqn:X; [|reflexivity]. pose proof (mu_step s i I X). lia.
  - destruct (run_sched_S f s sched tr) as [[E ->]|(j & EN & ->)]; [apply all_enabled_nil, E|].
    pose proof (inv_step s j I EN) as I1. pose proof (mu_step s j I EN) as D. unfold step in I1, D.
    destruct (tstep s j) as [[s1 p] e]. cbn [fst] in I1, D.
    destruct (uad s1) eqn:U.
    + exfalso. pose proof (no_use_after_destroy s1 I1) as [X _]. congruence.
    + apply IH; [exact I1|lia].
Qed.

(* any start state with the invariants, any schedule, fuel mu s or more *)
Theorem run_sched_ends fuel s sched tr : Inv s -> InvC s -> mu s <= fuel ->
  let s' := fst (run_sched fuel s sched tr) in terminal s' \/ user_stuck s' \/ waits_for_submission s'.
Proof.
  intros I C M s'.
  assert (IC : Inv s' /\ InvC s').
  { apply (run_sched_closed (fun x => Inv x /\ InvC x)); [|auto].
    intros x i [Ix Cx] EN. split; [apply inv_step|apply invc_step]; assumption. }
  pose proof (run_sched_complete fuel s sched tr I M) as NE. fold s' in NE.
  destruct (terminalb s') eqn:Tb; [left; apply terminalb_sound, Tb|].
  assert (NT : ~ terminal s').
  { intros Tm. unfold terminalb in Tb. assert (forallb (fun p => negb (unfinished p)) (thrs s') = true).
    { apply forallb_forall. intros p Hin. apply In_nth_error in Hin. destruct Hin as [i Hi]. destruct (Tm i p Hi) as [->| ->]; reflexivity. }
    congruence. }
  destruct (stop_no_deadlock s' (proj1 IC) (proj2 IC) NT) as [(i & E)|US];
    [rewrite NE in E; discriminate|right; exact US].
Qed.
