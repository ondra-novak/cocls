(* AwProofs.v — re-used awaiter objects (AwDefs.v), every op sequence: an awaiter that is not linked has a null link
   field, so every subscription attempt starts from null and can never match the ready marker; every started wait is
   answered exactly once (callback run once) or is still parked in exactly one pending future. *)
From Cocls Require Import Base BaseProofs CellDefs AwDefs.
Local Open Scope nat_scope.

Record AInv (s : ast) : Prop := {
  v_err : a_err s = false;
  v_aw : forall a w, nth_error (aws s) a = Some w ->
         match aw_cell w with
         | None => aw_next w = LNull /\ aw_runs w = aw_waits w
         | Some c => aw_waits w = S (aw_runs w) /\
                     exists cl l, nth_error (acells s) c = Some cl /\ ac_slot cl = Some l /\ In a l
         end;
  v_cell : forall c cl l, nth_error (acells s) c = Some cl -> ac_slot cl = Some l ->
           ac_prom cl = true /\ NoDup l /\ forall a, In a l -> exists w, nth_error (aws s) a = Some w /\ aw_cell w = Some c;
}.

Lemma ainv_init : AInv ainit.
Proof.
  constructor; [reflexivity| |].
  - intros a w H. unfold ainit in H. cbn [aws] in H. apply nth_error_In in H. apply repeat_spec in H. subst. cbn. auto.
  - intros c cl l H SL. unfold ainit in H. cbn [acells] in H. apply nth_error_In in H. apply in_app_or in H.
    destruct H as [H|H]; apply repeat_spec in H; subst; cbn in SL; inversion SL; subst.
    cbn. repeat split; [constructor|intros a []].
Qed.

Lemma mem_In a l : mem a l = true <-> In a l.
Proof.
  unfold mem. rewrite existsb_exists. split.
  - intros (x & H & E). apply Nat.eqb_eq in E. subst. exact H.
  - intros H. exists a. split; [exact H|apply Nat.eqb_refl].
Qed.

Lemma nth_mapi {A B} (f : nat -> A -> B) (ws : list A) : forall k a,
  nth_error (map (fun iw => f (fst iw) (snd iw)) (combine (seq k (length ws)) ws)) a = option_map (f (k + a)) (nth_error ws a).
Proof.
  induction ws as [|w ws IH]; intros k a; cbn [length seq combine map].
  - destruct a; reflexivity.
  - destruct a as [|a]; cbn [nth_error option_map]; [rewrite Nat.add_0_r; reflexivity|].
    rewrite IH. replace (S k + a) with (k + S a) by lia. reflexivity.
Qed.

Lemma nth_release l ws a :
  nth_error (release_all l ws) a =
  option_map (fun w => if mem a l then mkAw LNull None (aw_waits w) (S (aw_runs w)) else w) (nth_error ws a).
Proof.
  unfold release_all.
  exact (nth_mapi (fun i w => if mem i l then mkAw LNull None (aw_waits w) (S (aw_runs w)) else w) ws 0 a).
Qed.

(* a future that is ready (or absent) has nobody linked to it; replacing it by a fresh future keeps the invariant *)
Lemma ainv_renew s c rdy v : AInv s -> is_ready s c = true -> AInv (set_acell s c (fresh_cell rdy v)).
Proof.
  intros [V1 V2 V3] R. unfold is_ready in R. destruct (nth_error (acells s) c) as [cl0|] eqn:HC; [|discriminate].
  destruct (ac_slot cl0) eqn:SL0; [discriminate|].
  constructor; cbn [set_acell a_err aws acells]; [exact V1| |].
  - intros a w H. specialize (V2 a w H). destruct (aw_cell w) as [c'|]; [|exact V2].
    destruct V2 as (E & cl & l & A & B & C). split; [exact E|].
    rewrite nth_error_set_nth, HC. destruct (Nat.eqb_spec c c') as [<-|N]; [congruence|eauto].
  - intros c' cl l. rewrite nth_error_set_nth, HC. destruct (Nat.eqb_spec c c') as [<-|N]; [|apply V3].
    intros Q SL. inversion Q; subst. unfold fresh_cell in SL. destruct rdy; cbn in SL; [discriminate|].
    inversion SL; subst. cbn. repeat split; [constructor|intros a []].
Qed.

Lemma head_null cl : link_eqb (head_of cl) LNull = true <-> ac_slot cl = Some [].
Proof. unfold head_of. destruct (ac_slot cl) as [[|x l]|]; cbn; split; intros H; try discriminate; reflexivity. Qed.

Lemma sub_check_unlinked s a c w cl :
  nth_error (aws s) a = Some w -> aw_next w = LNull -> nth_error (acells s) c = Some cl ->
  sub_check s a c =
  match ac_slot cl with
  | Some l => (set_aw (set_acell s c (mkAC (Some (a :: l)) (ac_pay cl) (ac_prom cl))) a
                      (mkAw (head_of cl) (Some c) (aw_waits w) (aw_runs w)), true)
  | None => (set_aw s a (mkAw LNull None (aw_waits w) (aw_runs w)), false)
  end.
Proof.
  intros HA NX HC. unfold sub_check. rewrite HA, HC, NX. cbn [link_eqb negb]. unfold head_of.
  destruct (ac_slot cl) as [[|x l]|]; reflexivity.
Qed.

(* one wait of an unlinked awaiter *)
Lemma ainv_wait isvoid s a c : AInv s -> unlinked s a = true -> AInv (fst (do_wait isvoid s a c)).
Proof.
  intros I U. pose proof I as [V1 V2 V3]. unfold unlinked in U. unfold do_wait.
  destruct (nth_error (aws s) a) as [w0|] eqn:HA; [|discriminate].
  destruct (aw_cell w0) eqn:AC; [discriminate|]. pose proof (V2 a w0 HA) as Q. rewrite AC in Q. destruct Q as (NX & RW).
  destruct (nth_error (acells s) c) as [cl|] eqn:HC; [|exact I].
  rewrite NX. set (w1 := mkAw LNull None (S (aw_waits w0)) (aw_runs w0)).
  assert (HA0 : nth_error (aws (set_aw s a w1)) a = Some w1) by (cbn [set_aw aws]; rewrite nth_error_set_nth, Nat.eqb_refl, HA; reflexivity).
  assert (HC0 : nth_error (acells (set_aw s a w1)) c = Some cl) by exact HC.
  rewrite (sub_check_unlinked _ a c w1 cl HA0 eq_refl HC0).
  (* an awaiter that is not linked sits in no chain *)
  assert (NI : forall c' cl' l', nth_error (acells s) c' = Some cl' -> ac_slot cl' = Some l' -> ~ In a l').
  { intros c' cl' l' H SL' Q. destruct (V3 c' cl' l' H SL') as (_ & _ & M). destruct (M a Q) as (w & A & B).
    rewrite HA in A. inversion A; subst. congruence. }
  destruct (ac_slot cl) as [l|] eqn:SL.
  - (* subscribed *)
    cbn [a_err set_aw set_acell]. rewrite V1. cbn [fst w1 aw_waits aw_runs].
    destruct (V3 c cl l HC SL) as (PR & ND & M).
    constructor; cbn [set_aw set_acell a_err aws acells]; [exact V1| |].
    + intros a' w'. rewrite !nth_error_set_nth, Nat.eqb_refl, HA. destruct (Nat.eqb_spec a a') as [<-|N].
      * intros Q; inversion Q; subst. cbn [aw_cell aw_waits aw_runs]. split; [lia|].
        eexists. exists (a :: l). rewrite nth_error_set_nth, Nat.eqb_refl, HC. repeat split. left. reflexivity.
      * intros H. specialize (V2 a' w' H). destruct (aw_cell w') as [c'|]; [|exact V2].
        destruct V2 as (E & cl' & l' & A & B & C). split; [exact E|]. rewrite nth_error_set_nth, HC.
        destruct (Nat.eqb_spec c c') as [<-|N2]; [|eauto].
        rewrite HC in A. inversion A; subst. rewrite SL in B. inversion B; subst.
        eexists. exists (a :: l'). repeat split. right. exact C.
    + intros c' cl' l'. rewrite nth_error_set_nth, HC. destruct (Nat.eqb_spec c c') as [<-|N].
      * intros Q SL'. inversion Q; subst. cbn in SL'. inversion SL'; subst. cbn [ac_prom]. split; [exact PR|]. split.
        -- constructor; [exact (NI c cl l HC SL)|exact ND].
        -- intros a' [<-|H]; rewrite !nth_error_set_nth, Nat.eqb_refl, HA.
           ++ eauto.
           ++ destruct (Nat.eqb_spec a a') as [<-|N]; [eauto|]. apply M. exact H.
      * intros H SL'. destruct (V3 c' cl' l' H SL') as (PR' & ND' & M'). split; [exact PR'|]. split; [exact ND'|].
        intros a' Ha'. rewrite !nth_error_set_nth, Nat.eqb_refl, HA. destruct (Nat.eqb_spec a a') as [<-|N2]; [|apply M'; exact Ha'].
        exfalso. exact (NI c' cl' l' H SL' Ha').
  - (* refused: reset, the owner runs the callback *)
    cbn [a_err set_aw aws acells]. rewrite V1. rewrite !nth_error_set_nth, Nat.eqb_refl, HA, HC. cbn [fst w1 aw_next aw_cell aw_waits aw_runs].
    constructor; cbn [set_aw a_err aws acells]; [exact V1| |].
    + intros a' w'. rewrite !nth_error_set_nth, Nat.eqb_refl. rewrite ?nth_error_set_nth, ?Nat.eqb_refl, ?HA.
      destruct (Nat.eqb_spec a a') as [<-|N]; [|apply V2].
      intros Q; inversion Q; subst. cbn. split; [reflexivity|lia].
    + intros c' cl' l' H SL'. destruct (V3 c' cl' l' H SL') as (PR' & ND' & M'). split; [exact PR'|]. split; [exact ND'|].
      intros a' Ha'. rewrite !nth_error_set_nth, Nat.eqb_refl. rewrite ?nth_error_set_nth, ?Nat.eqb_refl, ?HA.
      destruct (Nat.eqb_spec a a') as [<-|N2]; [|apply M'; exact Ha'].
      exfalso. exact (NI c' cl' l' H SL' Ha').
Qed.

(* the promise of future c is called: exchange to ready, every linked awaiter gets _next = nullptr and runs once *)
Lemma ainv_resolve s c cl l pay e :
  AInv s -> nth_error (acells s) c = Some cl -> ac_slot cl = Some l -> e = a_err s ->
  AInv (mkA (set_nth (acells s) c (mkAC None pay false)) (release_all l (aws s)) e).
Proof.
  intros [V1 V2 V3] HC SL ->. destruct (V3 c cl l HC SL) as (PR & ND & M).
  constructor; cbn [a_err aws acells]; [exact V1| |].
  - intros a w. rewrite nth_release. destruct (nth_error (aws s) a) as [w0|] eqn:HA; [|discriminate].
    cbn [option_map]. specialize (V2 a w0 HA). destruct (mem a l) eqn:ML.
    + intros Q; inversion Q; subst. cbn. split; [reflexivity|].
      apply mem_In in ML. destruct (M a ML) as (w1 & A & B). rewrite HA in A. inversion A; subst. rewrite B in V2. lia.
    + intros Q; inversion Q; subst. destruct (aw_cell w) as [c'|]; [|exact V2].
      destruct V2 as (E & cl' & l' & A & B & C). split; [exact E|]. rewrite nth_error_set_nth, HC.
      destruct (Nat.eqb_spec c c') as [<-|N]; [|eauto].
      exfalso. rewrite HC in A. inversion A; subst. rewrite SL in B. inversion B; subst.
      apply mem_In in C. congruence.
  - intros c' cl' l'. rewrite nth_error_set_nth, HC. destruct (Nat.eqb_spec c c') as [<-|N]; [intros Q; inversion Q; subst; discriminate|].
    intros H SL'. destruct (V3 c' cl' l' H SL') as (PR' & ND' & M'). split; [exact PR'|]. split; [exact ND'|].
    intros a Ha. destruct (M' a Ha) as (w & A & B). rewrite nth_release, A. cbn [option_map].
    destruct (mem a l) eqn:ML; [|eauto]. exfalso. apply mem_In in ML. destruct (M a ML) as (w2 & A2 & B2). congruence.
Qed.

Theorem ainv_step isvoid s x : AInv s -> AInv (fst (astep isvoid s x)).
Proof.
  intros I. unfold astep. rewrite (v_err s I). destruct x.
  - destruct (Nat.ltb a NAM && Nat.ltb c NCX && unlinked s a) eqn:G; [|exact I].
    apply andb_true_iff in G. destruct G as (_ & U). apply ainv_wait; assumption.
  - destruct (Nat.ltb b NAB && unlinked s (NAM + b) && is_ready s (NCX + b)) eqn:G; [|exact I].
    apply andb_true_iff in G. destruct G as (G & R). apply andb_true_iff in G. destruct G as (_ & U).
    apply ainv_wait; [apply ainv_renew; assumption|exact U].
  - destruct (nth_error (acells s) c) as [cl|] eqn:HC; [|exact I].
    destruct (ac_prom cl); [|exact I]. destruct (ac_slot cl) as [l|] eqn:SL; [|exact I].
    cbn [fst]. eapply ainv_resolve; try eassumption. symmetry. apply (v_err s I).
  - destruct (Nat.ltb c NCX && is_ready s c) eqn:G; [|exact I].
    apply andb_true_iff in G. destruct G as (_ & R). cbn [fst]. apply ainv_renew; assumption.
  - destruct (nth_error (acells s) c); exact I.
  - exact I.
Qed.

Theorem ainv_run isvoid ops : forall s, AInv s -> AInv (fst (arun isvoid s ops)).
Proof.
  induction ops as [|x r IH]; intros s I; cbn [arun]; [exact I|].
  destruct (astep isvoid s x) as [s1 o] eqn:E. specialize (IH s1).
  destruct (arun isvoid s1 r) as [s2 os] eqn:E2. cbn [fst] in *. apply IH.
  pose proof (ainv_step isvoid s x I) as Q. rewrite E in Q. exact Q.
Qed.

Theorem wait_on_resolved_is_refused isvoid s a c w cl :
  AInv s -> nth_error (aws s) a = Some w -> aw_cell w = None -> nth_error (acells s) c = Some cl -> ac_slot cl = None ->
  let r := do_wait isvoid s a c in
  snd r = 0%Z :: Z.of_nat a :: okind isvoid (ac_pay cl) /\ acells (fst r) = acells s /\
  nth_error (aws (fst r)) a = Some (mkAw LNull None (S (aw_waits w)) (S (aw_runs w))).
Proof.
  intros I HA U HC SL. pose proof (v_aw s I a w HA) as Q. rewrite U in Q. destruct Q as (NX & _).
  unfold do_wait. rewrite HA, HC, NX, U. set (w1 := mkAw LNull None (S (aw_waits w)) (aw_runs w)).
  assert (HA0 : nth_error (aws (set_aw s a w1)) a = Some w1) by (cbn [set_aw aws]; rewrite nth_error_set_nth, Nat.eqb_refl, HA; reflexivity).
  assert (HC0 : nth_error (acells (set_aw s a w1)) c = Some cl) by exact HC.
  rewrite (sub_check_unlinked _ a c w1 cl HA0 eq_refl HC0), SL.
  cbn [a_err set_aw aws acells]. rewrite (v_err s I). rewrite !nth_error_set_nth, Nat.eqb_refl, HA, HC.
  cbn [fst snd aws acells w1 aw_next aw_cell aw_waits aw_runs set_aw]. repeat split.
  rewrite !nth_error_set_nth, Nat.eqb_refl. rewrite ?nth_error_set_nth, ?Nat.eqb_refl, ?HA. reflexivity.
Qed.

(* every wait is answered exactly once: callbacks run = waits started, minus the one wait that is still parked in
   exactly one pending future (whose chain holds the awaiter exactly once) *)
Theorem each_wait_released_exactly_once s a w :
  AInv s -> nth_error (aws s) a = Some w ->
  match aw_cell w with
  | None => aw_runs w = aw_waits w
  | Some c => aw_waits w = S (aw_runs w) /\
              exists cl l, nth_error (acells s) c = Some cl /\ ac_slot cl = Some l /\ ac_prom cl = true /\
                           count_occ Nat.eq_dec l a = 1
  end.
Proof.
  intros I H. pose proof (v_aw s I a w H) as Q. destruct (aw_cell w) as [c|]; [|tauto].
  destruct Q as (E & cl & l & A & B & C). split; [exact E|]. exists cl, l.
  destruct (v_cell s I c cl l A B) as (PR & ND & _). repeat split; try assumption.
  pose proof (proj1 (NoDup_count_occ Nat.eq_dec l) ND a). apply (count_occ_In Nat.eq_dec) in C. lia.
Qed.

