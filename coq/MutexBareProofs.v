(* MutexBareProofs.v — coroutines without a coro_queue: at most one is inside, it is the holder, waiters are parked
   and pairwise different, for every sequence of operations. *)
From Cocls Require Import Base BaseProofs MutexBareDefs.
Local Open Scope nat_scope.

Definition isin (x : bst) : nat := match x with BIn => 1 | _ => 0 end.
Fixpoint cin (l : list bst) : nat := match l with [] => 0 | x :: r => isin x + cin r end.

Record BI (s : bare) : Prop := {
  b_cnt : cin (bco s) = match bholder s with Some _ => 1 | None => 0 end;
  b_hold : forall c, bholder s = Some c -> bget s c = Some BIn;
  b_q : forall w, In w (bq s) -> bget s w = Some BWait;
  b_nd : NoDup (bq s);
  b_free : bholder s = None -> bq s = []
}.

Lemma cin_app l x : cin (l ++ [x]) = cin l + isin x.
Proof. induction l as [|y l IH]; cbn [app cin]; [lia|rewrite IH; lia]. Qed.

Lemma cin_set l c x y : nth_error l c = Some y -> cin (set_nth l c x) + isin y = cin l + isin x.
Proof.
  revert c. induction l as [|z l IH]; intros [|c] H; cbn in H; try discriminate.
  - inversion H; subst. cbn [set_nth cin]. lia.
  - cbn [set_nth cin]. specialize (IH c H). lia.
Qed.

Lemma cin_one l : forall c, nth_error l c = Some BIn -> 1 <= cin l.
Proof.
  induction l as [|y l IH]; intros [|c] G; cbn [nth_error cin] in *; try discriminate.
  - inversion G. cbn. lia.
  - specialize (IH c G). lia.
Qed.

Lemma cin_two l : forall c d, nth_error l c = Some BIn -> nth_error l d = Some BIn -> c <> d -> 2 <= cin l.
Proof.
  induction l as [|y l IH]; intros [|c] [|d] A B N; cbn [nth_error cin] in *; try discriminate; try lia.
  - inversion A. pose proof (cin_one l d B). cbn. lia.
  - inversion B. pose proof (cin_one l c A). cbn. lia.
  - specialize (IH c d A B ltac:(lia)). lia.
Qed.

(* the counter leaves room for one coroutine inside: it is the holder *)
Lemma in_is_holder s x : BI s -> bget s x = Some BIn -> bholder s = Some x.
Proof.
  intros I G. pose proof (b_cnt s I) as C. destruct (bholder s) as [h|] eqn:H.
  - f_equal. destruct (Nat.eq_dec h x) as [|N]; [assumption|].
    pose proof (cin_two _ h x (b_hold s I h H) G N). lia.
  - pose proof (cin_one _ x G). lia.
Qed.

Lemma bstart_inv s : BI s -> BI (fst (bstart s (length (bco s)))).
Proof.
  intros [A B C D E]. unfold bstart. destruct (bholder s) as [h|] eqn:H; cbn [fst].
  - constructor; cbn [bco bholder bq].
    + rewrite cin_app. cbn. lia.
    + intros c Q. inversion Q; subst. unfold bget. cbn [bco]. rewrite nth_error_app1; [apply B; reflexivity|].
      apply nth_error_Some. unfold bget in B. rewrite (B c eq_refl). discriminate.
    + intros w Q. apply in_app_or in Q. unfold bget. cbn [bco]. destruct Q as [Q|[<-|[]]].
      * rewrite nth_error_app1; [apply C; exact Q|]. apply nth_error_Some. unfold bget in C. rewrite (C w Q). discriminate.
      * rewrite nth_error_app2 by lia. rewrite Nat.sub_diag. reflexivity.
    + apply (NoDup_app_comm [length (bco s)] (bq s)). cbn [app]. constructor; [|exact D].
      intros Q. specialize (C _ Q). unfold bget in C. assert (length (bco s) < length (bco s)); [|lia].
      apply nth_error_Some. rewrite C. discriminate.
    + discriminate.
  - rewrite (E eq_refl) in *. constructor; cbn [bco bholder bq].
    + rewrite cin_app. cbn. lia.
    + intros c Q. inversion Q; subst. unfold bget. cbn [bco]. rewrite nth_error_app2 by lia. rewrite Nat.sub_diag. reflexivity.
    + intros w [].
    + constructor.
    + discriminate.
Qed.

Lemma bopen_inv s c : BI s -> bget s c = Some BIn -> BI (fst (bopen s c)).
Proof.
  intros I G. pose proof (in_is_holder s c I G) as Hc. destruct I as [A B C D E]. unfold bopen.
  rewrite Hc in A.
  pose proof (cin_set (bco s) c BDone BIn G) as S1. cbn [isin] in S1.
  destruct (bq s) as [|w rest] eqn:Q; cbn [fst].
  - constructor; cbn [bco bholder bq]; try (intros; discriminate); try lia.
    + intros w []. + constructor. + reflexivity.
  - assert (Ww : bget s w = Some BWait) by (apply C; left; reflexivity).
    assert (Nwc : c <> w) by (intro; subst; congruence).
    assert (W1 : nth_error (set_nth (bco s) c BDone) w = Some BWait).
    { rewrite nth_error_set_nth_other by exact Nwc. exact Ww. }
    pose proof (cin_set _ w BIn BWait W1) as S2. cbn [isin] in S2.
    inversion D as [|? ? Nw Dr]; subst.
    constructor; cbn [bco bholder bq].
    + lia.
    + intros x Z. inversion Z; subst. unfold bget. cbn [bco]. apply nth_error_set_nth_same. rewrite set_nth_length. apply nth_error_Some. unfold bget in Ww. rewrite Ww. discriminate.
    + intros x Hx. unfold bget. cbn [bco].
      assert (x <> w) by (intro; subst; contradiction).
      assert (x <> c) by (intro; subst; assert (bget s c = Some BWait) by (apply C; right; exact Hx); congruence).
      rewrite !nth_error_set_nth_other by auto. apply C. right. exact Hx.
    + exact Dr.
    + discriminate.
Qed.

(* [1; c; r] starts coroutine c, [2; c] opens its gate; any other op leaves the state as it is *)
Lemma bstep_cases s op : fst (bstep s op) = s \/ fst (bstep s op) = fst (bstart s (length (bco s))) \/
  exists c, bget s c = Some BIn /\ fst (bstep s op) = fst (bopen s c).
Proof.
  unfold bstep. destruct op as [|k t]; [left; reflexivity|].
  destruct k as [|[p|[p|p|]|]|p]; try (left; reflexivity).
  - (* k = 2 *)
    destruct t as [|c [|? ?]]; try (left; reflexivity).
    destruct ((0 <=? c)%Z && _)%bool eqn:E; [|left; reflexivity]. right. right. exists (Z.to_nat c).
    apply andb_true_iff in E. destruct E as [_ E]. split; [|reflexivity].
    destruct (bget s (Z.to_nat c)) as [[]|]; try discriminate; reflexivity.
  - (* k = 1 *)
    destruct t as [|c [|r [|? ?]]]; try (left; reflexivity).
    destruct (_ && _)%bool; [right; left; reflexivity|left; reflexivity].
Qed.

Lemma bstep_inv s op : BI s -> BI (fst (bstep s op)).
Proof.
  intros I. destruct (bstep_cases s op) as [->|[->|(c & G & ->)]];
    [exact I|apply bstart_inv; exact I|apply bopen_inv; assumption].
Qed.

Inductive breach : bare -> Prop :=
| br_init : breach (mkB [] None [])
| br_step s op : breach s -> breach (fst (bstep s op)).

Lemma breach_inv s : breach s -> BI s.
Proof.
  induction 1; [|apply bstep_inv; assumption].
  constructor; cbn; try reflexivity; try (intros; discriminate); try constructor. intros w [].
Qed.
