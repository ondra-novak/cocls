(* Properties_C06.v — C06: a suspend point never loses or duplicates a ready coroutine.
   Only statements, each proved in a line or two from the lemmas of SuspendPointProofs.
   Quantification: any op sequence (any length), any number of objects (suspend_point<void> and suspend_point<X>)
   and handles, both modes; the awaiting coroutine's own handle may be inside the awaited list at any position. *)
From Cocls Require Import Base BaseProofs SuspendPointDefs SuspendPointProofs.
Local Open Scope Z_scope.

(* handles handed in (+ the awaiter, once per await) = handles resumed ⊎ handles still held by live objects or the ready queue *)
Theorem c06_conservation : forall coro ops e, wf_env e ->
  let r := run_from coro e ops in
  Permutation (handed_run ops (fst r) ++ spush_run coro e ops ++ held e) (resumed_run (fst r) ++ held (snd r)).
Proof. exact conservation. Qed.
Print Assumptions c06_conservation.

(* the same for the ready coroutines alone *)
Theorem c06_conservation_ready : forall coro ops e, wf_env e ->
  let r := run_from coro e ops in
  Permutation (filter not_drv (handed_run ops (fst r) ++ held e)) (filter not_drv (resumed_run (fst r) ++ held (snd r))).
Proof. exact conservation_ready. Qed.
Print Assumptions c06_conservation_ready.

(* once every object is destroyed and the queue drained, each ready coroutine was resumed exactly as often as handed in *)
Theorem c06_resumed_as_often_as_handed : forall coro ops h,
  let r := run_from coro env0 ops in
  held (snd r) = [] -> h <> driver ->
  count_z h (resumed_run (fst r)) = count_z h (handed_run ops (fst r)).
Proof.
  cbn zeta. intros coro ops h H N. pose proof (ready_balance coro ops env0 h wf_env0 N) as C. cbn zeta in C.
  rewrite H in C. change (held env0) with (@nil Z) in C. lia.
Qed.
Print Assumptions c06_resumed_as_often_as_handed.

Theorem c06_all_resumed_once : forall coro ops h,
  let r := run_from coro env0 ops in
  held (snd r) = [] -> h <> driver -> count_z h (handed_run ops (fst r)) = 1%nat ->
  count_z h (resumed_run (fst r)) = 1%nat.
Proof. cbn zeta. intros coro ops h H N I. rewrite (c06_resumed_as_often_as_handed coro ops h H N). exact I. Qed.
Print Assumptions c06_all_resumed_once.

Theorem c06_nothing_invented : forall coro ops h,
  let r := run_from coro env0 ops in
  h <> driver -> In h (resumed_run (fst r)) -> In h (handed_run ops (fst r)).
Proof.
  cbn zeta. intros coro ops h N I. apply count_z_In in I. apply count_z_In.
  pose proof (ready_balance coro ops env0 h wf_env0 N) as C. change (held env0) with (@nil Z) in C. cbn zeta in C. rewrite count_z_nil in C. lia.
Qed.
Print Assumptions c06_nothing_invented.

(* the awaiting coroutine: continued exactly once per accepted co_await (own handle in the list or not, at any position,
   after everything that ran in between), never resumed by any other op ... *)
Theorem c06_awaiter_resumed_once : forall coro ops e, wf_env e -> drv_run_ok ops (fst (run_from coro e ops)).
Proof. exact awaiter_once. Qed.
Print Assumptions c06_awaiter_resumed_once.

(* ... and never left behind in the ready queue while it runs (no later second resume); its handle is in at most one place *)
Theorem c06_awaiter_not_left_queued : forall coro ops,
  let e := snd (run_from coro env0 ops) in
  ~ In driver (queue e) /\ (count_z driver (held e) <= 1)%nat.
Proof. exact awaiter_not_left_queued. Qed.
Print Assumptions c06_awaiter_not_left_queued.

(* moved-from / merged-from / cleared / awaited objects are empty, and an empty object's destructor does nothing *)
Theorem c06_source_emptied : forall coro e x o,
  src_of x = Some o -> o_st (snd (step coro e x)) = 0 ->
  exists s, get (objs (fst (step coro e x))) o = Some s /\ cf s = 0.
Proof. exact source_is_emptied. Qed.
Print Assumptions c06_source_emptied.

Theorem c06_emptied_resumes_nothing : forall coro e o s,
  wf_env e -> get (objs e) o = Some s -> cf s = 0 ->
  let r := step coro e (ODestroy o) in
  o_st (snd r) = 0 /\ o_res (snd r) = [] /\ o_cost (snd r) = (0, 0) /\ queue (fst r) = queue e.
Proof.
  intros coro e o s W G C. cbn [step]. rewrite G. unfold suspend_now, sp_clear_internal, has_drv, sp_flag.
  rewrite (wf_count0 s (W _ _ G)), C by (unfold sp_count; rewrite C; reflexivity).
  destruct coro; cbn [existsb fst snd o_st o_res o_cost queue]; rewrite ?app_nil_r; auto.
Qed.
Print Assumptions c06_emptied_resumes_nothing.

(* heap arrays allocated - freed = arrays owned by live objects: nothing leaks, nothing is freed twice *)
Theorem c06_no_leak : forall coro ops,
  let r := run_from coro env0 ops in
  allocs_run (fst r) - frees_run (fst r) = arrs (objs (snd r)).
Proof. cbn zeta. intros coro ops. destruct (run_spec coro ops env0 wf_env0) as (_ & _ & A & _). change (arrs (objs env0)) with 0 in A. lia. Qed.
Print Assumptions c06_no_leak.

(* count never exceeds the capacity of the active array (no out-of-bounds slot), in every reachable state *)
Theorem c06_capacity_sound : forall coro ops i s,
  get (objs (snd (run_from coro env0 ops))) i = Some s ->
  zlen (hs s) = sp_count s /\ (sp_flag s = true -> sp_count s <= cap s) /\
  (sp_flag s = false -> sp_count s <= inline_count).
Proof. intros coro ops i s G. exact (wf_sp_bounds s (proj1 (run_spec coro ops env0 wf_env0) i s G)). Qed.
Print Assumptions c06_capacity_sound.

(* value clause: in every history, the value shown after each op / returned by each conversion / by each co_await is the
   one the independent account `vstep` assigns: set only by a construction, replaced by `moved` only when the object is
   the source of a move construction or move assignment, carried along by moves/swaps, untouched by everything else *)
Theorem c06_typed_value : forall coro ops,
  vals_ok [] ops (map encode_obs (fst (run_from coro env0 ops))) = true.
Proof. intros coro ops. exact (run_vals coro ops env0 [] wf_env0 vrel_nil). Qed.
Print Assumptions c06_typed_value.

(* reads return the stored value and change nothing: any number of reads, at any point *)
Theorem c06_read_changes_nothing : forall coro e o k s,
  get (objs e) o = Some s -> typed s = true -> k = 0 \/ k = 1 ->
  step coro e (ORead o k) = (e, ok_obs (sp_count s) (val s) (0, 0) []).
Proof. intros coro e o k s G T K. cbn [step]. rewrite G, T. destruct K; subst; reflexivity. Qed.
Print Assumptions c06_read_changes_nothing.

(* exception paths: an add() whose array allocation throws std::bad_alloc changes nothing and does not take the handle *)
Theorem c06_failed_add_changes_nothing : forall coro e o h s,
  get (objs e) o = Some s -> 0 < h ->
  (if sp_flag s then sp_count s =? cap s else negb (sp_count s <? inline_count)) = true ->
  let r := step coro e (OAddFail o h) in
  fst r = e /\ o_st (snd r) = 2 /\ o_size (snd r) = sp_count s /\ handed_op (OAddFail o h) (snd r) = [] /\ o_res (snd r) = [].
Proof. intros coro e o h s G HP NA. cbn [step]. rewrite G, NA. destruct (h <=? 0) eqn:E; [lia|]. cbn [fst snd]. repeat split. Qed.
Print Assumptions c06_failed_add_changes_nothing.

(* ... and a create_suspend_point whose callback throws loses neither the coroutines already queued nor the ones it readied
   (they are also covered by c06_conservation: the op hands in l) *)
Theorem c06_throwing_create_loses_nothing : forall coro e o t v l,
  forallb (fun h => 0 <? h) l = true -> get (objs e) o = None ->
  let r := step coro e (OCreateThrow o t v l) in
  objs (fst r) = objs e /\ o_st (snd r) = 0 /\
  if coro then queue (fst r) = queue e ++ l /\ o_res (snd r) = [] else queue (fst r) = queue e /\ o_res (snd r) = l.
Proof. intros coro e o t v l FP G. cbn [step]. rewrite FP, G. cbn [negb]. destruct coro; cbn [fst snd objs queue o_st o_res]; repeat split. Qed.
Print Assumptions c06_throwing_create_loses_nothing.

(* the decidable trace property used on the implementation's output holds of every closed run of the model *)
Theorem c06_oracle_sound : forall coro ops,
  let r := run_from coro env0 (map decode ops) in
  (forall i, get (objs (snd r)) i = None) -> queue (snd r) = [] ->
  sp_oracle ops (sp_run coro ops) = true.
Proof. exact oracle_sound. Qed.
Print Assumptions c06_oracle_sound.

(* non-vacuity: a concrete coroutine-mode run — typed object read twice, inline->heap, the awaiter's own handle in the
   middle of the awaited list, something already queued, merge, swap, pop — is closed and meets the hypotheses *)
Example c06_nonvacuous :
  let ops := [ONewV 0 7; ORead 0 0; ORead 0 1; OAdd 0 1; OAdd 0 2; OAddSelf 0; OAdd 0 3; OAdd 0 4;
              ONewVoidH 1 5; OClear 1; OCreate 2 true 9 [6; 8]; OSwap 0 2; OAwaitL 2; OPop 0; OMerge 1 0;
              ODestroy 0; ODestroy 1; ODestroy 2; OFlush] in
  let r := run_from true env0 ops in
  held (snd r) = [] /\ (forall i, get (objs (snd r)) i = None) /\
  filter not_drv (handed_run ops (fst r)) = [1;2;3;4;5;6;8] /\
  resumed_run (fst r) = [4;5;1;2;0;6;3;8;0] /\ allocs_run (fst r) = 2 /\
  map o_val (firstn 3 (fst r)) = [7;7;7].
Proof.
  vm_compute. repeat split; try reflexivity. intros i. do 3 (destruct i as [|i]; [reflexivity|]). destruct i; reflexivity.
Qed.
